(** * SessionProofs: an inductive invariant of the session-slot table model
    (SessionDefs.v), for every capacity [n] (0 included), and its consequences: distinct tokens, capacity, every held
    slot is counted by the reclamation protocol, WARN_MAX_SESSIONS only after
    every slot was seen occupied, the solo behaviour of enter, slot reuse. *)
From Coq Require Import Lia.
From Yk Require Import ListAux SessionDefs.

Definition reachable (n : nat) (s : sst) : Prop := exists tr, srun n sinit tr = Some s.

(** ** pointwise update *)

Lemma upd_same {A} (f : nat -> A) i v : upd f i v i = v.
Proof. unfold upd. rewrite Nat.eqb_refl. reflexivity. Qed.

Lemma upd_other {A} (f : nat -> A) i v j : j <> i -> upd f i v j = f j.
Proof. unfold upd. intros H. destruct (Nat.eqb_spec j i); [contradiction|reflexivity]. Qed.

Lemma upd_forall2 {A B} (P : A -> B -> Prop) f g t x y :
  (forall u, u <> t -> P (f u) (g u)) -> P x y -> forall u, P (upd f t x u) (upd g t y u).
Proof.
  intros H Hxy u. unfold upd. destruct (Nat.eqb_spec u t); [exact Hxy | apply H; assumption].
Qed.

Lemma upd_forall1 {A B} (P : A -> B -> Prop) f (g : nat -> B) t x :
  (forall u, u <> t -> P (f u) (g u)) -> P x (g t) -> forall u, P (upd f t x u) (g u).
Proof.
  intros H Hx u. unfold upd. destruct (Nat.eqb_spec u t) as [->|]; [exact Hx | apply H; assumption].
Qed.

(** ** [sstep] as a relation *)

Definition set_pc (s : sst) (t : nat) (q : tpc) : sst :=
  {| running := running s; begin_ := begin_ s; pc := upd (pc s) t q; obs := obs s |}.

Definition saw (n : nat) (s : sst) (t i : nat) : sst :=
  {| running := running s; begin_ := begin_ s;
     pc := upd (pc s) t (next_probe n i); obs := upd (obs s) t (i :: obs s t) |}.

Inductive SStep (n : nat) (s : sst) : sev -> sst -> Prop :=
| S_enter t : pc s t = TIdle ->
    SStep n s (EnterCall t)
      {| running := running s; begin_ := begin_ s;
         pc := upd (pc s) t (if 0 <? n then TProbe 0 else TFull); obs := upd (obs s) t [] |}
| S_load_busy t i : pc s t = TProbe i -> running s i = true ->
    SStep n s (LoadRunning t i true) (saw n s t i)
| S_load_free t i : pc s t = TProbe i -> running s i = false ->
    SStep n s (LoadRunning t i false) (set_pc s t (TCas i))
| S_cas t i : pc s t = TCas i -> running s i = false ->
    SStep n s (CasRunning t i true)
      {| running := upd (running s) i true; begin_ := begin_ s;
         pc := upd (pc s) t (TClaimed i false); obs := obs s |}
| S_cas_busy t i : pc s t = TCas i -> running s i = true ->
    SStep n s (CasRunning t i false) (saw n s t i)
| S_cas_spurious t i : pc s t = TCas i -> running s i = false ->
    SStep n s (CasRunning t i false) s
| S_store t i pub e : pc s t = TClaimed i pub -> e <> 0%N ->
    SStep n s (StoreBegin t i e)
      {| running := running s; begin_ := upd (begin_ s) i e;
         pc := upd (pc s) t (TClaimed i true); obs := obs s |}
| S_ret t i : pc s t = TClaimed i true -> SStep n s (EnterRet t (Some i)) (set_pc s t (THold i))
| S_ret_full t : pc s t = TFull -> SStep n s (EnterRet t None) (set_pc s t TIdle)
| S_leave t i : pc s t = THold i -> SStep n s (LeaveCall t i) (set_pc s t (TLeaving i))
| S_clear_begin t i : pc s t = TLeaving i ->
    SStep n s (ClearBegin t i)
      {| running := running s; begin_ := upd (begin_ s) i 0%N;
         pc := upd (pc s) t (TLeave1 i); obs := obs s |}
| S_clear_running t i : pc s t = TLeave1 i ->
    SStep n s (ClearRunning t i)
      {| running := upd (running s) i false; begin_ := begin_ s;
         pc := upd (pc s) t TIdle; obs := obs s |}.

Lemma sstep_SStep n s e s' : sstep n s e = Some s' -> SStep n s e s'.
Proof.
  destruct e as [t|t i v|t i ok|t i e|t r|t i|t i|t i]; cbn [sstep];
    destruct (pc s t) as [|j|j|j pub| |j|j|j] eqn:Hpc; try discriminate.
  - intros [= <-]. now constructor.
  - destruct (Nat.eqb_spec i j) as [->|]; cbn [negb orb]; [|discriminate].
    destruct (Bool.eqb v (running s j)) eqn:Hv; cbn [negb]; [|discriminate].
    apply eqb_prop in Hv. destruct v; intros [= <-]; now constructor.
  - destruct (Nat.eqb_spec i j) as [->|]; cbn [negb]; [|discriminate].
    destruct ok, (running s j) eqn:Hr; try discriminate; intros [= <-]; now constructor.
  - destruct (Nat.eqb_spec i j) as [->|]; cbn [negb orb]; [|discriminate].
    destruct (N.eqb_spec e 0); [discriminate|]. intros [= <-]. now apply S_store with pub.
  - destruct pub, r as [i|]; try discriminate.
    destruct (Nat.eqb_spec i j) as [->|]; [|discriminate]. intros [= <-]. now constructor.
  - destruct r; [discriminate|]. intros [= <-]. now constructor.
  - destruct (Nat.eqb_spec i j) as [->|]; [|discriminate]. intros [= <-]. now constructor.
  - destruct (Nat.eqb_spec i j) as [->|]; [|discriminate]. intros [= <-]. now constructor.
  - destruct (Nat.eqb_spec i j) as [->|]; [|discriminate]. intros [= <-]. now constructor.
Qed.

(** ** classification of program counters *)

Definition idx (p : tpc) : option nat :=
  match p with
  | TProbe i | TCas i | TClaimed i _ | THold i | TLeaving i | TLeave1 i => Some i
  | TIdle | TFull => None
  end.

(** the slot whose begin epoch the thread has published and not yet cleared *)
Definition pubd (p : tpc) : option nat :=
  match p with
  | THold i | TLeaving i | TClaimed i true => Some i
  | _ => None
  end.

Definition seen (n : nat) (p : tpc) (l : list nat) : Prop :=
  match p with
  | TProbe i | TCas i => forall j, j < i -> In j l
  | TFull => forall j, j < n -> In j l
  | _ => True
  end.

Lemma pubd_owns p i : pubd p = Some i -> owns p = Some i.
Proof. destruct p as [| | |j pub| | | |]; try destruct pub; simpl; congruence. Qed.

Lemma holds_owns p i : holds p = Some i -> owns p = Some i.
Proof. destruct p; simpl; congruence. Qed.

Lemma holds_pubd p i : holds p = Some i -> pubd p = Some i.
Proof. destruct p; simpl; congruence. Qed.

Lemma owns_idx p i : owns p = Some i -> idx p = Some i.
Proof. destruct p; simpl; congruence. Qed.

(** ** the invariant *)

Definition OwnInv (run : nat -> bool) (p : nat -> tpc) : Prop :=
  (forall i, run i = true <-> exists t, owns (p t) = Some i) /\
  (forall t1 t2 i, owns (p t1) = Some i -> owns (p t2) = Some i -> t1 = t2).

Definition tinv (n : nat) (b : nat -> N) (p : tpc) (l : list nat) : Prop :=
  (forall i, idx p = Some i -> i < n) /\
  (forall i, pubd p = Some i -> b i <> 0%N) /\
  seen n p l.

Definition Inv (n : nat) (s : sst) : Prop :=
  OwnInv (running s) (pc s) /\ forall t, tinv n (begin_ s) (pc s t) (obs s t).

Lemma Inv_intro n r b p o :
  OwnInv r p -> (forall t, tinv n b (p t) (o t)) ->
  Inv n {| running := r; begin_ := b; pc := p; obs := o |}.
Proof. intros HO HT. exact (conj HO HT). Qed.

(** *** ownership *)

Lemma own_keep run p t q :
  OwnInv run p -> owns q = owns (p t) -> OwnInv run (upd p t q).
Proof.
  intros [A B] Hq.
  assert (E : forall u, owns (upd p t q u) = owns (p u)).
  { intros u. unfold upd. destruct (Nat.eqb_spec u t); [subst; assumption | reflexivity]. }
  split.
  - intros i. rewrite A. split; intros [u Hu]; exists u; [rewrite E | rewrite <- E]; exact Hu.
  - intros t1 t2 i. rewrite !E. apply B.
Qed.

Lemma owner_other p t q i k :
  k <> i -> (forall j, owns (p t) = Some j -> j = i) -> (forall j, owns q = Some j -> j = i) ->
  ((exists u, owns (p u) = Some k) <-> exists u, owns (upd p t q u) = Some k).
Proof.
  intros Hk Hp Hq. split; intros [u Hu]; exists u.
  - rewrite upd_other; [exact Hu|]. intros ->. apply Hk, Hp, Hu.
  - destruct (Nat.eq_dec u t) as [->|Hut].
    + rewrite upd_same in Hu. exfalso. apply Hk, Hq, Hu.
    + rewrite upd_other in Hu by assumption. exact Hu.
Qed.

Lemma own_acquire run p t q i :
  OwnInv run p -> owns (p t) = None -> run i = false -> owns q = Some i ->
  OwnInv (upd run i true) (upd p t q).
Proof.
  intros [A B] Hn Hr Hq.
  assert (Hfree : forall u, owns (p u) = Some i -> False).
  { intros u Hu. assert (run i = true) by (apply A; exists u; exact Hu). congruence. }
  split.
  - intros k. destruct (Nat.eq_dec k i) as [->|Hk].
    + rewrite upd_same. split; [|reflexivity]. intros _. exists t. rewrite upd_same. exact Hq.
    + rewrite upd_other, A by assumption. apply owner_other with i; [assumption| |]; congruence.
  - intros t1 t2 k H1 H2.
    destruct (Nat.eq_dec t1 t) as [->|H1t]; destruct (Nat.eq_dec t2 t) as [->|H2t].
    + reflexivity.
    + rewrite upd_same in H1. rewrite upd_other in H2 by assumption.
      exfalso. apply (Hfree t2). congruence.
    + rewrite upd_same in H2. rewrite upd_other in H1 by assumption.
      exfalso. apply (Hfree t1). congruence.
    + rewrite upd_other in H1, H2 by assumption. exact (B _ _ _ H1 H2).
Qed.

Lemma own_release run p t q i :
  OwnInv run p -> owns (p t) = Some i -> owns q = None ->
  OwnInv (upd run i false) (upd p t q).
Proof.
  intros [A B] Ho Hq. split.
  - intros k. destruct (Nat.eq_dec k i) as [->|Hk].
    + rewrite upd_same. split; [discriminate|]. intros [u Hu].
      destruct (Nat.eq_dec u t) as [->|Hut].
      * rewrite upd_same in Hu. congruence.
      * rewrite upd_other in Hu by assumption. exfalso. apply Hut. exact (B _ _ _ Hu Ho).
    + rewrite upd_other, A by assumption. apply owner_other with i; [assumption| |]; congruence.
  - intros t1 t2 k H1 H2.
    destruct (Nat.eq_dec t1 t) as [->|H1t]; [rewrite upd_same in H1; congruence|].
    destruct (Nat.eq_dec t2 t) as [->|H2t]; [rewrite upd_same in H2; congruence|].
    rewrite upd_other in H1, H2 by assumption. exact (B _ _ _ H1 H2).
Qed.

(** *** one thread *)

Lemma tinv_begin n b b' p l :
  (forall i, pubd p = Some i -> b i <> 0%N -> b' i <> 0%N) -> tinv n b p l -> tinv n b' p l.
Proof. intros H (Hi & Hp & Hs). repeat split; auto. Qed.

Lemma tinv_idle n b l : tinv n b TIdle l.
Proof. repeat split; discriminate. Qed.

(** [next_probe n i] is this program counter for [S i] *)
Lemma tinv_probe n b i l :
  i <= n -> (forall j, j < i -> In j l) -> tinv n b (if i <? n then TProbe i else TFull) l.
Proof.
  intros Hi Hl. destruct (Nat.ltb_spec i n) as [Hlt|Hge]; repeat split; try discriminate.
  - intros k [= <-]. exact Hlt.
  - exact Hl.
  - intros j Hj. apply Hl. lia.
Qed.

Lemma owns_probe n i : owns (if i <? n then TProbe i else TFull) = None.
Proof. destruct (i <? n); reflexivity. Qed.

Lemma owns_next_probe n i : owns (next_probe n i) = None.
Proof. apply owns_probe. Qed.

(** ** the invariant is inductive *)

Lemma inv_init n : Inv n sinit.
Proof.
  apply Inv_intro; [|intros t; apply tinv_idle].
  split; [intros i; split; [discriminate | intros [t Ht]; discriminate] | discriminate].
Qed.

Lemma inv_pc n s t q :
  Inv n s -> owns q = owns (pc s t) -> tinv n (begin_ s) q (obs s t) -> Inv n (set_pc s t q).
Proof.
  intros [HO HT] Ho Hq. apply Inv_intro.
  - apply own_keep; assumption.
  - apply upd_forall1; auto.
Qed.

Lemma inv_saw n s t i :
  Inv n s -> pc s t = TProbe i \/ pc s t = TCas i -> Inv n (saw n s t i).
Proof.
  intros [HO HT] Hpc. apply Inv_intro.
  - apply own_keep; [assumption|]. rewrite owns_next_probe. now destruct Hpc as [-> | ->].
  - apply upd_forall2; [auto|]. destruct (HT t) as (Hi & _ & Hs).
    assert (i < n /\ forall j, j < i -> In j (obs s t)) as [Hlt Hl].
    { destruct Hpc as [E|E]; rewrite E in Hi, Hs; (split; [apply Hi; reflexivity | exact Hs]). }
    apply (tinv_probe n _ (S i)); [exact Hlt|].
    intros j Hj. destruct (Nat.eq_dec i j); [left; assumption | right; apply Hl; lia].
Qed.

Lemma inv_step n s e s' : Inv n s -> sstep n s e = Some s' -> Inv n s'.
Proof.
  intros HI H. apply sstep_SStep in H. pose proof HI as [HO HT].
  destruct H as [t Hpc|t i Hpc Hr|t i Hpc Hr|t i Hpc Hr|t i Hpc Hr|t i Hpc Hr|t i pub e Hpc He
                |t i Hpc|t Hpc|t i Hpc|t i Hpc|t i Hpc];
    pose proof (HT t) as Ht; rewrite Hpc in Ht.
  - (* S_enter *)
    apply Inv_intro.
    + apply own_keep; [assumption|]. rewrite Hpc. apply owns_probe.
    + apply upd_forall2; [auto|]. apply tinv_probe; [lia | intros j Hj; lia].
  - (* S_load_busy *) apply inv_saw; auto.
  - (* S_load_free *) apply inv_pc; [assumption | rewrite Hpc; reflexivity | exact Ht].
  - (* S_cas *)
    apply Inv_intro.
    + apply own_acquire; [assumption | rewrite Hpc; reflexivity | assumption | reflexivity].
    + apply upd_forall1; [auto|]. destruct Ht as (Hi & _ & _).
      repeat split; [exact Hi | discriminate].
  - (* S_cas_busy *) apply inv_saw; auto.
  - (* S_cas_spurious *) exact HI.
  - (* S_store *)
    apply Inv_intro.
    + apply own_keep; [assumption|]. rewrite Hpc. reflexivity.
    + assert (Hb : forall k, begin_ s k <> 0%N -> upd (begin_ s) i e k <> 0%N).
      { apply (upd_forall1 (fun x y => y <> 0%N -> x <> 0%N)); auto. }
      apply upd_forall1.
      * intros u _. apply (tinv_begin n (begin_ s)); auto.
      * destruct Ht as (Hi & _ & _). repeat split; [exact Hi|].
        intros k [= <-]. rewrite upd_same. exact He.
  - (* S_ret *) apply inv_pc; [assumption | rewrite Hpc; reflexivity | exact Ht].
  - (* S_ret_full *) apply inv_pc; [assumption | rewrite Hpc; reflexivity | apply tinv_idle].
  - (* S_leave *) apply inv_pc; [assumption | rewrite Hpc; reflexivity | exact Ht].
  - (* S_clear_begin *)
    apply Inv_intro.
    + apply own_keep; [assumption|]. rewrite Hpc. reflexivity.
    + apply upd_forall1.
      * (* another thread has published a slot it owns, hence not [i] *)
        intros u Hu. apply (tinv_begin n (begin_ s)); [|apply HT]. intros k Hk.
        rewrite upd_other; [trivial|]. intros ->. apply Hu.
        apply (proj2 HO u t i); [apply pubd_owns, Hk | rewrite Hpc; reflexivity].
      * destruct Ht as (Hi & _ & _). repeat split; [exact Hi | discriminate].
  - (* S_clear_running *)
    apply Inv_intro.
    + apply own_release; [assumption | rewrite Hpc; reflexivity | reflexivity].
    + apply upd_forall1; [auto | apply tinv_idle].
Qed.

Lemma inv_srun n tr : forall s s', Inv n s -> srun n s tr = Some s' -> Inv n s'.
Proof.
  apply (run_inv (sstep n) (srun n)); [intros s evs; destruct evs; reflexivity|apply inv_step].
Qed.

Theorem reachable_inv n s : reachable n s -> Inv n s.
Proof. intros [tr H]. exact (inv_srun n tr sinit s (inv_init n) H). Qed.

Theorem reachable_core n s : reachable n s ->
  (forall i, running s i = true <-> exists t, owns (pc s t) = Some i) /\
  (forall t1 t2 i, owns (pc s t1) = Some i -> owns (pc s t2) = Some i -> t1 = t2) /\
  (forall t i, pc s t = TProbe i \/ pc s t = TCas i \/ owns (pc s t) = Some i -> i < n) /\
  (forall t i, pc s t = THold i \/ pc s t = TLeaving i \/ pc s t = TClaimed i true ->
               begin_ s i <> 0%N) /\
  (forall t i, pc s t = TProbe i \/ pc s t = TCas i -> forall j, j < i -> In j (obs s t)) /\
  (forall t, pc s t = TFull -> forall j, j < n -> In j (obs s t)).
Proof.
  intros HR. destruct (reachable_inv n s HR) as ([A B] & HT).
  repeat apply conj.
  - exact A.
  - exact B.
  - intros t i H. destruct (HT t) as (Hi & _). apply Hi.
    destruct H as [->|[->|H]]; [reflexivity..|apply owns_idx, H].
  - intros t i H. destruct (HT t) as (_ & Hp & _). apply Hp.
    destruct H as [->|[->| ->]]; reflexivity.
  - intros t i H. destruct (HT t) as (_ & _ & Hs). destruct H as [H|H]; rewrite H in Hs; exact Hs.
  - intros t H. destruct (HT t) as (_ & _ & Hs). rewrite H in Hs. exact Hs.
Qed.

(** ** consequences *)

Theorem capacity_owns n s ts : reachable n s ->
  NoDup ts -> (forall t, In t ts -> owns (pc s t) <> None) -> length ts <= n.
Proof.
  intros HR Hnd Hall. destruct (reachable_core n s HR) as (_ & B & HB & _).
  set (f := fun t => match owns (pc s t) with Some i => i | None => 0 end).
  assert (Hf : forall t, In t ts -> owns (pc s t) = Some (f t)).
  { intros t Ht. unfold f. specialize (Hall t Ht).
    destruct (owns (pc s t)); [reflexivity|contradiction]. }
  rewrite <- (map_length f ts), <- (seq_length n 0).
  apply NoDup_incl_length.
  - apply NoDup_map_inj_on; [assumption|]. intros x y Hx Hy Hxy.
    apply (B x y (f x)); [apply Hf; assumption | rewrite Hxy; apply Hf; assumption].
  - intros k Hk. apply in_map_iff in Hk. destruct Hk as (t & <- & Ht).
    apply in_seq. split; [lia|]. cbn. apply (HB t). right; right. apply Hf. exact Ht.
Qed.

Theorem capacity n s ts : reachable n s ->
  NoDup ts -> (forall t, In t ts -> holds (pc s t) <> None) -> length ts <= n.
Proof.
  intros HR Hnd Hall. apply (capacity_owns n s ts HR Hnd).
  intros t Ht Ho. apply (Hall t Ht). destruct (pc s t); simpl in *; congruence.
Qed.

(** the epoch thread's minimum skips slots whose begin epoch is 0: a session
    that holds a token is not skipped *)
Theorem counted n s t i : reachable n s ->
  holds (pc s t) = Some i -> begin_ s i <> 0%N /\ running s i = true.
Proof.
  intros HR H. destruct (reachable_inv n s HR) as ([A _] & HT). split.
  - apply (HT t), holds_pubd, H.
  - apply A. exists t. apply holds_owns, H.
Qed.

(** ** observations are sound *)

Definition observes (e : sev) (t i : nat) : bool :=
  match e with
  | LoadRunning t' i' true | CasRunning t' i' false => Nat.eqb t t' && Nat.eqb i i'
  | _ => false
  end.

Theorem obs_sound n s e s' t i :
  sstep n s e = Some s' -> In i (obs s' t) ->
  In i (obs s t) \/ (observes e t i = true /\ running s i = true).
Proof.
  intros H Hin. apply sstep_SStep in H.
  assert (Hsaw : forall u k, running s k = true -> In i (obs (saw n s u k) t) ->
            In i (obs s t) \/ ((t =? u) && (i =? k) = true /\ running s i = true)).
  { intros u k Hr. cbn [saw obs]. destruct (Nat.eq_dec t u) as [->|Hn].
    - rewrite upd_same. intros [<-|Hi]; [right | left; exact Hi].
      rewrite !Nat.eqb_refl. split; [reflexivity | exact Hr].
    - rewrite upd_other by exact Hn. left; assumption. }
  destruct H as [u _| | | | | | | | | | |]; cbn [set_pc obs] in Hin; try (left; exact Hin).
  - destruct (Nat.eq_dec t u) as [->|Hn]; [rewrite upd_same in Hin; destruct Hin|].
    rewrite upd_other in Hin by exact Hn. left; exact Hin.
  - apply Hsaw; assumption.
  - apply Hsaw; assumption.
Qed.

Theorem enter_resets_obs n s t s' : sstep n s (EnterCall t) = Some s' -> obs s' t = [].
Proof. intros H. apply sstep_SStep in H. inversion_clear H. apply upd_same. Qed.

(** *** trace form *)

Lemma srun_app n tr1 tr2 : forall s,
  srun n s (tr1 ++ tr2) =
  match srun n s tr1 with Some s1 => srun n s1 tr2 | None => None end.
Proof.
  intros s. apply (run_app (sstep n) (srun n)). intros s0 evs. destruct evs; reflexivity.
Qed.

Definition Saw (n : nat) (tr : list sev) (t j : nat) : Prop :=
  exists tr1 e tr2 s1,
    tr = tr1 ++ e :: tr2 /\ srun n sinit tr1 = Some s1 /\
    running s1 j = true /\ observes e t j = true /\ ~ In (EnterCall t) tr2.

Theorem obs_saw n tr : forall s t j,
  srun n sinit tr = Some s -> In j (obs s t) -> Saw n tr t j.
Proof.
  induction tr as [|e tr IH] using rev_ind; intros s t j H Hin.
  - cbn [srun] in H. injection H as <-. destruct Hin.
  - rewrite srun_app in H. destruct (srun n sinit tr) as [s0|] eqn:H0; [|discriminate].
    cbn [srun] in H. destruct (sstep n s0 e) as [s1|] eqn:He; [|discriminate].
    injection H as <-.
    destruct (obs_sound n s0 e s1 t j He Hin) as [Hold|[Hobs Hrun]].
    + destruct (IH s0 t j eq_refl Hold) as (tr1 & e0 & tr2 & s2 & -> & Hr & Hj & Ho & Hn).
      exists tr1, e0, (tr2 ++ [e]), s2. repeat apply conj; try assumption.
      * rewrite <- app_assoc. reflexivity.
      * intros Hi. apply in_app_or in Hi. destruct Hi as [Hi|[Hi|[]]]; [exact (Hn Hi)|].
        subst e. rewrite (enter_resets_obs _ _ _ _ He) in Hin. destruct Hin.
    + exists tr, e, [], s0. repeat apply conj; try assumption; [reflexivity | intros []].
Qed.

(** ** quiescent behaviour: enter run solo *)

Fixpoint solo_from (run : nat -> bool) (k i : nat) : option nat :=
  match k with
  | 0 => None
  | S k' => if run i then solo_from run k' (S i) else Some i
  end.

(** the same for every [t] *)
Definition solo_enter (n : nat) (s : sst) (t : nat) : option nat :=
  solo_from (running s) n 0.

Fixpoint solo_probe_tr (run : nat -> bool) (t k i : nat) : list sev :=
  match k with
  | 0 => [EnterRet t None]
  | S k' =>
    if run i then LoadRunning t i true :: solo_probe_tr run t k' (S i)
    else [LoadRunning t i false; CasRunning t i true; StoreBegin t i 1%N; EnterRet t (Some i)]
  end.

Definition solo_trace (n : nat) (s : sst) (t : nat) : list sev :=
  EnterCall t :: solo_probe_tr (running s) t n 0.

Definition ev_thread (e : sev) : nat :=
  match e with
  | EnterCall t | LoadRunning t _ _ | CasRunning t _ _ | StoreBegin t _ _
  | EnterRet t _ | LeaveCall t _ | ClearBegin t _ | ClearRunning t _ => t
  end.

Lemma solo_from_none run k : forall i,
  solo_from run k i = None <-> forall j, i <= j < i + k -> run j = true.
Proof.
  induction k as [|k IH]; intros i; cbn [solo_from].
  - split; [intros _ j Hj; lia | reflexivity].
  - destruct (run i) eqn:Hr.
    + rewrite IH. split; intros H j Hj.
      * destruct (Nat.eq_dec j i) as [->|]; [exact Hr | apply H; lia].
      * apply H; lia.
    + split; [discriminate|]. intros H. rewrite H in Hr by lia. discriminate.
Qed.

Lemma solo_from_some run k : forall i j,
  solo_from run k i = Some j ->
  i <= j < i + k /\ run j = false /\ forall m, i <= m < j -> run m = true.
Proof.
  induction k as [|k IH]; intros i j; cbn [solo_from]; [discriminate|].
  destruct (run i) eqn:Hr.
  - intros H. destruct (IH _ _ H) as (Hb & Hf & Hl). repeat apply conj; try lia; [exact Hf|].
    intros m Hm. destruct (Nat.eq_dec m i) as [->|]; [exact Hr | apply Hl; lia].
  - intros H. injection H as <-. repeat apply conj; try lia; exact Hr.
Qed.

Lemma solo_probe_thread run t k : forall i,
  Forall (fun e => ev_thread e = t) (solo_probe_tr run t k i).
Proof.
  induction k as [|k IH]; intros i; cbn [solo_probe_tr].
  - repeat constructor.
  - destruct (run i); [constructor; [reflexivity | apply IH] | repeat constructor].
Qed.

Lemma solo_probe_last run t k : forall i,
  exists tr0, solo_probe_tr run t k i = tr0 ++ [EnterRet t (solo_from run k i)].
Proof.
  induction k as [|k IH]; intros i; cbn [solo_probe_tr solo_from].
  - exists []. reflexivity.
  - destruct (run i).
    + destruct (IH (S i)) as [tr0 ->]. exists (LoadRunning t i true :: tr0). reflexivity.
    + exists [LoadRunning t i false; CasRunning t i true; StoreBegin t i 1%N]. reflexivity.
Qed.

Lemma solo_loop n t k : forall i s1,
  i + k = n -> pc s1 t = (if i <? n then TProbe i else TFull) ->
  exists s', srun n s1 (solo_probe_tr (running s1) t k i) = Some s' /\
    pc s' t = match solo_from (running s1) k i with Some j => THold j | None => TIdle end /\
    (forall u, u <> t -> pc s' u = pc s1 u).
Proof.
  induction k as [|k IH]; intros i s1 Hik Hpc; cbn [solo_probe_tr solo_from].
  - assert (i = n) by lia. subst i. rewrite Nat.ltb_irrefl in Hpc.
    cbn [srun sstep]. rewrite Hpc. eexists. split; [reflexivity|].
    cbn [pc]. split.
    + apply upd_same.
    + intros u Hu. apply upd_other. exact Hu.
  - destruct (Nat.ltb_spec i n) as [Hin|]; [|lia].
    destruct (running s1 i) eqn:Hr.
    + cbn [srun sstep]. rewrite Hpc, Nat.eqb_refl, Hr. cbn [negb orb Bool.eqb].
      match goal with |- exists s', srun n ?s0 _ = _ /\ _ =>
        destruct (IH (S i) s0) as (s' & Hrun & Hp & Hoth) end.
      * lia.
      * cbn [pc]. rewrite upd_same. reflexivity.
      * cbn [running pc] in *. exists s'. repeat apply conj.
        -- exact Hrun.
        -- exact Hp.
        -- intros u Hu. rewrite (Hoth u Hu). apply upd_other. exact Hu.
    + cbn [srun sstep]. rewrite Hpc, Nat.eqb_refl, Hr. cbn [negb orb Bool.eqb].
      cbn [pc running]. rewrite upd_same, Nat.eqb_refl. cbn [negb]. rewrite Hr.
      cbn [pc running]. rewrite upd_same, Nat.eqb_refl. cbn [negb orb].
      change ((1 =? 0)%N) with false. cbn [pc]. rewrite upd_same, Nat.eqb_refl.
      eexists. split; [reflexivity|]. cbn [pc]. split.
      * apply upd_same.
      * intros u Hu. rewrite !upd_other by exact Hu. reflexivity.
Qed.

Theorem quiescent_enter n s t : pc s t = TIdle ->
  exists tr s',
    Forall (fun e => ev_thread e = t) tr /\
    (exists tr0, tr = tr0 ++ [EnterRet t (solo_enter n s t)]) /\
    srun n s tr = Some s' /\
    pc s' t = match solo_enter n s t with Some i => THold i | None => TIdle end /\
    (forall u, u <> t -> pc s' u = pc s u).
Proof.
  intros Hpc. unfold solo_enter.
  set (s0 := {| running := running s; begin_ := begin_ s;
                pc := upd (pc s) t (if 0 <? n then TProbe 0 else TFull);
                obs := upd (obs s) t [] |}).
  destruct (solo_loop n t n 0 s0) as (s' & Hrun & Hp & Hoth).
  - reflexivity.
  - unfold s0; cbn [pc]. apply upd_same.
  - exists (solo_trace n s t), s'. unfold solo_trace. cbn [running] in *. repeat apply conj.
    + constructor; [reflexivity | apply solo_probe_thread].
    + destruct (solo_probe_last (running s) t n 0) as [tr0 ->].
      exists (EnterCall t :: tr0). reflexivity.
    + cbn [srun sstep]. rewrite Hpc. exact Hrun.
    + exact Hp.
    + intros u Hu. rewrite (Hoth u Hu). unfold s0; cbn [pc]. apply upd_other. exact Hu.
Qed.

Theorem solo_enter_none_iff n s t :
  solo_enter n s t = None <-> forall i, i < n -> running s i = true.
Proof.
  unfold solo_enter. rewrite solo_from_none. split; intros H i Hi; apply H; lia.
Qed.

Theorem solo_enter_some n s t i : solo_enter n s t = Some i ->
  i < n /\ running s i = false /\ forall j, j < i -> running s j = true.
Proof.
  unfold solo_enter. intros H. apply solo_from_some in H. destruct H as (Hb & Hf & Hl).
  repeat apply conj; [lia | exact Hf | intros j Hj; apply Hl; lia].
Qed.

Definition occupied (n : nat) (s : sst) : nat := length (filter (running s) (seq 0 n)).

Lemma occupied_le n s : occupied n s <= n.
Proof.
  unfold occupied. rewrite <- (seq_length n 0) at 2. apply filter_length_full.
Qed.

Theorem solo_enter_succeeds_iff n s t :
  (exists i, solo_enter n s t = Some i) <-> occupied n s < n.
Proof.
  assert (E : occupied n s = n <-> solo_enter n s t = None).
  { rewrite solo_enter_none_iff. unfold occupied. rewrite <- (seq_length n 0) at 2.
    rewrite (proj2 (filter_length_full (running s) (seq 0 n))).
    split; intros H i Hi; apply H; [apply in_seq; lia | apply in_seq in Hi; lia]. }
  pose proof (occupied_le n s). split.
  - intros [i Hi]. destruct (Nat.eq_dec (occupied n s) n) as [He|]; [|lia].
    apply E in He. congruence.
  - intros Hlt. destruct (solo_enter n s t) as [i|] eqn:Hs; [exists i; reflexivity|].
    assert (occupied n s = n) by (apply E; reflexivity). lia.
Qed.

(** ** reuse *)

Lemma clear_running_frees n s t i s' :
  sstep n s (ClearRunning t i) = Some s' ->
  pc s t = TLeave1 i /\ running s' i = false /\ pc s' t = TIdle.
Proof.
  intros H. apply sstep_SStep in H. inversion_clear H.
  repeat split; [assumption | apply upd_same..].
Qed.

Theorem reuse n s t i s' : reachable n s ->
  sstep n s (ClearRunning t i) = Some s' ->
  running s' i = false /\ pc s' t = TIdle /\
  exists j, solo_enter n s' t = Some j /\ j <= i.
Proof.
  intros HR H. destruct (clear_running_frees n s t i s' H) as (Hpc & Hf & Hp).
  repeat apply conj; [exact Hf | exact Hp |].
  assert (i < n) as Hi.
  { destruct (reachable_inv n s HR) as [_ HT]. apply (HT t). rewrite Hpc. reflexivity. }
  destruct (solo_enter n s' t) as [j|] eqn:Hs.
  - exists j. split; [reflexivity|]. apply solo_enter_some in Hs. destruct Hs as (_ & _ & Hl).
    destruct (Nat.le_gt_cases j i) as [|Hlt]; [assumption|].
    rewrite (Hl i Hlt) in Hf. discriminate.
  - rewrite solo_enter_none_iff in Hs. rewrite (Hs i Hi) in Hf. discriminate.
Qed.
