(** * C07 -- epoch-based reclamation: with the repaired enter protocol (publish
    the begin epoch, re-read the epoch, repeat until equal) no object is freed
    while a session that was active when it was retired is still inside, and no
    object is freed twice; the original read-then-publish enter protocol is
    refuted by a concrete interleaving.  Property theorems only; the invariant
    is in EpochProofs.v. *)
From Yk Require Import EpochDefs EpochProofs.
Local Open Scope N_scope.

(** for every number of slots and every interleaving accepted by the model of
    the repaired protocol: every freed object is protected by no session that is
    still active, and was freed once *)
Theorem C07_no_early_free :
  forall n tr s, run true n init_st tr = Some s -> forall o, safe_obj s o = true.
Proof. exact no_early_free. Qed.
Print Assumptions C07_no_early_free.

(** the original enter protocol (read the epoch, publish it, return): one slot,
    22 steps, the object retired by the only session is freed while that session
    is still active *)
Theorem C07_original_enter_refuted :
  exists tr s, run false 1 init_st tr = Some s /\ safe_obj s 0 = false.
Proof. exact original_enter_refuted. Qed.
Print Assumptions C07_original_enter_refuted.

(** no object is freed twice: a second free would leave it [DoubleFreed] *)
Theorem C07_retired_once :
  forall n tr s, run true n init_st tr = Some s -> forall o, ost s o <> DoubleFreed.
Proof.
  intros n tr s Hr o Ho. pose proof (no_early_free n tr s Hr o) as Hs.
  unfold safe_obj in Hs. rewrite Ho in Hs. discriminate.
Qed.
Print Assumptions C07_retired_once.

(** non-vacuity: two slots; sessions (0,1) and (1,1) are both active when
    session (0,1) retires object 5; both leave; the epoch advances twice
    (gc epoch 2 > tag 1); a new session (1,2) enters; the gc thread frees
    object 5 *)
Definition c07_trace : list ev :=
  [Claim 0; RdE 0; PubB 0; Recheck 0; Claim 1; RdE 1; PubB 1; Recheck 1;
   Retire 0 0 5; Leave1 1; Leave2 1; Leave1 0;
   EStart; EVer; EVer; EVer; EIncr; EMinStep; EMinStep; EMinStep; EPublish;
   EStart; EVer; EVer; EVer; EIncr; EMinStep; EMinStep; EMinStep; EPublish;
   Claim 1; RdE 1; PubB 1; Recheck 1;
   GStart; GCacheStep; GLoopStep]%nat.

Example C07_nonvacuous :
  exists s, run true 2 init_st c07_trace = Some s /\
            prot s 5 = [(1, 1); (0, 1)]%nat /\
            ost s 5 = Freed /\ safe_obj s 5 = true /\
            gE s = 3 /\ gG s = 2 /\
            ss (slots s 1) = SActive /\ sinst (slots s 1) = 2%nat.
Proof. eexists. split; [vm_compute; reflexivity|]. vm_compute. repeat split. Qed.
Print Assumptions C07_nonvacuous.
