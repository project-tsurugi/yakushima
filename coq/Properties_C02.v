(** * C02 -- single-threaded behaviour equals an ordered byte-string map.

    Full statement: for every operation list [ops] over create / delete-storage / find /
    put / unique put / get / remove / destroy with arbitrary byte-string names and keys,
      map abs_out (snd (exec_all sys_init ops)) = snd (spec_exec_all spec_init ops)
    ([C02_refines_map]), and the same for lists that contain scan and list_storages as well
    ([C02_refines_map_all_ops]); both at the end.
    Before it, bottom-up: ONE trie layer (names end in _partial) -- a
    B+-tree with 15-slot leaves, separators never updated on delete, left/right
    absorption, promotion of the last sibling -- for every well-formed shape; then
    one storage, the trie of layers (StoreProofs). *)
From Coq Require Import NArith List Permutation.
From Yk Require Import KeyProofs TreeDefs LeafProofs LayerProofs.
Import ListNotations.
Local Open Scope N_scope.

(** lookup in a layer finds exactly the entry with that key *)
Theorem C02_layer_lookup_partial : forall root k s,
  WF_bt None None root -> kt_wf k = true ->
  (layer_lookup root k = Some s <-> In s (bt_elems root) /\ sl_key s = k).
Proof. exact layer_lookup_some. Qed.
Print Assumptions C02_layer_lookup_partial.

Theorem C02_layer_lookup_miss_partial : forall root k,
  WF_bt None None root -> kt_wf k = true ->
  (layer_lookup root k = None <-> ~ In k (bt_keys root)).
Proof. exact layer_lookup_none. Qed.
Print Assumptions C02_layer_lookup_miss_partial.

(** inserting an absent key (with every split it may cause, up to a new root)
    yields a well-formed layer whose sorted contents are the old ones plus the entry *)
Theorem C02_layer_insert_partial : forall root k lv ctr,
  WF_layer root -> kt_wf k = true -> ~ In k (bt_keys root) ->
  entry_ok {| sl_key := k; sl_lv := lv |} -> (forall i, In i (bt_ids root) -> i < ctr) ->
  exists root' info ctr', layer_put root k lv ctr = Some (root', info, ctr') /\
    WF_layer root' /\ sorted_keys (bt_keys root') /\
    (exists A B, bt_elems root = A ++ B /\ bt_elems root' = A ++ {| sl_key := k; sl_lv := lv |} :: B) /\
    Permutation (bt_elems root') ({| sl_key := k; sl_lv := lv |} :: bt_elems root) /\
    ctr <= ctr' /\ (forall i, In i (bt_ids root') -> i < ctr') /\
    (forall i, In i (bt_ids root) -> In i (bt_ids root')) /\
    (forall i, In i (bt_ids root') -> In i (bt_ids root) \/ ctr <= i < ctr') /\
    In (pi_modified info) (bt_ids root) /\
    match pi_created info with
    | Some c => c = ctr /\ In c (bt_ids root') /\ ~ In c (bt_ids root)
    | None => True
    end.
Proof. exact layer_put_spec. Qed.
Print Assumptions C02_layer_insert_partial.

(** the contents of a well-formed layer are strictly sorted: the ordered-map view is well defined *)
Theorem C02_layer_sorted_partial : forall lo hi t,
  WF_bt lo hi t ->
  sorted_keys (bt_keys t) /\ Forall (fun k => kt_wf k = true) (bt_keys t) /\
  Forall entry_ok (bt_elems t) /\ Forall (in_bnd lo hi) (bt_keys t).
Proof. exact bt_elems_sorted. Qed.
Print Assumptions C02_layer_sorted_partial.

(** ** The trie level: one storage refines an ordered byte-string map (StoreProofs) *)
From Yk Require Import SpecDefs StoreProofs.

(** the abstraction of a well-formed storage is a strictly sorted association list *)
Theorem C02_abs_sorted : forall ctr tr, WF_store ctr tr -> lex_sorted (abs_tree tr).
Proof. exact abs_tree_sorted. Qed.
Print Assumptions C02_abs_sorted.

Theorem C02_get_refines_map : forall ctr tr k,
  WF_store ctr tr -> bytes k -> exists o, get tr k = Some o /\
  match smap_get (abs_tree tr) k with
  | Some a => go_status o = St_OK /\ option_map abs_value (go_value o) = Some a
  | None => go_status o = St_WARN_NOT_EXIST /\ go_value o = None
  end.
Proof. exact get_refines. Qed.
Print Assumptions C02_get_refines_map.

Theorem C02_put_refines_map : forall ctr tr k v unique,
  WF_store ctr tr -> bytes k -> exists tr' po ctr',
  put tr k v unique ctr = Some (tr', po, ctr') /\ WF_store ctr' tr' /\ ctr <= ctr' /\
  match smap_get (abs_tree tr) k with
  | None => po_status po = St_OK /\ abs_tree tr' = smap_put (abs_tree tr) k (abs_value v)
  | Some _ => if unique then po_status po = St_WARN_UNIQUE_RESTRICTION /\ abs_tree tr' = abs_tree tr
              else po_status po = St_OK /\ abs_tree tr' = smap_put (abs_tree tr) k (abs_value v)
  end.
Proof. exact put_refines. Qed.
Print Assumptions C02_put_refines_map.

Theorem C02_remove_refines_map : forall ctr tr k,
  WF_store ctr tr -> bytes k -> exists tr' ro, remove tr k = Some (tr', ro) /\ WF_store ctr tr' /\
  if t_null tr then ro_status ro = St_OK_ROOT_IS_NULL /\ tr' = tr
  else match smap_get (abs_tree tr) k with
       | Some _ => ro_status ro = St_OK /\ abs_tree tr' = smap_del (abs_tree tr) k
       | None => ro_status ro = St_OK_NOT_FOUND /\ abs_tree tr' = abs_tree tr
       end.
Proof. exact remove_refines. Qed.
Print Assumptions C02_remove_refines_map.

(** a fresh storage is well formed and its abstraction is []: where the histories of one
    storage, step by step through the three theorems above, start *)
Theorem C02_fresh_storage : forall ctr id, id < ctr -> WF_store ctr (empty_tree id) /\ abs_tree (empty_tree id) = [].
Proof. exact empty_tree_wf. Qed.
Print Assumptions C02_fresh_storage.

(** ** The whole system: every operation sequence without scan and list_storages refines the map of ordered maps *)
From Yk Require Import SysDefs SysProofs.

(** THE statement of C02 (and of C13's sequential half): for every sequence of create /
    delete-storage / find / put / unique put / get / remove / destroy over arbitrary byte-string
    names and keys (no length bound), every returned status and value equals what a map from
    names to ordered byte-string maps returns. *)
Theorem C02_refines_map : forall ops,
  Forall (fun o => noscan o = true) ops -> Forall op_bytes ops ->
  map abs_out (snd (exec_all sys_init ops)) = snd (spec_exec_all spec_init ops).
Proof. exact sys_refines_spec. Qed.
Print Assumptions C02_refines_map.

(** ** All operations, scans and list_storages included (SysScanProofs) *)
From Yk Require Import SysScanProofs.
Theorem C02_refines_map_all_ops : forall ops, Forall op_bytes ops ->
  map abs_out (snd (exec_all sys_init ops)) = snd (spec_exec_all spec_init ops).
Proof. exact sys_refines_spec_all. Qed.
Print Assumptions C02_refines_map_all_ops.
