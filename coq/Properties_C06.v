(** * C06 -- a scan and a concurrent insert into the scanned range: once both
    have completed, the scan's result contains the key or the node version
    recorded by the scan differs from the node's current version.
    Model: BorderScanDefs.v.  [SDone v res]: the scan of the node completed with
    result [res] and recorded insert counter [v]. *)
From Coq Require Import NArith List.
From Yk Require Import BorderDefs BorderProofs BorderScanDefs BorderScanProofs.
Import ListNotations.
Local Open Scope N_scope.

(** In every reachable state in which scanner [t] holds a completed scan
    (v, res): the recorded counter is not ahead of the node's, and for every
    key that is bound now but missing from [res]
    - the node's insert counter differs from [v], or the dirty bit is set (the
      insert has stored its permutation and is about to unlock, which bumps the
      counter; a stable re-read of the version waits for that);
    - if the lock is free (every writer has completed its critical section, in
      particular the insert has returned) the counter differs from [v].
    The converse direction does not hold (a remove does not bump the counter). *)
Theorem C06_border_seen_or_stale :
  forall s t v res, reach2 s -> sc_pc (scn s t) = SDone v res ->
    v <= b_vins (base s) /\
    forall k, bm (base s) k <> None -> ~ In k (map fst res) ->
      (b_vins (base s) <> v \/ b_insdel (base s) = true) /\
      (b_locked (base s) = false -> b_vins (base s) <> v).
Proof. exact scan_done_covers. Qed.
Print Assumptions C06_border_seen_or_stale.

(** The form without the dirty-bit disjunct is false: between the insert's
    permutation store and its unlock the key is bound, missing from the result,
    and the counter still equals the recorded one (dirty bit and lock set). *)
Theorem C06_naive_form_refuted :
  exists s, reach2 s /\
    exists t v res k,
      sc_pc (scn s t) = SDone v res /\
      bm (base s) k <> None /\ ~ In k (map fst res) /\
      b_vins (base s) = v /\ b_insdel (base s) = true /\ b_locked (base s) = true.
Proof.
  assert (H : match srun2 sinit2 transient_trace with
              | Some s => sc_pc (scn s 0%nat) = SDone 2 [(5, 7); (9, 3)] /\ bm (base s) 2 = Some 4 /\
                          b_vins (base s) = 2 /\ b_insdel (base s) = true /\ b_locked (base s) = true
              | None => False
              end) by (vm_compute; repeat split).
  destruct (srun2 sinit2 transient_trace) as [s|] eqn:E; [|contradiction].
  destruct H as (H1 & H2 & H3 & H4 & H5).
  exists s. split; [exists transient_trace; exact E|]. exists 0%nat, 2, [(5, 7); (9, 3)], 2.
  split; [exact H1|]. split; [rewrite H2; discriminate|].
  split; [cbn [map fst In]; intros [H|[H|[]]]; discriminate H|]. auto.
Qed.
Print Assumptions C06_naive_form_refuted.

(** The insert counter never decreases (so "differs" means "is larger", and a
    version that became stale stays stale). *)
Theorem C06_counter_monotone :
  forall tr s s', srun2 s tr = Some s' -> b_vins (base s) <= b_vins (base s').
Proof. exact scan_counter_run. Qed.
Print Assumptions C06_counter_monotone.

(** Non-vacuity: keys 5 and 9 bound; scanner 0 collects both and completes with
    recorded counter 2 while thread 2 (insert of 2 -> 4) is waiting to take the
    lock; then the insert runs.  After its permutation store (transient state)
    the counter is still 2 with the dirty bit set; after its unlock and return
    the key 2 is bound, missing from the result, and the counter is 3 <> 2. *)
Definition c06_trace : list sev2 := transient_trace ++ sbsteps 2 1 ++ [EBase (BReturn 2)].

Example C06_nonvacuous :
  match srun2 sinit2 transient_trace, srun2 sinit2 c06_trace with
  | Some s1, Some s =>
    (sc_pc (scn s1 0%nat) = SDone 2 [(5, 7); (9, 3)] /\ bm (base s1) 2 = Some 4 /\
     b_vins (base s1) = 2 /\ b_insdel (base s1) = true) /\
    sc_pc (scn s 0%nat) = SDone 2 [(5, 7); (9, 3)] /\
    bm (base s) 2 = Some 4 /\ sc_seen (scn s 0%nat) 2 = [Some 4; None] /\
    b_vins (base s) = 3 /\ b_insdel (base s) = false /\ b_locked (base s) = false /\
    t_pc (b_thr (base s) 2%nat) = PIdle
  | _, _ => False
  end.
Proof. vm_compute. repeat split. Qed.

(** ** Multi-node form (ChainProofs): along the whole leaf chain, under inserts, removes, splits and unlinks in
    any interleaving: a key of the interval that is present now and is not in the result of the completed scan
    leaves at least one recorded pair stale (removes do not change versions, so only inserts are detectable: the
    statement of the property). *)
From Yk Require Import ChainDefs ChainProofs.

Theorem C06_chain_seen_or_stale : forall kss evs s k,
  kss_ok kss = true -> crun true (cinit kss) evs = Some s ->
  sc_pc (c_scan s) = CDone ->
  In k (all_keys (c_nodes s)) -> in_interval (sc_l (c_scan s)) (sc_r (c_scan s)) k = true ->
  In k (sc_res (c_scan s)) \/
  ~ (forall id v, In (id, v) (sc_nvset (c_scan s)) ->
       exists n, find_node id (c_nodes s) = Some n /\ cn_ver n = v).
Proof.
  intros kss evs s k Hk Hr Hd Hin Hiv.
  destruct (in_dec N.eq_dec k (sc_res (c_scan s))) as [Hy | Hn]; [left; exact Hy | right].
  intros Hall. apply Hn. exact (chain_scan_no_phantom_insert kss evs s k Hk Hr Hd Hall Hin Hiv).
Qed.
Print Assumptions C06_chain_seen_or_stale.

(** consequently, when no remove happened since the invocation, a transaction that finds all recorded pairs
    unchanged has read exactly the set of keys that exist in the interval *)
Theorem C06_chain_exact_when_no_removes : forall kss pre l r post s,
  kss_ok kss = true -> crun true (cinit kss) (pre ++ EBegin l r :: post) = Some s -> sc_pc (c_scan s) = CDone ->
  (forall k, ~ In (ERem k) post) ->
  (forall id v, In (id, v) (sc_nvset (c_scan s)) -> exists n, find_node id (c_nodes s) = Some n /\ cn_ver n = v) ->
  sc_res (c_scan s) = filter (in_interval (sc_l (c_scan s)) (sc_r (c_scan s))) (all_keys (c_nodes s)).
Proof. exact chain_scan_phantom_free_no_removes_since_begin. Qed.
Print Assumptions C06_chain_exact_when_no_removes.

(** size-limited forward scans, for the part of the interval the scan covered (ChainLimProofs; the
    right-to-left form is [lim_scan_no_phantom_insert] there) *)
From Yk Require Import ChainLimDefs ChainLimProofs.
Theorem C06_chain_limited_seen_or_stale : forall kss evs s k,
  kss_ok kss = true -> lrun (linit kss) evs = Some s -> ls_pc (l_scan s) = CDone -> ls_rtl (l_scan s) = false ->
  (forall id v, In (id, v) (ls_nvset (l_scan s)) -> exists n, find_node id (c_nodes (l_c s)) = Some n /\ cn_ver n = v) ->
  In k (all_keys (c_nodes (l_c s))) -> in_interval (ls_l (l_scan s)) (ls_r (l_scan s)) k = true ->
  (ls_max (l_scan s) = 0%nat \/ (length (ls_res (l_scan s)) < ls_max (l_scan s))%nat \/
   (exists lk, last_key (ls_res (l_scan s)) = Some lk /\ k <= lk)) ->
  In k (ls_res (l_scan s)).
Proof. exact lim_scan_no_phantom_insert_fwd. Qed.
Print Assumptions C06_chain_limited_seen_or_stale.
