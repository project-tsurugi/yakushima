(** * PhantomProofs: C05 at store level, sequential form -- the node-version set recorded by
    a scan detects every later insert of an absent key into the range the scan covered.

    The border in which the insert lands ([land]) is in [so_nv] with its current version word
    ([scan_records_landing]), and the insert changes that word ([put_lands]).  For [scan_nofix2]
    ([fix2 = false], the scan of the source before the repair of F2) the statement is false.

    How the scan records borders (fix2 = true): the loop over a border leaves it recorded when it
    says SB_END, or SB_CONT with the pushed flag set, and otherwise [scan_leaves] pushes it
    ([SE_nv]); so the first border of a walk is recorded and the vector only grows ([SL_nv]), and
    the later borders are the first ones of the rest of the walk ([SL_rest]).  Entries met before
    the key cannot end the scan while the key is covered ([SE_skip], read off [scan_entries_spec]:
    the loop ends only at the size limit or at an entry at or beyond the right endpoint); at the
    link the key continues below, the layer scan is called with endpoints that still cover the
    rest of the key ([SE_target]).  "Before" and "covered" are meant in the direction of the scan
    ([dir_lt], [CovD]), so one argument serves both directions ([SL_cover],
    [scan_layer_cover_dir]); right to left it only adds that the key belongs to the last border,
    the one that is walked.
    In the model a key longer than 8 bytes always continues through a link entry (length 9) into
    the next layer, so an insert never converts a value entry: it lands in exactly one border,
    the one reached by [find_leaf] in the first layer where its tuple is missing. *)
From Coq Require Import NArith PeanoNat Lia ZifyBool ZifyN Bool List.
From Yk Require Import ListAux KeyDefs KeyProofs TreeDefs
     ScanDefs SpecDefs LeafProofs LayerProofs VersionReportProofs StoreProofs ScanProofs.
Import ListNotations.
Local Open Scope N_scope.

(** the part of the requested interval the scan actually covered *)
Definition covered (a : scan_args) (res : list (key * value)) (k : key) : bool :=
  let l := match sa_le a with EP_INF => [] | _ => sa_l a end in
  in_left l (sa_le a) k && in_right (sa_r a) (sa_re a) k &&
  (if sa_rtl a
   then match res with [] => true | (k0, _) :: _ => lex_lt k0 k end
   else if Nat.eqb (sa_max a) 0 || Nat.ltb (length res) (sa_max a) then true
        else match rev res with [] => true | (k1, _) :: _ => lex_lt k k1 end).

Definition store_leaves (ls : layers_t) : list leaf := flat_map (fun pr => bt_leaves (snd pr)) ls.

Definition store_leaf_ver (tr : tree) (id : N) : option N :=
  option_map lf_ver (find (fun l => N.eqb (lf_id l) id) (store_leaves (t_layers tr))).

(** the border in which the insert of a key with path [ts] lands (the walk of [put_walk]:
    [land_landing], [put_borders]) *)
Fixpoint land (ts : list ktuple) (p : prefix) (ls : layers_t) : option leaf :=
  match ts with
  | [] => None
  | t :: rest =>
    match layer_get ls p with
    | None => None
    | Some root =>
      match find_leaf root t with
      | None => None
      | Some l =>
        match leaf_lookup l t with
        | None => Some l
        | Some _ => match rest with [] => None | _ => land rest (p ++ [ks t]) ls end
        end
      end
    end
  end.

(** ** the node-version vector only grows, and the first border of a walk is recorded *)
Definition nv_mono (sub : prefix -> key -> key -> endpoint -> key -> endpoint -> scan_acc -> option scan_acc) : Prop :=
  forall p pb l le r re acc acc', sub p pb l le r re acc = Some acc' -> incl (ac_nv acc) (ac_nv acc').

Section NvEntries.
  Variable sub : prefix -> key -> key -> endpoint -> key -> endpoint -> scan_acc -> option scan_acc.
  Variable mx : nat.
  Hypothesis Hmono : nv_mono sub.

  Lemma incl_push_nv acc id ver : incl (ac_nv acc) (ac_nv (acc_push_nv acc id ver)).
  Proof. cbn [acc_push_nv ac_nv]. apply incl_appl. apply incl_refl. Qed.
  Lemma in_push_nv acc id ver : In (id, ver) (ac_nv (acc_push_nv acc id ver)).
  Proof. cbn [acc_push_nv ac_nv]. apply in_or_app. right. left. reflexivity. Qed.
  Lemma incl_push_t acc k v id ver : incl (ac_nv acc) (ac_nv (acc_push_t acc k v id ver)).
  Proof. cbn [acc_push_t ac_nv]. apply incl_appl. apply incl_refl. Qed.
  Lemma in_push_t acc k v id ver : In (id, ver) (ac_nv (acc_push_t acc k v id ver)).
  Proof. cbn [acc_push_t ac_nv]. apply in_or_app. right. left. reflexivity. Qed.

  Variable p : prefix. Variable pb : key.
  Variable l : key. Variable le : endpoint. Variable r : key. Variable re : endpoint.
  Variable bid bver : N.
  Local Notation SE := (scan_entries true sub mx p pb l le r re bid bver).

  (** along the case tree of the code ([scan_entries_cons]), not through [SE_value] / [SE_link]: this
      has to hold without [entry_ok], since [scan_nv_nonempty] has no well-formedness hypothesis *)
  Lemma SE_nv : forall es pushed acc res pu acc',
    SE es pushed acc = (res, pu, acc') ->
    (pushed = true -> In (bid, bver) (ac_nv acc)) ->
    incl (ac_nv acc) (ac_nv acc') /\
    (res = SB_END -> In (bid, bver) (ac_nv acc')) /\
    (res = SB_CONT -> pu = true -> In (bid, bver) (ac_nv acc')).
  Proof.
    induction es as [|[i s] rest IH]; intros pushed acc res pu acc' E Hp.
    - cbn [scan_entries] in E. injection E as <- <- <-.
      split; [apply incl_refl|]. split; [discriminate|]. intros _. exact Hp.
    - rewrite scan_entries_cons in E. cbv zeta in E.
      destruct (8 <? kl (sl_key s)).
      + destruct (larg_f l le (sl_key s)) as [[al ale]|]; [|exact (IH _ _ _ _ _ E Hp)].
        destruct (rarg_f r re (pb ++ bytes_of_slice (ks (sl_key s)) (kl (sl_key s)))) as [[[ar are]|]|].
        * destruct (sub (p ++ [ks (sl_key s)]) (pb ++ bytes_of_slice (ks (sl_key s)) (kl (sl_key s)))
                        al ale ar are acc) as [acc1|] eqn:Es.
          -- pose proof (Hmono _ _ _ _ _ _ _ _ Es) as Hi.
             destruct (max_reached mx acc1).
             ++ injection E as <- <- <-. cbn [andb]. destruct pushed; cbn [negb].
                ** split; [exact Hi|]. split; [intros _; apply Hi; apply Hp; reflexivity|discriminate].
                ** split; [eapply incl_tran; [exact Hi|apply incl_push_nv]|].
                   split; [intros _; apply in_push_nv|discriminate].
             ++ destruct (IH _ _ _ _ _ E) as (I1 & I2 & I3); [intros X; apply Hi; apply Hp; exact X|].
                split; [eapply incl_tran; eassumption|]. split; assumption.
          -- injection E as <- <- <-. split; [apply incl_refl|]. split; discriminate.
        * injection E as <- <- <-. split; [apply incl_refl|]. split; discriminate.
        * injection E as <- <- <-. cbn [andb]. destruct pushed; cbn [negb].
          -- split; [apply incl_refl|]. split; [intros _; apply Hp; reflexivity|discriminate].
          -- split; [apply incl_push_nv|]. split; [intros _; apply in_push_nv|discriminate].
      + destruct (sl_lv s) as [|v|].
        * injection E as <- <- <-. split; [apply incl_refl|]. split; discriminate.
        * destruct (negb (pass_left_f l le (sl_key s))); [exact (IH _ _ _ _ _ E Hp)|].
          rewrite re_match in E.
          destruct (in_right r re (pb ++ bytes_of_slice (ks (sl_key s)) (kl (sl_key s)))).
          -- destruct (max_reached mx _).
             ++ injection E as <- <- <-. split; [apply incl_push_t|].
                split; [intros _; apply in_push_t|discriminate].
             ++ destruct (IH _ _ _ _ _ E) as (I1 & I2 & I3); [intros _; apply in_push_t|].
                split; [eapply incl_tran; [apply incl_push_t|exact I1]|]. split; assumption.
          -- injection E as <- <- <-. destruct pushed.
             ++ split; [apply incl_refl|]. split; [intros _; apply Hp; reflexivity|discriminate].
             ++ split; [apply incl_push_nv|]. split; [intros _; apply in_push_nv|discriminate].
        * injection E as <- <- <-. split; [apply incl_refl|]. split; discriminate.
  Qed.
End NvEntries.

Section NvLeaves.
  Variable sub : prefix -> key -> key -> endpoint -> key -> endpoint -> scan_acc -> option scan_acc.
  Variable mx : nat. Variable rtl : bool.
  Hypothesis Hmono : nv_mono sub.
  Variable p : prefix. Variable pb : key.
  Variable l : key. Variable le : endpoint. Variable r : key. Variable re : endpoint.

  Lemma SL_nv : forall lvs acc acc',
    scan_leaves true sub mx rtl p pb l le r re lvs acc = Some acc' ->
    incl (ac_nv acc) (ac_nv acc') /\
    (forall lf rest, lvs = lf :: rest -> In (lf_id lf, lf_ver lf) (ac_nv acc')).
  Proof.
    induction lvs as [|lf rest IH]; intros acc acc' E.
    - cbn [scan_leaves] in E. injection E as <-. split; [apply incl_refl|]. intros lf rest X. discriminate X.
    - rewrite scan_leaves_cons in E. cbv zeta in E.
      destruct (scan_entries true sub mx p pb l le r re (lf_id lf) (lf_ver lf) (in_dir rtl (leaf_ranked lf)) false acc)
        as [[res pu] acc1] eqn:Ee.
      destruct (SE_nv sub mx Hmono p pb l le r re (lf_id lf) (lf_ver lf) _ _ _ _ _ _ Ee) as (I1 & I2 & I3);
        [discriminate|].
      destruct res.
      + injection E as <-. split; [exact I1|]. intros lf0 rest0 X. injection X as <- <-. apply I2. reflexivity.
      + set (acc2 := if pu then acc1 else acc_push_nv acc1 (lf_id lf) (lf_ver lf)) in *.
        assert (incl (ac_nv acc1) (ac_nv acc2)) as J1.
        { unfold acc2. destruct pu; [apply incl_refl|apply incl_push_nv]. }
        assert (In (lf_id lf, lf_ver lf) (ac_nv acc2)) as J2.
        { unfold acc2. destruct pu; [apply I3; reflexivity|apply in_push_nv]. }
        assert (incl (ac_nv acc2) (ac_nv acc')) as J3.
        { destruct rest as [|lf2 rest2]; [injection E as <-; apply incl_refl|]. apply (IH _ _ E). }
        split; [eapply incl_tran; [exact I1|eapply incl_tran; eassumption]|].
        intros lf0 rest0 X. injection X as <- <-. apply J3. exact J2.
      + discriminate E.
  Qed.

  Lemma SL_rest x rest acc2 acc' :
    match rest with
    | [] => Some acc2
    | _ :: _ => scan_leaves true sub mx rtl p pb l le r re rest acc2
    end = Some acc' ->
    In x (ac_nv acc2) -> In x (ac_nv acc').
  Proof.
    intros E J. destruct rest as [|b B]; [injection E as <-; exact J|]. exact (proj1 (SL_nv _ _ _ E) x J).
  Qed.
End NvLeaves.

Lemma scan_layer_nv_mono mx rtl ls : forall fuel, nv_mono (scan_layer true fuel ls mx rtl).
Proof.
  induction fuel as [|f IH]; intros p pb l le r re acc acc' E; [discriminate|].
  cbn [scan_layer] in E.
  destruct (layer_get ls p) as [root|]; [|discriminate].
  destruct (find_leaf root (scan_descent_tuple l rtl)) as [start|]; [|discriminate].
  exact (proj1 (SL_nv _ mx rtl IH p pb l le r re _ _ _ E)).
Qed.

Theorem scan_nv_nonempty tr a o : scan tr a = Some o -> so_status o = St_OK -> so_nv o <> [].
Proof.
  rewrite scan_eq. intros E Hs.
  destruct (spec_scan_args_ok a); [|injection E as <-; discriminate Hs].
  unfold scan_body in E. destruct (t_null tr).
  { injection E as <-. discriminate Hs. }
  destruct (layer_get (t_layers tr) []) as [root|] eqn:Eg; [|discriminate].
  destruct (find_leaf root (scan_descent_tuple (sa_l (scan_normalise a)) (sa_rtl (scan_normalise a))))
    as [start|] eqn:Ef; [|discriminate].
  destruct (get_deleted (lf_ver start) && get_root (lf_ver start)).
  { injection E as <-. discriminate. }
  destruct (scan_layer _ _ _ _ _ _ _ _ _ _ _ _) as [acc|] eqn:El; [|discriminate].
  injection E as <-. cbn [so_nv].
  cbn [scan_layer] in El. rewrite Eg, Ef in El.
  destruct (skip_to_in start (bt_leaves root)) as (lf' & rest & Esk).
  { exact (find_leaf_in _ _ _ Ef). }
  destruct (SL_nv _ _ _ (scan_layer_nv_mono _ _ _ _) _ _ _ _ _ _ _ _ _ El) as [_ H].
  specialize (H lf' rest Esk). intros X. rewrite X in H. destruct H.
Qed.

(** ** the walk along the borders of a layer *)

Lemma walk_reaches root d k :
  WF_layer root -> kt_wf d = true -> kt_wf k = true -> canon_lt k d = false ->
  exists start lk before A B,
    find_leaf root d = Some start /\ find_leaf root k = Some lk /\
    bt_leaves root = before ++ A ++ lk :: B /\
    skip_to (lf_id start) (bt_leaves root) = A ++ lk :: B /\
    (forall s, In s (flat_map leaf_entries A) -> canon_lt (sl_key s) k = true).
Proof.
  intros [Hwf Hnd] Hd Hk Hle.
  destruct (find_leaf_split root d Hwf Hd) as (start & before & after & E1 & EL & _ & _ & Hm).
  destruct (Hm k Hk Hle) as (lk & E2 & Hin).
  destruct (find_leaf_split root k Hwf Hk) as (lk' & bk & ak & E2' & ELk & Hbk & _).
  rewrite E2 in E2'. injection E2' as <-.
  apply in_split in Hin. destruct Hin as (A & B & EA).
  pose proof (leaf_ids_NoDup root Hnd) as Hnd'.
  assert (before ++ A = bk /\ B = ak) as [<- <-].
  { apply (split_unique lf_id lk).
    - rewrite <- app_assoc, <- EA, <- EL. exact Hnd'.
    - rewrite <- app_assoc, <- EA, <- EL. exact ELk. }
  exists start, lk, before, A, B. split; [exact E1|]. split; [exact E2|].
  split; [rewrite EL, EA; reflexivity|]. split.
  { rewrite EL. rewrite skip_to_split by (rewrite <- EL; exact Hnd'). exact EA. }
  intros s Hs. apply Hbk. rewrite flat_map_app. apply in_or_app. right. exact Hs.
Qed.

(** ** coverage *)

(** with the produced tuples [ts] the scan did not stop before the key [kf]: it stayed below the
    size limit, or the last tuple lies behind [kf] in the direction of the scan *)
Definition CovD (rtl : bool) (mx : nat) (kf : key) (ts : list (key * value)) : Prop :=
  mr mx ts = false \/ exists pre k1 v1, ts = pre ++ [(k1, v1)] /\ dir_lex rtl kf k1 = true.

(** what the scan of a border asks, for coverage, of the scan of the layers below a link *)
Definition sub_cover (sub : prefix -> key -> key -> endpoint -> key -> endpoint -> scan_acc -> option scan_acc)
           (mx : nat) (rtl : bool) (ls : layers_t) (p : prefix) (pb : key) (re : endpoint) (lm : leaf) : Prop :=
  forall x al ale ar are acc acc_s ksuf',
    bytes al -> (ale = EP_INF -> al = []) -> (re = EP_INF -> are = EP_INF) ->
    mr mx (ac_tuples acc) = false -> bytes ksuf' ->
    land (path_of_key ksuf') (p ++ [x]) ls = Some lm ->
    in_left al ale ksuf' = true -> in_right ar are ((pb ++ bytes_of_slice x 8) ++ ksuf') = true ->
    sub (p ++ [x]) (pb ++ bytes_of_slice x 8) al ale ar are acc = Some acc_s ->
    CovD rtl mx ((pb ++ bytes_of_slice x 8) ++ ksuf') (ac_tuples acc_s) ->
    In (lf_id lm, lf_ver lm) (ac_nv acc_s).

Section CoverEntries.
  Variable sub : prefix -> key -> key -> endpoint -> key -> endpoint -> scan_acc -> option scan_acc.
  Variable mx : nat.
  Variable rtl : bool.
  Variable p : prefix. Variable pb : key.
  Variable l : key. Variable le : endpoint. Variable r : key. Variable re : endpoint.
  Variable ls : layers_t.
  Variable f : nat.
  Hypothesis Hl : bytes l.
  Hypothesis Hdir : rtl = true -> re = EP_INF.

  Local Notation ents := (fun lf => in_dir rtl (leaf_entries lf)).
  Local Notation CE := (fun s => in_dir rtl (cent f ls p pb s)).
  Local Notation CS := (fun x => in_dir rtl (clayer f ls (p ++ [x]) (pb ++ bytes_of_slice x 8))).

  Hypothesis Hsub : sub_spec sub mx ls p pb re CS.
  Hypothesis Hmono : nv_mono sub.

  (** the key whose insert is to be detected: [kf = pb ++ ksuf] *)
  Variable ksuf : key.
  Hypothesis Hks : bytes ksuf.
  Local Notation tk := (tuple_of_key ksuf).
  Local Notation kf := (pb ++ ksuf).
  Hypothesis Hright : in_right r re kf = true.

  Local Notation SE bid bver := (scan_entries true sub mx p pb l le r re bid bver).

  Lemma full_lt s : kt_wf (sl_key s) = true -> canon_lt (sl_key s) tk = true ->
    lex_lt (pb ++ tbytes (sl_key s)) kf = true.
  Proof.
    intros Hw Hlt. rewrite lex_lt_app. exact (tbytes_lt _ _ ksuf Hw Hlt (heads_key ksuf Hks)).
  Qed.

  Lemma before_lt s kv : eok p pb ls CE s -> dir_lt rtl (sl_key s) tk = true -> In kv (CE s) ->
    dir_lex rtl (fst kv) kf = true.
  Proof.
    intros (_ & _ & Hsh) Hlt Hkv. destruct (Hsh kv Hkv) as (rest & -> & Ht).
    rewrite dir_lex_app. exact (dir_heads_lt rtl _ _ rest ksuf Ht (heads_key ksuf Hks) Hlt).
  Qed.

  Lemma not_cov_before (a : scan_acc) k1 v1 pre :
    mr mx (ac_tuples a) = true -> ac_tuples a = pre ++ [(k1, v1)] -> dir_lex rtl k1 kf = true ->
    ~ CovD rtl mx kf (ac_tuples a).
  Proof.
    intros EM E Y [C|(pre' & k2 & v2 & E' & L)]; [exact (eq_true_false_abs _ EM C)|].
    rewrite E in E'. apply app_inj_tail in E'. destruct E' as [_ E']. injection E' as <- <-.
    rewrite (dir_lex_asym _ _ _ Y) in L. discriminate.
  Qed.

  (** the loop over [E1 ++ E2] when the entries of [E1] are met before the key: if it ends there,
      the key is not covered; otherwise it goes on with [E2], below the size limit *)
  Definition skip_res (bid bver : N) (E1 E2 : list (N * slot_t)) (acc : scan_acc)
             (res : sb_res * bool * scan_acc) : Prop :=
    (exists pu a, res = (SB_END, pu, a) /\ ~ CovD rtl mx kf (ac_tuples a)) \/
    (exists pushed1 acc1, res = SE bid bver E2 pushed1 acc1 /\ mr mx (ac_tuples acc1) = false /\
        ac_tuples acc1 = ac_tuples acc ++ filter (in_range_kv pb l le r re) (flat_map CE (map snd E1)) /\
        (pushed1 = true -> In (bid, bver) (ac_nv acc1))).

  (** [SE_app] splits the loop and [scan_entries_spec] says how its first part ends *)
  Lemma SE_skip bid bver E1 E2 pushed acc :
    Forall (eok p pb ls CE) (map snd E1) ->
    (re <> EP_INF -> sorted_keys (map sl_key (map snd E1))) ->
    (forall s, In s (map snd E1) -> dir_lt rtl (sl_key s) tk = true) ->
    mr mx (ac_tuples acc) = false ->
    (pushed = true -> In (bid, bver) (ac_nv acc)) ->
    skip_res bid bver E1 E2 acc (SE bid bver (E1 ++ E2) pushed acc).
  Proof.
    intros Hok Hso Hlt Hmr Hp. rewrite SE_app.
    pose proof (scan_entries_dir true sub mx rtl p pb l le r re ls f Hl Hsub bid bver E1 [] pushed acc) as S.
    rewrite app_nil_r in S. specialize (S Hok Hso Hmr).
    destruct (SE bid bver E1 pushed acc) as [[res pu] a] eqn:Ee.
    destruct (SE_nv sub mx Hmono p pb l le r re bid bver _ _ _ _ _ _ Ee Hp) as (_ & _ & I3).
    rewrite Forall_forall in Hok.
    destruct res; cbn [se_post] in S; [left|right|contradiction].
    - exists pu, a. split; [reflexivity|]. rewrite app_nil_r in S. destruct S as [T [M|(Hre & s & Hs & D)]].
      + (* at the size limit: the last tuple comes from an entry met before the key *)
        rewrite T in M. destruct (trunc_last mx _ _ Hmr M) as (pre & [k1 v1] & E' & Hx). rewrite <- T in E', M.
        apply (not_cov_before a k1 v1 pre M E'). apply filter_In in Hx. destruct Hx as [Hx _].
        apply in_flat_map in Hx. destruct Hx as (s & Hs & Hkv).
        exact (before_lt s (k1, v1) (Hok s Hs) (Hlt s Hs) Hkv).
      + (* an entry at or beyond [r]: left to right only, and then the key is not in range *)
        exfalso. assert (rtl = false) as Ef by (destruct rtl; [elim Hre; apply Hdir; reflexivity|reflexivity]).
        destruct (Hok s Hs) as ((Hw & _) & _). specialize (Hlt s Hs). rewrite Ef in Hlt.
        rewrite (in_right_dead r re _ _ Hre D (full_lt s Hw Hlt)) in Hright. discriminate.
    - destruct S as [M T]. exists pu, a. split; [reflexivity|]. split; [exact M|]. split; [exact T|].
      intros X. apply I3; [reflexivity|exact X].
  Qed.

  (** the border [lm] the insert lands in *)
  Variable lm : leaf.
  Hypothesis Hleft : in_left l le ksuf = true.
  Hypothesis HsubG : sub_cover sub mx rtl ls p pb re lm.

  (** the scan arrives at the link the key continues below *)
  Lemma SE_target bid bver i e E2 pushed acc :
    eok p pb ls CE e -> sl_key e = tk -> sl_lv e = LLink ->
    land (path_of_key (skipn 8 ksuf)) (p ++ [ks tk]) ls = Some lm ->
    mr mx (ac_tuples acc) = false ->
    (pushed = true -> In (bid, bver) (ac_nv acc)) ->
    match SE bid bver ((i, e) :: E2) pushed acc with
    | (SB_ERR, _, _) => True
    | (SB_END, _, a) => CovD rtl mx kf (ac_tuples a) -> In (lf_id lm, lf_ver lm) (ac_nv a)
    | (SB_CONT, _, a) => In (lf_id lm, lf_ver lm) (ac_nv a)
    end.
  Proof.
    intros Hs Hk Elv Hland Hmr Hp. pose proof Hs as (Hes & Hlink & _). pose proof Hes as [Hw Hlv].
    rewrite Elv in Hlv. specialize (Hlink Elv).
    rewrite (SE_link true sub mx p pb l le r re bid bver i e E2 pushed acc Hes Elv). cbv zeta.
    rewrite Hk in *. clear Hk Hes.
    destruct (heads_link_inv tk ksuf Hlv (heads_key ksuf Hks)) as (Eks & Hks' & Hne).
    set (ksuf' := skipn 8 ksuf) in *.
    assert ((pb ++ bytes_of_slice (ks tk) 8) ++ ksuf' = kf) as Ekf.
    { rewrite <- app_assoc, <- Eks. reflexivity. }
    pose proof (larg_f_spec l le tk Hl Hw Hlv) as LA.
    destruct (larg_f l le tk) as [[al ale]|].
    2:{ exfalso. specialize (LA ksuf' Hks' Hne). rewrite <- Eks, Hleft in LA. discriminate. }
    destruct LA as [[Hal Hinf] LA]. specialize (LA ksuf' Hks' Hne). rewrite <- Eks, Hleft in LA.
    pose proof (rarg_f_spec r re (pb ++ bytes_of_slice (ks tk) 8)) as RA.
    destruct (rarg_f r re (pb ++ bytes_of_slice (ks tk) 8)) as [[[ar are]|]|]; [|contradiction|].
    - destruct RA as [RAi RA]. specialize (RA ksuf'). rewrite Ekf, Hright in RA.
      destruct (Hsub (ks tk) al ale ar are acc Hlink Hal Hinf RAi Hmr) as (acc1 & Es & _).
      rewrite Es. pose proof (Hmono _ _ _ _ _ _ _ _ Es) as Hi.
      pose proof (HsubG (ks tk) al ale ar are acc acc1 ksuf' Hal Hinf RAi Hmr Hks' Hland LA) as HG.
      rewrite Ekf in HG. specialize (HG RA Es).
      destruct (mr mx (ac_tuples acc1)) eqn:EM.
      + destruct (negb pushed); cbn [andb]; intros Cv.
        * apply incl_push_nv. apply HG. exact Cv.
        * apply HG. exact Cv.
      + assert (In (lf_id lm, lf_ver lm) (ac_nv acc1)) as G1 by (apply HG; left; exact EM).
        destruct (SE bid bver E2 pushed acc1) as [[res pu] a] eqn:Ee.
        destruct (SE_nv sub mx Hmono p pb l le r re bid bver _ _ _ _ _ _ Ee) as (I1 & _).
        { intros X. apply Hi. apply Hp. exact X. }
        destruct res; [intros _; apply I1; exact G1|apply I1; exact G1|exact I].
    - exfalso. destruct RA as [Hre Hdead].
      assert (lex_lt (pb ++ bytes_of_slice (ks tk) 8) kf = true) as Hfl.
      { rewrite <- Ekf. apply lex_lt_prefix. exact Hne. }
      rewrite (in_right_dead r re _ _ Hre Hdead Hfl) in Hright. discriminate.
  Qed.

  (** the walk over the borders [A ++ lk :: B]: those of [A] hold entries met before the key, [lk]
      is the border the key belongs to *)
  Lemma SL_cover : forall A B lk acc acc',
    Forall (eok p pb ls CE) (flat_map ents (A ++ lk :: B)) ->
    (re <> EP_INF -> sorted_keys (map sl_key (flat_map ents (A ++ lk :: B)))) ->
    (forall s, In s (flat_map ents A) -> dir_lt rtl (sl_key s) tk = true) ->
    mr mx (ac_tuples acc) = false ->
    (lm = lk \/
     exists E1 i e E2, in_dir rtl (leaf_ranked lk) = E1 ++ (i, e) :: E2 /\
       (forall s, In s (map snd E1) -> dir_lt rtl (sl_key s) tk = true) /\
       sl_key e = tk /\ sl_lv e = LLink /\
       land (path_of_key (skipn 8 ksuf)) (p ++ [ks tk]) ls = Some lm) ->
    scan_leaves true sub mx rtl p pb l le r re (A ++ lk :: B) acc = Some acc' ->
    CovD rtl mx kf (ac_tuples acc') -> In (lf_id lm, lf_ver lm) (ac_nv acc').
  Proof.
    induction A as [|a A IH]; intros B lk acc acc' Hok Hso Hlt Hmr Hcase E HC;
      cbn [app] in E, Hok, Hso; rewrite scan_leaves_cons in E; cbv zeta in E; cbn [flat_map] in Hok, Hso;
      rewrite leaf_entries_dir in Hok, Hso;
      rewrite map_app in Hso; apply Forall_app in Hok; destruct Hok as [Hok0 Hok].
    - destruct Hcase as [->|(E1 & i & e & E2 & Er & Hlt1 & Hk & Elv & Hland)].
      + (* the key lands in this border *)
        destruct (scan_entries true sub mx p pb l le r re (lf_id lk) (lf_ver lk) (in_dir rtl (leaf_ranked lk)) false acc)
          as [[res pu] a] eqn:Ee.
        destruct (SE_nv sub mx Hmono p pb l le r re _ _ _ _ _ _ _ _ Ee) as (I1 & I2 & I3); [discriminate|].
        destruct res; [injection E as <-; apply I2; reflexivity| |discriminate E].
        apply (SL_rest sub mx rtl Hmono p pb l le r re _ B _ _ E).
        destruct pu; [apply I3; reflexivity|apply in_push_nv].
      + (* the key continues below a link of this border *)
        rewrite Er in E, Hok0, Hso. rewrite map_app in Hok0, Hso. cbn [map snd] in Hok0.
        apply Forall_app in Hok0. destruct Hok0 as [Hok1 Hok2]. apply Forall_cons_iff in Hok2.
        destruct Hok2 as [Hoke _].
        assert (re <> EP_INF -> sorted_keys (map sl_key (map snd E1))) as Hso1.
        { intros Hre. specialize (Hso Hre). rewrite map_app in Hso.
          apply StronglySorted_app_iff in Hso. destruct Hso as [Hso _]. apply StronglySorted_app_iff in Hso. apply Hso. }
        destruct (SE_skip (lf_id lk) (lf_ver lk) E1 ((i, e) :: E2) false acc Hok1 Hso1 Hlt1 Hmr ltac:(discriminate))
          as [(pu & a & X & NC)|(pu1 & a1 & X & M1 & _ & P1)].
        * rewrite X in E. injection E as <-. contradiction.
        * rewrite X in E.
          pose proof (SE_target (lf_id lk) (lf_ver lk) i e E2 pu1 a1 Hoke Hk Elv Hland M1 P1) as T.
          destruct (scan_entries true sub mx p pb l le r re (lf_id lk) (lf_ver lk) ((i, e) :: E2) pu1 a1)
            as [[res pu] a].
          destruct res; [injection E as <-; apply T; exact HC| |discriminate E].
          apply (SL_rest sub mx rtl Hmono p pb l le r re _ B _ _ E).
          destruct pu; [exact T|apply incl_push_nv; exact T].
    - cbn [flat_map] in Hlt. rewrite leaf_entries_dir in Hlt.
      destruct (SE_skip (lf_id a) (lf_ver a) (in_dir rtl (leaf_ranked a)) [] false acc Hok0
                  (fun Hre => proj1 (proj1 (StronglySorted_app_iff _ _ _) (Hso Hre)))
                  (fun s Hs => Hlt s (in_or_app _ _ _ (or_introl Hs))) Hmr ltac:(discriminate))
        as [(pu & a0 & X & NC)|(pu1 & a1 & X & M1 & _ & P1)].
      + rewrite app_nil_r in X. rewrite X in E. injection E as <-. contradiction.
      + rewrite app_nil_r in X. rewrite X in E. cbn [scan_entries] in E.
        set (a2 := if pu1 then a1 else acc_push_nv a1 (lf_id a) (lf_ver a)) in *.
        assert (mr mx (ac_tuples a2) = false) as M2 by (unfold a2; destruct pu1; exact M1).
        destruct (A ++ lk :: B) as [|x rest] eqn:EA; [destruct A; discriminate EA|].
        rewrite <- EA in *. apply (IH B lk a2 acc'); try assumption.
        * intros Hre. exact (proj1 (proj2 (proj1 (StronglySorted_app_iff _ _ _) (Hso Hre)))).
        * intros s Hs. apply Hlt. apply in_or_app. right. exact Hs.
  Qed.
End CoverEntries.

Lemma land_layer ts p ls lm : land ts p ls = Some lm -> layer_get ls p <> None.
Proof. destruct ts as [|t rest]; [discriminate|]. cbn [land]. destruct (layer_get ls p); [discriminate|discriminate]. Qed.

Lemma descent_le l le ksuf :
  bytes l -> bytes ksuf -> (le = EP_INF -> l = []) -> in_left l le ksuf = true ->
  canon_lt (tuple_of_key ksuf) (tuple_of_key (dkey l)) = false.
Proof.
  intros Hl Hks Hinf Hleft.
  assert (lex_lt ksuf l = false) as H1.
  { destruct le; cbn [in_left] in Hleft.
    - apply lex_lt_asym. exact Hleft.
    - destruct (lex_lt ksuf l); [discriminate|reflexivity].
    - rewrite (Hinf eq_refl). apply lex_lt_nil_r. }
  assert (lex_lt ksuf (dkey l) = false) as H2.
  { destruct (lex_lt ksuf (dkey l)) eqn:X; [|reflexivity]. rewrite (lex_lt_dkey _ _ X) in H1. discriminate. }
  rewrite (lex_tuple ksuf (dkey l) Hks (dkey_bytes l Hl)) in H2. apply orb_false_iff in H2. apply H2.
Qed.

Lemma find_leaf_last root k lf before s :
  WF_bt None None root -> kt_wf k = true -> bt_leaves root = before ++ [lf] ->
  In s (leaf_entries lf) -> canon_lt k (sl_key s) = false -> find_leaf root k = Some lf.
Proof.
  intros Hwf Hk Elv Hs Hle.
  destruct (find_leaf_split root k Hwf Hk) as (lk & bk & ak & -> & ELk & _ & Hak & _).
  f_equal. rewrite Elv in ELk. destruct ak as [|z ak' _] using rev_ind.
  - apply (app_inj_tail before bk lf lk) in ELk. symmetry. apply ELk.
  - exfalso. change (lk :: ak' ++ [z]) with ((lk :: ak') ++ [z]) in ELk.
    rewrite app_assoc in ELk. apply app_inj_tail in ELk. destruct ELk as [_ <-].
    rewrite (Hak s) in Hle; [discriminate Hle|].
    rewrite flat_map_app. apply in_or_app. right. cbn [flat_map]. rewrite app_nil_r. exact Hs.
Qed.

Lemma ranked_in_elems root lf i e :
  In lf (bt_leaves root) -> In (i, e) (leaf_ranked lf) -> In e (bt_elems root).
Proof.
  intros Hlf Hie. rewrite <- bt_leaves_elems. apply in_flat_map. exists lf. split; [exact Hlf|].
  exact (leaf_ranked_in lf i e Hie).
Qed.

Lemma mr1_nil {A} (ts : list A) : mr 1 ts = false -> ts = [].
Proof. destruct ts; [reflexivity|]. unfold mr. cbn. discriminate. Qed.

Section CoverLayer.
  Variable ctr : N.
  Variable ls : layers_t.
  Hypothesis W : WFL ctr ls None.
  Variable mx : nat.
  Variable lm : leaf.

  (** the insert lands in the border the key belongs to, or continues below a link of it; the
      entries met before that link lie before the key *)
  Lemma land_cases rtl p root ksuf lk :
    bytes ksuf -> layer_get ls p = Some root -> WF_layer root ->
    find_leaf root (tuple_of_key ksuf) = Some lk ->
    land (path_of_key ksuf) p ls = Some lm ->
    lm = lk \/
    exists E1 i e E2, in_dir rtl (leaf_ranked lk) = E1 ++ (i, e) :: E2 /\
      (forall s, In s (map snd E1) -> dir_lt rtl (sl_key s) (tuple_of_key ksuf) = true) /\
      sl_key e = tuple_of_key ksuf /\ sl_lv e = LLink /\
      land (path_of_key (skipn 8 ksuf)) (p ++ [ks (tuple_of_key ksuf)]) ls = Some lm.
  Proof.
    intros Hks Eg [Hwf Hnd] Ef Hland.
    pose proof (tuple_of_key_wf ksuf Hks) as Htk. pose proof (find_leaf_in root _ lk Ef) as Hin.
    destruct (Nat.le_gt_cases (length ksuf) 8) as [Hlen|Hlen].
    - rewrite (path_short ksuf Hlen) in Hland. cbn [land] in Hland. rewrite Eg, Ef in Hland.
      destruct (leaf_lookup lk (tuple_of_key ksuf)); [discriminate|]. injection Hland as <-. left. reflexivity.
    - rewrite (path_long ksuf Hlen) in Hland. cbn [land] in Hland. rewrite Eg, Ef in Hland.
      destruct (leaf_lookup lk (tuple_of_key ksuf)) as [[[rk slot] s]|] eqn:El;
        [|injection Hland as <-; left; reflexivity].
      right.
      destruct (path_of_key (skipn 8 ksuf)) as [|t2 rest2] eqn:Ep; [discriminate|]. rewrite <- Ep in Hland |- *.
      pose proof (bt_leaves_WF None None root Hwf lk Hin) as Hwlk.
      apply (leaf_lookup_some lk _ rk slot s Hwlk Htk) in El. destruct El as [En Hsk].
      pose proof (ranked_in_elems root lk slot s Hin (nth_error_In _ _ En)) as Hel.
      apply nth_error_split in En. destruct En as (F1 & F2 & Er & _).
      destruct Hwlk as (_ & _ & _ & Hsorted).
      unfold leaf_keys, leaf_entries in Hsorted. rewrite Er, !map_app in Hsorted.
      apply StronglySorted_app_iff in Hsorted. destruct Hsorted as (_ & Hs2 & C1).
      cbn [map snd] in Hs2, C1. apply StronglySorted_cons_iff in Hs2. destruct Hs2 as [_ C2].
      rewrite Forall_forall in C2. rewrite Hsk in C1, C2.
      assert (sl_lv s = LLink) as Elv.
      { pose proof (layer_entry_ok ls (wl_layer _ _ _ W) p root s Eg Hel) as [_ Hok].
        rewrite Hsk, (tuple_kl_long ksuf Hlen) in Hok.
        destruct (sl_lv s); [contradiction|lia|reflexivity]. }
      (* the entries of the border before [s] are below the key, those behind it above *)
      exists (in_dir rtl (if rtl then F2 else F1)), slot, s, (in_dir rtl (if rtl then F1 else F2)).
      split; [rewrite Er; apply in_dir_elt|]. split; [|split; [exact Hsk|split; [exact Elv|exact Hland]]].
      intros s0 Hs0. rewrite in_dir_map in Hs0. apply in_dir_In, (in_map sl_key) in Hs0.
      destruct rtl; [apply C2; exact Hs0|apply C1; [exact Hs0|left; reflexivity]].
  Qed.

  (** Coverage for one layer and the layers below it, both directions in one induction on the fuel. *)
  Theorem scan_layer_cover_dir rtl : (rtl = true -> rtl_ok ls /\ mx = 1%nat) ->
    forall fuel p pb l le r re acc acc' ksuf,
    (rtl = true -> re = EP_INF) ->
    layer_get ls p <> None -> (length ls < fuel + length p)%nat ->
    bytes l -> (le = EP_INF -> l = []) -> mr mx (ac_tuples acc) = false ->
    bytes ksuf -> land (path_of_key ksuf) p ls = Some lm ->
    in_left l le ksuf = true -> in_right r re (pb ++ ksuf) = true ->
    scan_layer true fuel ls mx rtl p pb l le r re acc = Some acc' ->
    CovD rtl mx (pb ++ ksuf) (ac_tuples acc') -> In (lf_id lm, lf_ver lm) (ac_nv acc').
  Proof.
    intros Hr.
    induction fuel as [|f IH];
      intros p pb l le r re acc acc' ksuf Hdir Hex Hfuel Hl Hinf Hmr Hks Hland Hleft Hright E HC;
      [discriminate E|].
    cbn [scan_layer] in E.
    destruct (layer_get ls p) as [root|] eqn:Eg; [|contradiction].
    pose proof (wl_layer _ _ _ W p root Eg) as Hwl. pose proof (proj1 Hwl) as Hwf.
    pose proof (tuple_of_key_wf ksuf Hks) as Htk.
    (* the scans of the layers below: what they return, and that they cover *)
    pose proof (scan_layer_sub_spec ctr ls W true mx rtl f p pb re Hr Hdir Hfuel) as Hsub.
    assert (sub_cover (scan_layer true f ls mx rtl) mx rtl ls p pb re lm) as HsubG.
    { intros x al ale ar are acc0 acc_s ksuf' Hal Hinf0 Hare Hmr0 Hks' Hland' Hleft' Hright' Es HC'.
      eapply (IH (p ++ [x]) (pb ++ bytes_of_slice x 8) al ale ar are acc0 acc_s ksuf'); try eassumption.
      - intros Er. apply Hare. apply Hdir. exact Er.
      - eapply land_layer. exact Hland'.
      - apply fuel_step. exact Hfuel. }
    pose proof (scan_layer_nv_mono mx rtl ls f) as Hmono.
    (* the borders walked: the one the key belongs to, behind borders whose entries are met before the key *)
    assert (exists before A lk B,
              find_leaf root (tuple_of_key ksuf) = Some lk /\
              bt_leaves root = before ++ A ++ lk :: B /\
              scan_leaves true (scan_layer true f ls mx rtl) mx rtl p pb l le r re (A ++ lk :: B) acc = Some acc' /\
              (forall s, In s (flat_map (fun lf => in_dir rtl (leaf_entries lf)) A) ->
                         dir_lt rtl (sl_key s) (tuple_of_key ksuf) = true))
      as (before & A & lk & B & Efk & EL & Ewalk & HltA).
    { destruct rtl.
      - (* right to left the walk is over the last border alone, and the key belongs to it: otherwise
           the first entry visited would lie above the key and be returned, and the key not be covered *)
        destruct (Hr eq_refl) as [Hrtl ->]. pose proof (Hdir eq_refl) as ->.
        destruct (scan_start_dir root l true Hwl Hl (fun _ => Hrtl p root Eg))
          as (lf & before & after & Ef & Elv & Esk & ->).
        rewrite Ef, Esk in E.
        assert (In lf (bt_leaves root)) as Hlf by (rewrite Elv; apply in_or_app; right; left; reflexivity).
        exists before, [], lf, []. split; [|split; [exact Elv|split; [exact E|intros s []]]].
        destruct (bt_leaves_nonempty_root None None root Hwf lf Hlf) as [Hne | ->]; [|reflexivity].
        destruct (in_dir true (leaf_ranked lf)) as [|[i e] rest] eqn:Ees.
        { apply in_dir_eq_nil, leaf_entries_nil in Ees. contradiction. }
        assert (In (i, e) (leaf_ranked lf)) as Hie by (apply (in_dir_In true); rewrite Ees; left; reflexivity).
        pose proof (ranked_in_elems root lf i e Hlf Hie) as Hel.
        apply (find_leaf_last root _ lf before e Hwf Htk Elv).
        { exact (leaf_ranked_in lf i e Hie). }
        destruct (canon_lt (tuple_of_key ksuf) (sl_key e)) eqn:Hgt; [exfalso|reflexivity].
        assert (eok p pb ls (fun s => in_dir true (cent f ls p pb s)) e) as Hoke.
        { apply eok_in_dir. pose proof (eok_all ctr ls W p pb f root Eg) as Hall.
          rewrite Forall_forall in Hall. apply Hall. exact Hel. }
        rewrite scan_leaves_cons, Ees in E.
        destruct (SE_skip (scan_layer true f ls 1 true) 1 true p pb l le r EP_INF ls f Hl (fun _ => eq_refl)
                    Hsub Hmono ksuf Hks Hright (lf_id lf) (lf_ver lf) [(i, e)] rest false acc)
          as [(pu & a & X & NC)|(pu1 & a1 & X & M1 & T1 & _)]; try assumption; try discriminate.
        + constructor; [exact Hoke|constructor].
        + intros H. elim H. reflexivity.
        + intros s [<-|[]]. exact Hgt.
        + cbn [app] in X. rewrite X in E. injection E as <-. contradiction.
        + (* [e] contributes a key, which is in range *)
          rewrite (mr1_nil _ M1), (mr1_nil _ Hmr) in T1. symmetry in T1.
          cbn [map snd flat_map app] in T1. rewrite app_nil_r, filter_nil_iff in T1.
          destruct (first_in_range ctr ls W f p pb root e l le r ksuf Eg Hel Hfuel Hks Hleft Hgt) as (kv0 & Hkv0 & P0).
          rewrite (T1 kv0 (proj2 (in_dir_In true _ kv0) Hkv0)) in P0. discriminate P0.
      - destruct (walk_reaches root (tuple_of_key (dkey l)) (tuple_of_key ksuf) Hwl
                    (tuple_of_key_wf _ (dkey_bytes l Hl)) Htk (descent_le l le ksuf Hl Hks Hinf Hleft))
          as (start & lk & before & A & B & E1 & E2 & EL & Esk & HltA).
        rewrite (find_leaf_dkey root l Hwf Hl), E1, Esk in E.
        exists before, A, lk, B. split; [exact E2|]. split; [exact EL|]. split; [exact E|exact HltA]. }
    apply (SL_cover (scan_layer true f ls mx rtl) mx rtl p pb l le r re ls f Hl Hdir Hsub Hmono ksuf Hks Hright
             lm Hleft HsubG A B lk acc acc'); try assumption.
    - apply (eok_dir ctr ls W rtl p pb f root _ Eg). intros x Hx. rewrite EL. apply in_or_app. right. exact Hx.
    - intros Hre. destruct rtl; [elim Hre; apply Hdir; reflexivity|].
      destruct (layer_entries_ok ctr ls W p pb f root Eg) as [_ Hso].
      rewrite EL, flat_map_app, map_app in Hso. apply StronglySorted_app_iff in Hso. apply Hso.
    - exact (land_cases rtl p root ksuf lk Hks Eg Hwl Efk Hland).
  Qed.

  (** Each direction on its own, as it reads without [dir_lex]: [Cov] is [CovD false]; [CovR] below,
      for max_size 1, looks at the first tuple, which is then also the last. *)
  Definition Cov (mx : nat) (kf : key) (ts : list (key * value)) : Prop := CovD false mx kf ts.

  Theorem scan_layer_cover : forall fuel p pb l le r re acc acc' ksuf,
    layer_get ls p <> None -> (length ls < fuel + length p)%nat ->
    bytes l -> (le = EP_INF -> l = []) -> mr mx (ac_tuples acc) = false ->
    bytes ksuf -> land (path_of_key ksuf) p ls = Some lm ->
    in_left l le ksuf = true -> in_right r re (pb ++ ksuf) = true ->
    scan_layer true fuel ls mx false p pb l le r re acc = Some acc' ->
    Cov mx (pb ++ ksuf) (ac_tuples acc') -> In (lf_id lm, lf_ver lm) (ac_nv acc').
  Proof.
    intros fuel p pb l le r re acc acc' ksuf. apply (scan_layer_cover_dir false); discriminate.
  Qed.
End CoverLayer.

Definition CovR (kf : key) (ts : list (key * value)) : Prop :=
  ts = [] \/ exists k0 v0 rest, ts = (k0, v0) :: rest /\ lex_lt k0 kf = true.

Section CoverLayerRtl.
  Variable ctr : N.
  Variable ls : layers_t.
  Hypothesis W : WFL ctr ls None.
  Hypothesis Hrtl : rtl_ok ls.
  Variable lm : leaf.

  Theorem scan_layer_cover_rtl : forall fuel p pb l le r acc acc' ksuf,
    layer_get ls p <> None -> (length ls < fuel + length p)%nat ->
    bytes l -> (le = EP_INF -> l = []) -> ac_tuples acc = [] ->
    bytes ksuf -> land (path_of_key ksuf) p ls = Some lm ->
    in_left l le ksuf = true ->
    scan_layer true fuel ls 1 true p pb l le r EP_INF acc = Some acc' ->
    CovR (pb ++ ksuf) (ac_tuples acc') -> In (lf_id lm, lf_ver lm) (ac_nv acc').
  Proof.
    intros fuel p pb l le r acc acc' ksuf Hex Hfuel Hl Hinf Hacc Hks Hland Hleft E HC.
    assert (mr 1 (ac_tuples acc) = false) as Hmr by (rewrite Hacc; reflexivity).
    apply (scan_layer_cover_dir ctr ls W 1 lm true (fun _ => conj Hrtl eq_refl)
             fuel p pb l le r EP_INF acc acc' ksuf); try assumption; try reflexivity.
    destruct (scan_layer_rtl ctr ls W true Hrtl fuel p pb l le r acc Hex Hfuel Hl Hinf Hmr) as (acc0 & E0 & T0).
    rewrite E in E0. injection E0 as <-.
    pose proof (trunc_length 1 (ac_tuples acc ++ filter (in_range_kv pb l le r EP_INF) (rev (clayer fuel ls p pb)))
                  (Nat.neq_succ_0 0)) as Hlen.
    rewrite <- T0 in Hlen.
    destruct HC as [Ets|(k0 & v0 & rest & Ets & L)]; rewrite Ets in Hlen |- *; [left; reflexivity|right].
    destruct rest; [|cbn [length] in Hlen; lia]. exists [], k0, v0. split; [reflexivity|exact L].
  Qed.
End CoverLayerRtl.

(** ** the insert: the border it lands in gets a new version word *)
Lemma land_landing : forall ts p ls,
  land ts p ls = match landing ts p ls with
                 | Some (_, _, l, t, _) => match leaf_lookup l t with None => Some l | Some _ => None end
                 | None => None
                 end.
Proof.
  induction ts as [|t rest IH]; intros p ls; [reflexivity|]. cbn [land landing].
  destruct (layer_get ls p) as [root|]; [|reflexivity].
  destruct (find_leaf root t) as [l|]; [|reflexivity].
  destruct (leaf_lookup l t) eqn:El; [|rewrite El; reflexivity].
  destruct rest; [rewrite El; reflexivity|apply IH].
Qed.

Lemma store_leaves_app a b : store_leaves (a ++ b) = store_leaves a ++ store_leaves b.
Proof. unfold store_leaves. apply flat_map_app. Qed.

Lemma store_leaves_cons q r b : store_leaves ((q, r) :: b) = bt_leaves r ++ store_leaves b.
Proof. reflexivity. Qed.

Lemma store_leaves_set ls q root : layer_get ls q = Some root ->
  exists S1 S2, store_leaves ls = S1 ++ bt_leaves root ++ S2 /\
                forall r', store_leaves (layer_set ls q r') = S1 ++ bt_leaves r' ++ S2.
Proof.
  intros Eg. destruct (layer_split ls q root Eg) as (L1 & L2 & EL & ES & _).
  exists (store_leaves L1), (store_leaves L2).
  split; [rewrite EL at 1|intros r'; rewrite ES]; rewrite store_leaves_app, store_leaves_cons; reflexivity.
Qed.

Lemma store_leaves_in ls l :
  In l (store_leaves ls) <-> exists q r, In (q, r) ls /\ In l (bt_leaves r).
Proof.
  unfold store_leaves. rewrite in_flat_map. split.
  - intros ([q r] & H1 & H2). exists q, r. split; assumption.
  - intros (q & r & H1 & H2). exists (q, r). split; assumption.
Qed.

Lemma layer_get_leaves ls p root l :
  layer_get ls p = Some root -> In l (bt_leaves root) -> In l (store_leaves ls).
Proof.
  intros Eg Hl. apply store_leaves_in. exists p, root. split; [apply layer_get_in; exact Eg|exact Hl].
Qed.

(** from [wl_disj] (the layers have disjoint ids); so [store_leaf_ver] finds the border *)
Lemma store_ids_NoDup ctr ls d : WFL ctr ls d -> NoDup (map lf_id (store_leaves ls)).
Proof.
  intros W. unfold store_leaves. rewrite flat_map_concat_map, concat_map, map_map, <- flat_map_concat_map.
  pose proof (wl_nodup _ _ _ W) as Hnd.
  apply (NoDup_flat_map_key fst).
  - exact Hnd.
  - intros [q r] Hin. cbn [snd]. apply (leaf_ids_NoDup r).
    apply (wl_layer _ _ _ W q r). apply in_layer_get; assumption.
  - intros [q1 r1] [q2 r2] b H1 H2 Hb1 Hb2. cbn [snd] in Hb1, Hb2.
    pose proof (in_layer_get _ _ _ Hnd H1) as E1. pose proof (in_layer_get _ _ _ Hnd H2) as E2.
    apply in_map_iff in Hb1. destruct Hb1 as (l1 & <- & Hl1).
    apply in_map_iff in Hb2. destruct Hb2 as (l2 & Eid & Hl2).
    apply (wl_disj _ _ _ W q1 q2 r1 r2 (lf_id l1) E1 E2).
    + apply bt_leaves_ids_incl. exact Hl1.
    + rewrite <- Eid. apply bt_leaves_ids_incl. exact Hl2.
Qed.

Lemma store_ids_lt ctr ls d l : WFL ctr ls d -> In l (store_leaves ls) -> lf_id l < ctr.
Proof.
  intros W H. apply store_leaves_in in H. destruct H as (q & r & H1 & H2).
  apply (wl_ids _ _ _ W q r).
  - apply in_layer_get; [exact (wl_nodup _ _ _ W)|exact H1].
  - apply bt_leaves_ids_incl. exact H2.
Qed.

Lemma store_leaf_ver_spec ctr tr d lf :
  WFL ctr (t_layers tr) d -> In lf (store_leaves (t_layers tr)) -> store_leaf_ver tr (lf_id lf) = Some (lf_ver lf).
Proof. intros W Hin. exact (ver_in_spec _ lf (store_ids_NoDup _ _ _ W) Hin). Qed.

Lemma chain_ids v id : forall ts p c,
  In id (map lf_id (store_leaves (chain_of p ts v c))) <-> c <= id < c + N.of_nat (length ts).
Proof.
  induction ts as [|t r IH]; intros p c; cbn [chain_of length]; [cbn; lia|].
  rewrite store_leaves_cons. cbn [bt_leaves app map In]. rewrite IH, single_leaf_id. lia.
Qed.

Lemma chain_leaves v ts p c l :
  In l (store_leaves (chain_of p ts v c)) <-> exists q, In (q, BLeaf l) (chain_of p ts v c).
Proof.
  rewrite store_leaves_in. split.
  - intros (q & r & Hin & Hl). destruct (chain_of_in v _ _ _ _ _ Hin) as (_ & c' & t & lv & _ & ->).
    destruct Hl as [<-|[]]. exists q. exact Hin.
  - intros (q & Hin). exists q, (BLeaf l). split; [exact Hin|left; reflexivity].
Qed.

(** what the insert of an absent key does to a store.  The layer list: the root of the landing layer [q] is
    replaced, the fresh layers [CH] for the rest of the key are appended.  The list of borders: those before, in
    order, with the landing border [lm] replaced by [lm'] (same id, insert counter moved), followed by the new
    borders [NW] of its layer (the reported created one, if [lm] was full); behind them the root borders of
    [CH], which the report does not mention. *)
Theorem put_borders ctr tr k v unique tr' po ctr' :
  WF_store ctr tr -> t_null tr = false -> bytes k -> smap_get (abs_tree tr) k = None ->
  put tr k v unique ctr = Some (tr', po, ctr') ->
  exists info q root root' t rest c1 lm lm' S1 NW S2,
    let CH := chain_of (q ++ [ks t]) rest v c1 in
    po_info po = Some info /\ path_of_key k = mk9s q ++ t :: rest /\
    t_layers tr' = layer_set (t_layers tr) q root' ++ CH /\
    layer_get (t_layers tr) q = Some root /\ In lm (bt_leaves root) /\
    land (path_of_key k) [] (t_layers tr) = Some lm /\
    store_leaves (t_layers tr) = S1 ++ lm :: S2 /\
    store_leaves (t_layers tr') = S1 ++ lm' :: NW ++ S2 ++ store_leaves CH /\
    pi_modified info = lf_id lm /\ lf_id lm' = lf_id lm /\
    get_vinsert_delete (lf_ver lm') <> get_vinsert_delete (lf_ver lm) /\
    map lf_id NW = match pi_created info with Some c => [c] | None => [] end /\
    pi_created info = (if leaf_cnk lm =? 15 then Some ctr else None) /\
    ctr < c1 /\ ctr' = c1 + N.of_nat (length rest).
Proof.
  intros W Hn Hb Habs Hput. rewrite (abs_tree_get ctr tr k W Hb) in Habs.
  destruct (put_cases _ _ _ _ _ _ _ _ W Hb Hput)
    as [Hn'|? ? ? ? ? ? ? ? _ _ F|? ? ? ? ? ? ? ? _ _ F|q root lm t rest root' info c1 L Ab Hok Eput];
    [congruence|rewrite (fd_abs _ _ _ _ _ _ _ _ _ F) in Habs; discriminate Habs..|].
  destruct L as [_ EL Hpath Eg Ef Hwl _ [Hw _]], Ab as [El Hnin _].
  destruct (layer_put_borders root t _ ctr root' info c1 Hwl Hw Hnin Hok Eput)
    as (lm0 & lm' & A & NW & B & F & HL & HL' & Hm & Hid & Hv & HN & Hc).
  rewrite Ef in F. injection F as <-.
  (* every insert into a layer takes an id, for the sibling of a border that may split *)
  destruct (layer_put_perm root t (tail_lv rest v) ctr Hwl Hw Hnin Hok)
    as (r2 & i2 & c2 & nw & E2 & _ & _ & _ & _ & _ & Hc1 & _).
  rewrite Eput in E2. injection E2 as <- <- <-.
  destruct (store_leaves_set (t_layers tr) q root Eg) as (T1 & T2 & ET & ET').
  exists info, q, root, root', t, rest, c1, lm, lm', (T1 ++ A), NW, (B ++ T2).
  cbv zeta. cbn [po_info t_layers].
  split; [reflexivity|]. split; [exact Hpath|]. split; [reflexivity|]. split; [exact Eg|].
  split; [rewrite HL; apply in_elt|]. split; [rewrite land_landing, EL, El; reflexivity|].
  rewrite store_leaves_app, ET, ET', HL, HL'.
  split; [rewrite <- !app_assoc; reflexivity|].
  split; [rewrite <- !app_assoc; cbn [app]; rewrite <- !app_assoc; reflexivity|].
  repeat (split; [assumption|]). reflexivity.
Qed.

Lemma put_lands ctr tr k v tr' po ctr' :
  WF_store ctr tr -> t_null tr = false -> bytes k ->
  smap_get (abs_tree tr) k = None ->
  put tr k v false ctr = Some (tr', po, ctr') ->
  exists lm, land (path_of_key k) [] (t_layers tr) = Some lm /\
             store_leaf_ver tr' (lf_id lm) <> Some (lf_ver lm) /\
             exists info, po_info po = Some info /\ pi_modified info = lf_id lm.
Proof.
  intros W Hn Hb Habs Hput.
  pose proof (proj1 (put_wf _ _ _ _ _ _ _ _ W Hb Hput)) as W2.
  destruct (put_borders ctr tr k v false tr' po ctr' W Hn Hb Habs Hput)
    as (info & q & root & root' & t & rest & c1 & lm & lm' & S1 & NW & S2
        & Hinfo & _ & _ & _ & _ & Hland & _ & SL' & Hm & Hid & Hv & _).
  exists lm. split; [exact Hland|]. split; [|exists info; split; [exact Hinfo|exact Hm]].
  rewrite <- Hid, (store_leaf_ver_spec ctr' tr' None lm' W2) by (rewrite SL'; apply in_elt).
  intros X. injection X as X. apply Hv. rewrite X. reflexivity.
Qed.

(** ** a recorded pair goes stale *)
(** the third conjunct of [covered], in the direction of the scan; right to left [covered] looks at
    the first tuple, which is the last one as at most one is returned *)
Lemma covered_dir rtl mx (res : list (key * value)) k :
  (rtl = true -> mx = 1%nat /\ (length res <= 1)%nat) ->
  (if rtl then match res with [] => true | (k0, _) :: _ => lex_lt k0 k end
   else if Nat.eqb mx 0 || Nat.ltb (length res) mx then true
        else match rev res with [] => true | (k1, _) :: _ => lex_lt k k1 end) = true ->
  CovD rtl mx k res.
Proof.
  intros Hr H. unfold CovD. destruct rtl.
  - destruct (Hr eq_refl) as [-> Hlen].
    destruct res as [|[k0 v0] [|]]; [left; reflexivity| |cbn [length] in Hlen; lia].
    right. exists [], k0, v0. split; [reflexivity|exact H].
  - unfold mr. destruct (Nat.eqb_spec mx 0) as [E0|N0]; [left; reflexivity|]. cbn [orb negb andb] in H |- *.
    destruct (Nat.ltb_spec (length res) mx) as [Hlt|Hge].
    + left. apply Nat.leb_gt. exact Hlt.
    + destruct (rev res) as [|[k1 v1] t] eqn:Er.
      * apply (f_equal (@rev _)) in Er. rewrite rev_involutive in Er. subst res. cbn in Hge. lia.
      * right. exists (rev t), k1, v1. split; [|exact H].
        apply (f_equal (@rev _)) in Er. rewrite rev_involutive in Er. exact Er.
Qed.

(** the border in which an insert of a covered key would land is in the
    node-version vector, with its current version word *)
Lemma scan_records_landing : forall ctr tr a o k lm,
  WF_store ctr tr -> scan_inv tr -> t_null tr = false ->
  bytes (sa_l a) -> bytes k ->
  spec_scan_args_ok a = true -> scan tr a = Some o ->
  covered a (so_tuples o) k = true ->
  land (path_of_key k) [] (t_layers tr) = Some lm ->
  In (lf_id lm, lf_ver lm) (so_nv o).
Proof.
  intros ctr tr a o k lm Wst Hinv Hn Hbl Hbk Hok Hscan Hcov Hland.
  destruct (scan_inv_sound tr Hinv) as [Hlive Hrtl].
  destruct (scan_unfold ctr tr a Wst Hn Hbl Hok) as (root & start & Eg & Hstart & Es).
  rewrite Es in Hscan. clear Es.
  pose proof (WF_store_layers _ _ Wst Hn) as W. clear Wst.
  set (ls := t_layers tr) in *.
  unfold covered in Hcov. cbv zeta in Hcov. fold (left_key a) in Hcov.
  apply andb_true_iff in Hcov. destruct Hcov as [Hcov Hc3].
  apply andb_true_iff in Hcov. destruct Hcov as [Hleft Hc2].
  destruct (get_deleted (lf_ver start) && get_root (lf_ver start)) eqn:Edel.
  { (* the flagged root border of the empty store *)
    injection Hscan as <-. cbn [so_nv]. left.
    pose proof (proj1 (wl_layer _ _ _ W [] root Eg)) as Hwf.
    pose proof (Hlive root start Eg Hstart Edel) as Hemp.
    destruct (empty_root_leaf None None root Hwf Hemp) as [l0 ->].
    cbn [bt_leaves] in Hstart. destruct Hstart as [<-|[]].
    destruct (path_hd k) as [rest Ep]. rewrite Ep in Hland. cbn [land] in Hland. fold ls in Hland.
    rewrite Eg, find_leaf_leaf in Hland.
    destruct (leaf_lookup l0 (tuple_of_key k)) as [[[rk slot] s]|] eqn:El.
    - exfalso. destruct (find_leaf_lookup (BLeaf l0) _ l0 Hwf (tuple_of_key_wf k Hbk) eq_refl) as [_ HB].
      destruct (HB rk slot s El) as (X & _). rewrite Hemp in X. destruct X.
    - injection Hland as <-. reflexivity. }
  destruct (scan_layer true (S (length ls)) ls (sa_max a) (sa_rtl a) [] [] (left_key a) (sa_le a)
                       (sa_r a) (sa_re a) empty_acc) as [acc|] eqn:El;
    [|discriminate Hscan].
  injection Hscan as <-. cbn [so_nv so_tuples] in *.
  assert (layer_get ls [] <> None) as Hex by (rewrite Eg; discriminate).
  pose proof (root_fuel ls) as Hfuel.
  pose proof (left_key_bytes a Hbl) as Hbl'. pose proof (left_key_inf a) as Hinf.
  assert (sa_rtl a = true -> rtl_ok ls /\ sa_max a = 1%nat) as Hr.
  { intros R. split; [exact Hrtl|exact (proj2 (args_ok_rtl a Hok R))]. }
  assert (sa_rtl a = true -> sa_re a = EP_INF) as Hdir by (intros R; exact (proj1 (args_ok_rtl a Hok R))).
  apply (scan_layer_cover_dir ctr ls W (sa_max a) lm (sa_rtl a) Hr (S (length ls)) [] [] (left_key a) (sa_le a)
           (sa_r a) (sa_re a) empty_acc acc k); try assumption.
  - apply mr_empty.
  - cbn [app]. apply covered_dir; [|exact Hc3].
    (* right to left at most one tuple is returned *)
    intros R. destruct (Hr R) as [_ E1]. split; [exact E1|].
    destruct (scan_layer_dir ctr ls W true (sa_max a) (sa_rtl a) Hr (S (length ls)) [] [] (left_key a) (sa_le a)
                (sa_r a) (sa_re a) empty_acc Hdir Hex Hfuel Hbl' Hinf (mr_empty _)) as (acc0 & E0 & T0).
    rewrite El in E0. injection E0 as <-. rewrite T0, E1. apply trunc_length. discriminate.
Qed.

(** C05, sequential form: the insert of an absent key of the covered range makes a recorded
    (border, version) pair stale ([bytes (sa_r a)] is not used, as in [scan_refines]) *)
Theorem scan_detects_insert : forall ctr tr a o k v tr' po ctr',
  WF_store ctr tr -> scan_inv tr -> t_null tr = false ->
  bytes (sa_l a) -> bytes (sa_r a) -> bytes k ->
  spec_scan_args_ok a = true -> scan tr a = Some o ->
  smap_get (abs_tree tr) k = None ->
  covered a (so_tuples o) k = true ->
  put tr k v false ctr = Some (tr', po, ctr') ->
  exists id ver, In (id, ver) (so_nv o) /\ store_leaf_ver tr' id <> Some ver.
Proof.
  intros ctr tr a o k v tr' po ctr' W Hinv Hn Hbl _ Hbk Hok Hscan Habs Hcov Hput.
  destruct (put_lands ctr tr k v tr' po ctr' W Hn Hbk Habs Hput) as (lm & Hland & Hstale & _).
  exists (lf_id lm), (lf_ver lm). split; [|exact Hstale].
  exact (scan_records_landing ctr tr a o k lm W Hinv Hn Hbl Hbk Hok Hscan Hcov Hland).
Qed.

(** the same with C12: the stale pair is the one of the border that the put reports as modified *)
Theorem scan_detects_insert_reported : forall ctr tr a o k v tr' po ctr',
  WF_store ctr tr -> scan_inv tr -> t_null tr = false ->
  bytes (sa_l a) -> bytes k ->
  spec_scan_args_ok a = true -> scan tr a = Some o ->
  smap_get (abs_tree tr) k = None ->
  covered a (so_tuples o) k = true ->
  put tr k v false ctr = Some (tr', po, ctr') ->
  exists info ver, po_info po = Some info /\ In (pi_modified info, ver) (so_nv o) /\
                   store_leaf_ver tr' (pi_modified info) <> Some ver.
Proof.
  intros ctr tr a o k v tr' po ctr' W Hinv Hn Hbl Hbk Hok Hscan Habs Hcov Hput.
  destruct (put_lands ctr tr k v tr' po ctr' W Hn Hbk Habs Hput) as (lm & Hland & Hstale & info & Ei & Em).
  exists info, (lf_ver lm). split; [exact Ei|]. rewrite Em. split; [|exact Hstale].
  exact (scan_records_landing ctr tr a o k lm W Hinv Hn Hbl Hbk Hok Hscan Hcov Hland).
Qed.

(** ** the statement is false for [scan_nofix2]; the hypotheses are satisfiable *)
Module PhantomExample.
  Definition mk (l : key) le (r : key) re mx rtl : scan_args :=
    {| sa_l := l; sa_le := le; sa_r := r; sa_re := re; sa_max := mx; sa_rtl := rtl;
       sa_lnull := false; sa_rnull := false |}.

  (** *** fix2 = false: one key "aaaaaaaab"; scan (-inf, "aaaaaaaa"] ends on the layer link
      without recording the border, so the later insert of "a" goes unnoticed (the key and the
      arguments of [c05_key] / [c05_args] in Properties_C05, where the store is built by the system) *)
  Definition cx_key : key := [97;97;97;97;97;97;97;97;98].
  Definition cx_args : scan_args := mk [] EP_INF [97;97;97;97;97;97;97;97] EP_INCL 0%nat false.
  Definition cx_ins : key := [97].

  Theorem scan_nofix2_misses_insert :
    exists ctr tr o tr' po ctr',
      WF_store ctr tr /\ scan_inv tr /\ t_null tr = false /\
      bytes (sa_l cx_args) /\ bytes (sa_r cx_args) /\ bytes cx_ins /\
      spec_scan_args_ok cx_args = true /\
      scan_nofix2 tr cx_args = Some o /\ so_status o = St_OK /\
      smap_get (abs_tree tr) cx_ins = None /\
      covered cx_args (so_tuples o) cx_ins = true /\
      put tr cx_ins (StoreExample.val 0) false ctr = Some (tr', po, ctr') /\
      ~ (exists id ver, In (id, ver) (so_nv o) /\ store_leaf_ver tr' id <> Some ver) /\
      (* while the current scan does record a pair that becomes stale *)
      exists o2, scan tr cx_args = Some o2 /\
        exists id ver, In (id, ver) (so_nv o2) /\ store_leaf_ver tr' id <> Some ver.
  Proof.
    destruct (StoreExample.puts_preserve scan_inv put_scan_inv [cx_key] (empty_tree 1) 2) as (tr & c & E & W & Hi).
    - apply empty_tree_wf. lia.
    - apply scan_inv_empty.
    - apply keys_bytes. reflexivity.
    - vm_compute in E. injection E as <- <-.
      eexists. eexists. eexists. eexists. eexists. eexists.
      split; [exact W|]. split; [exact Hi|]. split; [reflexivity|].
      split; [constructor|]. split; [apply bytesb_sound; vm_compute; reflexivity|].
      split; [apply bytesb_sound; vm_compute; reflexivity|].
      split; [vm_compute; reflexivity|]. split; [vm_compute; reflexivity|].
      split; [reflexivity|]. split; [vm_compute; reflexivity|]. split; [vm_compute; reflexivity|].
      split; [vm_compute; reflexivity|]. split.
      + intros (id & ver & H & _). exact H.
      + eexists. split; [vm_compute; reflexivity|].
        eexists. eexists. split; [left; reflexivity|]. vm_compute. discriminate.
  Qed.

  (** *** the hypotheses of [scan_detects_insert] hold on the 39-layer store of ScanExample
      (three borders in layer 0, two in layer 1) for inserts landing in layers 0, 1, 2 and in
      the last layer of the chain under [repeat 7 300] (no insert creates a layer), with a size
      limit, and right to left *)
  Import ScanExample.
  Definition bytesb (k : key) : bool := forallb (fun b => b <? 256) k.
  Definition side (a : scan_args) (k : key) : bool :=
    bytesb (sa_l a) && bytesb (sa_r a) && bytesb k && spec_scan_args_ok a &&
    match smap_get (abs_tree ex_tree) k with None => true | Some _ => false end &&
    match scan ex_tree a with Some o => covered a (so_tuples o) k | None => false end.

  Lemma side_applies a k v : side a k = true ->
    exists ctr o tr' po ctr',
      WF_store ctr ex_tree /\ scan_inv ex_tree /\ scan ex_tree a = Some o /\
      covered a (so_tuples o) k = true /\ smap_get (abs_tree ex_tree) k = None /\
      put ex_tree k v false ctr = Some (tr', po, ctr') /\
      exists id ver, In (id, ver) (so_nv o) /\ store_leaf_ver tr' id <> Some ver.
  Proof.
    unfold side. intros H.
    apply andb_true_iff in H. destruct H as [H H6].
    apply andb_true_iff in H. destruct H as [H H5].
    apply andb_true_iff in H. destruct H as [H H4].
    apply andb_true_iff in H. destruct H as [H H3].
    apply andb_true_iff in H. destruct H as [H1 H2].
    destruct ex_inv as (ctr & W & Hi).
    destruct (scan ex_tree a) as [o|] eqn:Es; [|discriminate H6].
    destruct (smap_get (abs_tree ex_tree) k) eqn:Ea; [discriminate H5|].
    assert (bytes k) as Hk by (apply bytesb_sound; exact H3).
    destruct (put_refines ctr ex_tree k v false W Hk) as (tr' & po & ctr' & E & _).
    exists ctr, o, tr', po, ctr'.
    split; [exact W|]. split; [exact Hi|]. split; [reflexivity|]. split; [exact H6|].
    split; [reflexivity|]. split; [exact E|].
    exact (scan_detects_insert ctr ex_tree a o k v tr' po ctr' W Hi ex_not_null
             (bytesb_sound _ H1) (bytesb_sound _ H2) Hk H4 Es Ea H6 E).
  Qed.

  Definition ex_cases : list (scan_args * key) :=
    [ (mk [3] EP_INCL [9;1] EP_INCL 0%nat false, [5;5]);               (* lands in layer 0 *)
      (mk [3] EP_INCL [9;1] EP_INCL 0%nat false, p8 ++ [3;3]);          (* lands in layer 1 *)
      (mk [3] EP_INCL [9;1] EP_INCL 0%nat false, p8 ++ p8 ++ [0]);      (* lands in layer 2 *)
      (mk [3] EP_INCL [] EP_INF 4%nat false, [5;5]);                    (* size limit reached *)
      (mk [] EP_INF [] EP_INF 0%nat false, repeat 7 301);               (* lands in the deepest layer *)
      (mk [3] EP_INCL [] EP_INF 1%nat true, f8 ++ [4]) ].               (* right to left *)

  (** *** and what the executable model computes: the stale pairs are those of the border the
      put reports as modified *)
  Definition stale (tr' : tree) (nv : list (N * N)) : list (N * N) :=
    filter (fun iv => match store_leaf_ver tr' (fst iv) with Some w => negb (w =? snd iv) | None => true end) nv.
  Definition ctr0 : N :=
    match StoreExample.puts (empty_tree 1) 2 ex_keys with Some (_, c) => c | None => 0 end.
  Definition demo (a : scan_args) (k : key) :=
    match scan ex_tree a, put ex_tree k (StoreExample.val 0) false ctr0 with
    | Some o, Some (tr', po, _) =>
      Some (covered a (so_tuples o) k, length (so_tuples o), length (so_nv o),
            nodup N.eq_dec (map fst (stale tr' (so_nv o))), option_map pi_modified (po_info po))
    | _, _ => None
    end.

  (** [side] without evaluating it: that the scan covers the key is the first component of [demo];
      that the key is absent is decided by a lookup in the store, not in its flattened map *)
  Definition is_none {A} (o : option A) : bool := match o with None => true | Some _ => false end.
  Definition side_rest (a : scan_args) (k : key) : bool :=
    bytesb (sa_l a) && bytesb (sa_r a) && bytesb k && spec_scan_args_ok a && is_none (lookup ex_tree k).

  Lemma side_from_demo a k :
    side_rest a k = true -> (exists n1 n2 st m, demo a k = Some (true, n1, n2, st, m)) -> side a k = true.
  Proof.
    unfold side_rest, side, demo. intros H (n1 & n2 & st & m & Hd). destruct ex_wf as (c & W).
    assert (bytesb k = true) as Hk by lia.
    rewrite (abs_tree_get c ex_tree k W (bytesb_sound k Hk)).
    destruct (scan ex_tree a) as [o|]; [|discriminate Hd].
    destruct (put ex_tree k (StoreExample.val 0) false ctr0) as [[[tr' po] c']|]; [|discriminate Hd].
    injection Hd as -> _ _ _ _. rewrite andb_true_r.
    destruct (lookup ex_tree k); exact H.
  Qed.

  (** [demo] for several keys under one argument record; in this form the scan is evaluated once *)
  Definition demos (a : scan_args) (ks : list key) :=
    let so := scan ex_tree a in
    map (fun k => match so, put ex_tree k (StoreExample.val 0) false ctr0 with
                  | Some o, Some (tr', po, _) =>
                    Some (covered a (so_tuples o) k, length (so_tuples o), length (so_nv o),
                          nodup N.eq_dec (map fst (stale tr' (so_nv o))), option_map pi_modified (po_info po))
                  | _, _ => None
                  end) ks.

  Lemma demos_eq a ks : map (demo a) ks = demos a ks.
  Proof. reflexivity. Qed.

  (** the runs on the 39-layer store, evaluated together: the equations are checked as one
      equation between tuples, so that the store is built once, and each scan once *)
  Lemma ex_runs :
    forallb (fun ak => side_rest (fst ak) (snd ak)) ex_cases = true /\
    map (demo (mk [3] EP_INCL [9;1] EP_INCL 0%nat false)) [[5;5]; p8 ++ [3;3]; p8 ++ p8 ++ [0]] =
      [ Some (true, 35%nat, 69%nat, [1], Some 1);
        Some (true, 35%nat, 69%nat, [9], Some 9);
        Some (true, 35%nat, 69%nat, [13], Some 13) ] /\
    map (demo (mk [3] EP_INCL [] EP_INF 4%nat false)) [[5;5]; [7;5]] =
      [ Some (true, 4%nat, 4%nat, [1], Some 1); Some (false, 4%nat, 4%nat, [], Some 60) ] /\
    map (demo (mk [] EP_INF [] EP_INF 0%nat false)) [repeat 7 301] =
      [ Some (true, 51%nat, 84%nat, [51], Some 51) ] /\
    map (demo (mk [3] EP_INCL [] EP_INF 1%nat true)) [f8 ++ [4]; f8 ++ [2]] =
      [ Some (true, 1%nat, 2%nat, [15], Some 15); Some (false, 1%nat, 2%nat, [15], Some 15) ].
  Proof.
    assert (forall (A B C D E : Type) (a a' : A) (b b' : B) (c c' : C) (d d' : D) (e e' : E),
              (a, b, c, d, e) = (a', b', c', d', e') -> a = a' /\ b = b' /\ c = c' /\ d = d' /\ e = e') as G
      by (intros * H; injection H as -> -> -> -> ->; auto).
    rewrite !demos_eq. apply G. vm_compute. reflexivity.
  Qed.

  Example demo_cases :
    map (fun ak => demo (fst ak) (snd ak)) ex_cases =
    [ Some (true, 35%nat, 69%nat, [1], Some 1);
      Some (true, 35%nat, 69%nat, [9], Some 9);
      Some (true, 35%nat, 69%nat, [13], Some 13);
      Some (true, 4%nat, 4%nat, [1], Some 1);
      Some (true, 51%nat, 84%nat, [51], Some 51);
      Some (true, 1%nat, 2%nat, [15], Some 15) ].
  Proof.
    destruct ex_runs as (_ & H1 & H2 & H3 & H4).
    (* the four groups in the order of [ex_cases], the second and the fourth without their last key *)
    exact (f_equal2 (@app _) H1 (f_equal2 (@app _) (f_equal (firstn 1) H2)
                        (f_equal2 (@app _) H3 (f_equal (firstn 1) H4)))).
  Qed.

  (** keys outside the covered part need not be detected: size limit 4 stops before [7;5];
      the right-to-left scan returns f8 ++ [3], which is above f8 ++ [2] *)
  Example demo_not_covered :
    demo (mk [3] EP_INCL [] EP_INF 4%nat false) [7;5] = Some (false, 4%nat, 4%nat, [], Some 60) /\
    demo (mk [3] EP_INCL [] EP_INF 1%nat true) (f8 ++ [2]) = Some (false, 1%nat, 2%nat, [15], Some 15).
  Proof.
    destruct ex_runs as (_ & _ & H2 & _ & H4).
    (* on variables: [injection] on [H2] itself would evaluate the runs *)
    assert (forall B (f : key -> B) x y u v, map f [x; y] = [u; v] -> f y = v) as G
      by (intros B f x y u v H; injection H as _ H; exact H).
    exact (conj (G _ _ _ _ _ _ H2) (G _ _ _ _ _ _ H4)).
  Qed.

  Example ex_cases_side : forallb (fun ak => side (fst ak) (snd ak)) ex_cases = true.
  Proof.
    apply forallb_forall. intros ak Hin. apply side_from_demo.
    - exact (proj1 (forallb_forall _ _) (proj1 ex_runs) ak Hin).
    - apply (in_map (fun ak => demo (fst ak) (snd ak))) in Hin. rewrite demo_cases in Hin.
      repeat (destruct Hin as [<-|Hin]; [repeat eexists|]). destruct Hin.
  Qed.

  Example ex_cases_apply : forall a k, In (a, k) ex_cases ->
    exists ctr o tr' po ctr',
      WF_store ctr ex_tree /\ scan_inv ex_tree /\ scan ex_tree a = Some o /\
      covered a (so_tuples o) k = true /\ smap_get (abs_tree ex_tree) k = None /\
      put ex_tree k (StoreExample.val 0) false ctr = Some (tr', po, ctr') /\
      exists id ver, In (id, ver) (so_nv o) /\ store_leaf_ver tr' id <> Some ver.
  Proof.
    intros a k Hin. apply side_applies.
    pose proof ex_cases_side as H. rewrite forallb_forall in H. exact (H (a, k) Hin).
  Qed.
End PhantomExample.

Print Assumptions scan_nv_nonempty.
Print Assumptions scan_layer_cover.
Print Assumptions scan_layer_cover_rtl.
Print Assumptions put_lands.
Print Assumptions scan_records_landing.
Print Assumptions scan_detects_insert.
Print Assumptions scan_detects_insert_reported.
Print Assumptions PhantomExample.scan_nofix2_misses_insert.
Print Assumptions PhantomExample.ex_cases_apply.
Print Assumptions PhantomExample.demo_cases.
