(** * PutInfoProofs: C12 at store level (all layers) -- [put] reports exactly the border
    nodes whose version word its insert changed ([store_put_info_exact];
    [VersionReportProofs.c12_exact] is the statement for one layer).  It reads [PhantomProofs.put_borders],
    the lists of layers and of borders after the insert, through [VersionReportProofs.leaves_exact]; the puts
    that insert nothing are cases of [StoreProofs.put_step].  For [remove], not characterised
    here: the exact set of borders that disappear (they are in [ro_retired_nodes], see AccountingProofs).

    Reading of (3) of [store_put_info_exact].  [pi_created] is a single optional id, and it is set by a border split
    only (C++: [created_nvp] is written in [border_split], border_helper.h; [interface_put.h]
    resets it to nullptr on entry).  The root borders of fresh next layers are NOT reported:
    they are created by [insert_lv_at]'s recursion through [init_border] below the landing
    border, before the link is published by the permutation update of the landing border.
    Until then no other transaction can reach them, so no reader can hold a version of such
    a border; the event a reader can observe is the version change of the landing border,
    which is the reported [pi_modified].  So the report is exact w.r.t. the borders that
    existed before, and complete w.r.t. new borders only up to those unreachable roots. *)
From Coq Require Import NArith Lia ZifyBool ZifyN List.
From Yk Require Import VersionProofs KeyProofs TreeDefs SpecDefs LeafProofs LayerProofs
     VersionReportProofs StoreProofs PhantomProofs.
Import ListNotations.
Local Open Scope N_scope.

Definition store_ids (tr : tree) : list N := map lf_id (store_leaves (t_layers tr)).

Definition idv (l : leaf) : N * N := (lf_id l, lf_ver l).

(** ** the chain of fresh layers *)

(** the layers [new_chain] creates: [StoreProofs.chain_of] with its [tail_lv] written out ([chain_layers_of]), so that
    the statement of [store_put_null_root] can be read without StoreProofs *)
Fixpoint chain_layers (p : prefix) (ts : list ktuple) (v : value) (ctr : N) : layers_t :=
  match ts with
  | [] => []
  | t :: r =>
    (p, BLeaf (single_leaf ctr t (match r with [] => LValue v | _ :: _ => LLink end)))
      :: chain_layers (p ++ [ks t]) r v (ctr + 1)
  end.

Lemma chain_layers_of p ts v c : chain_of p ts v c = chain_layers p ts v c.
Proof. reflexivity. Qed.

Lemma store_leaf_ver_none tr id : ~ In id (store_ids tr) -> store_leaf_ver tr id = None.
Proof.
  intros Hn. destruct (store_leaf_ver tr id) as [v|] eqn:E; [|reflexivity].
  destruct (ver_in_some _ _ _ E) as (l & Hl & <- & _). destruct Hn. apply in_map. exact Hl.
Qed.

Lemma store_leaf_ver_some tr id : In id (store_ids tr) -> store_leaf_ver tr id <> None.
Proof.
  intros Hin. unfold store_ids in Hin. apply in_map_iff in Hin. destruct Hin as (l & <- & Hl).
  unfold store_leaf_ver.
  destruct (find (fun l0 => lf_id l0 =? lf_id l) (store_leaves (t_layers tr))) as [x|] eqn:E; [discriminate|].
  pose proof (find_none _ _ E l Hl) as X. cbn beta in X. rewrite N.eqb_refl in X. discriminate.
Qed.

(** ** the store-level exactness of the report *)

Lemma in_mid {A} (x : A) X a Y : In x (X ++ a :: Y) <-> x = a \/ In x X \/ In x Y.
Proof. rewrite in_app_iff. cbn [In]. split; intros H; [destruct H as [H|[H|H]]|destruct H as [H|[H|H]]]; auto. Qed.

Theorem store_put_info_exact : forall ctr tr k v unique tr' po ctr' info,
  WF_store ctr tr -> t_null tr = false -> bytes k ->
  smap_get (abs_tree tr) k = None ->
  put tr k v unique ctr = Some (tr', po, ctr') -> po_info po = Some info ->
  (* (1) among the old borders exactly the reported one changed its version word *)
  (forall id, In id (store_ids tr) ->
      (store_leaf_ver tr' id <> store_leaf_ver tr id <-> id = pi_modified info)) /\
  (* (2) no border disappears *)
  (forall id, In id (store_ids tr) -> In id (store_ids tr')) /\
  (exists lm, land (path_of_key k) [] (t_layers tr) = Some lm /\ pi_modified info = lf_id lm /\
              In lm (store_leaves (t_layers tr))) /\
  exists (c1 : N) (n : nat),
    (* [n] fresh next layers; [c1] = the id counter after the B+-tree insert *)
    length (t_layers tr') = (length (t_layers tr) + n)%nat /\
    ctr <= c1 /\ ctr' = c1 + N.of_nat n /\
    (* (3) the new borders: the reported created one, and the [n] last ids handed out *)
    (forall id, In id (store_ids tr') /\ ~ In id (store_ids tr) <->
        pi_created info = Some id \/ c1 <= id < ctr') /\
    (* (4) the latter are the borders of the layers that did not exist before *)
    (forall id, c1 <= id < ctr' <->
        exists q l, layer_get (t_layers tr) q = None /\
                    layer_get (t_layers tr') q = Some (BLeaf l) /\ lf_id l = id) /\
    (* (5) a created border is reported iff the landing border was full; it has the first id *)
    (forall c, pi_created info = Some c -> c = ctr /\ c < c1) /\
    ((exists c, pi_created info = Some c) <->
     exists lm, land (path_of_key k) [] (t_layers tr) = Some lm /\ leaf_cnk lm = 15) /\
    (* (6) [n] = the number of tuples of the key below the landing layer *)
    (exists q root lm, land (path_of_key k) [] (t_layers tr) = Some lm /\
        layer_get (t_layers tr) q = Some root /\ In lm (bt_leaves root) /\
        n = (length (path_of_key k) - S (length q))%nat) /\
    NoDup (store_ids tr) /\ NoDup (store_ids tr').
Proof.
  intros ctr tr k v unique tr' po ctr' info W Hn Hb Habs Hput Hinfo.
  pose proof (proj1 (put_wf _ _ _ _ _ _ _ _ W Hb Hput)) as W2.
  destruct (put_borders ctr tr k v unique tr' po ctr' W Hn Hb Habs Hput)
    as (info0 & q & root & root' & t & rest & c1 & lm & lm' & S1 & NW & S2 & Hi & Hpath & EL' & Eg
        & Hlm & Hland & SL & SL' & Hm & Hid & Hv & HN & Hc & Hcc & Ec).
  rewrite Hinfo in Hi. injection Hi as <-. set (CH := chain_of (q ++ [ks t]) rest v c1) in *.
  assert (forall id, In id (map lf_id (store_leaves CH)) <-> c1 <= id < ctr') as HCH
    by (intros id; rewrite Ec; apply chain_ids).
  apply (fun W => WF_store_layers _ _ W Hn) in W.
  pose proof (store_ids_NoDup _ _ _ W) as Hnd. pose proof (store_ids_NoDup _ _ _ W2) as Hnd'.
  assert (forall c, pi_created info = Some c -> c = ctr /\ c < c1) as H5.
  { intros c Ecr. rewrite Hc in Ecr. destruct (leaf_cnk lm =? 15); [|discriminate].
    injection Ecr as <-. split; [reflexivity|exact Hcc]. }
  destruct (leaves_exact _ _ (S1 ++ S2) (NW ++ store_leaves CH) lm lm' Hnd Hnd') as (X1 & X2 & X3).
  - intros l. rewrite SL, !in_app_iff. cbn [In]. clear. tauto.
  - intros l. rewrite SL', !in_app_iff. cbn [In]. rewrite !in_app_iff. clear. tauto.
  - exact Hid.
  - intros X. apply Hv. rewrite X. reflexivity.
  - (* the new borders have ids from the counter *)
    intros l Hl X. apply in_map_iff in X. destruct X as (l0 & E0 & Hl0).
    pose proof (store_ids_lt _ _ _ l0 W Hl0) as Hlt. rewrite E0 in Hlt.
    apply (in_map lf_id) in Hl. rewrite map_app in Hl. apply in_app_or in Hl.
    destruct Hl as [Hl|Hl]; [|apply HCH in Hl; lia].
    apply (created_iff info NW _ HN), H5 in Hl. lia.
  - (* (1), (2) *)
    split; [intros id Hin; rewrite Hm; exact (X1 id Hin)|]. split; [exact X2|].
    split; [exists lm; split; [exact Hland|]; split; [exact Hm|rewrite SL; apply in_elt]|].
    exists c1, (length rest).
    split.
    { rewrite EL', app_length, (layer_set_length _ _ _ _ Eg). unfold CH. rewrite chain_length. reflexivity. }
    split; [lia|]. split; [exact Ec|].
    (* (3) *)
    split.
    { intros id. unfold store_ids. rewrite (X3 id), map_app, in_app_iff, (created_iff info NW id HN), HCH. reflexivity. }
    (* (4): the layer list of [tr'] is that of [tr] with one root replaced, followed by [CH] *)
    split.
    { pose proof (wl_nodup _ _ _ W2) as NDk. rewrite EL', map_app, layer_set_keys, Eg in NDk.
      apply NoDup_app in NDk. destruct NDk as (_ & NDc & Hdisj).
      assert (forall q', layer_get (t_layers tr) q' = None -> layer_get (t_layers tr') q' = layer_get CH q') as G.
      { intros q' X. rewrite EL', layer_get_app, layer_get_set_other, X; [reflexivity|]. intros <-. congruence. }
      intros id. rewrite <- HCH. split.
      - intros H. apply in_map_iff in H. destruct H as (l & <- & Hl). apply chain_leaves in Hl. destruct Hl as (q' & Hl).
        assert (layer_get (t_layers tr) q' = None) as X.
        { apply layer_get_none. intros X. apply (Hdisj q' X). change q' with (fst (q', BLeaf l)).
          apply in_map. exact Hl. }
        exists q', l. split; [exact X|]. split; [|reflexivity]. rewrite (G q' X). exact (in_layer_get _ _ _ NDc Hl).
      - intros (q' & l & G1 & G2 & <-). rewrite (G q' G1) in G2. apply in_map, chain_leaves. exists q'.
        apply layer_get_in. exact G2. }
    (* (5) *)
    split; [exact H5|].
    split.
    { rewrite Hc. split.
      - intros [c X]. exists lm. split; [exact Hland|]. destruct (N.eqb_spec (leaf_cnk lm) 15); [assumption|discriminate].
      - intros (lm2 & H1 & H2). rewrite Hland in H1. injection H1 as <-. rewrite H2. eexists. reflexivity. }
    (* (6) *)
    split.
    { exists q, root, lm. split; [exact Hland|]. split; [exact Eg|]. split; [exact Hlm|].
      rewrite Hpath, app_length. unfold mk9s. rewrite map_length. cbn [length]. clear. lia. }
    split; assumption.
Qed.

(** ** the CAS path: a put into a store with a null root pointer creates every border *)
Theorem store_put_null_root : forall tr k v unique ctr tr' po ctr',
  t_null tr = true -> put tr k v unique ctr = Some (tr', po, ctr') ->
  t_layers tr' = chain_layers [] (path_of_key k) v ctr /\ t_null tr' = false /\
  po_info po = Some {| pi_modified := ctr; pi_created := None |} /\
  ctr' = ctr + N.of_nat (length (path_of_key k)) /\
  (forall id, In id (store_ids tr') <-> ctr <= id < ctr') /\
  exists l, layer_get (t_layers tr') [] = Some (BLeaf l) /\ lf_id l = ctr.
Proof.
  intros tr k v unique ctr tr' po ctr' Hn Hput. rewrite (put_null_eq tr k v unique ctr Hn) in Hput.
  injection Hput as <- <- <-. cbn [app t_layers t_null po_info].
  split; [apply chain_layers_of|]. split; [reflexivity|]. split; [reflexivity|]. split; [reflexivity|]. split.
  - intros id. apply chain_ids.
  - destruct (path_hd k) as (r & ->). cbn [chain_of layer_get prefix_eqb].
    eexists. split; [reflexivity|]. apply single_leaf_id.
Qed.

(** ** a put of an existing key *)

Lemma ver_in_idv_ext id : forall (L L' : list leaf), map idv L = map idv L' -> ver_in L id = ver_in L' id.
Proof.
  unfold ver_in. induction L as [|a L IH]; intros [|a' L'] H; try discriminate H; [reflexivity|].
  cbn [map] in H. injection H as H1 H2 H. cbn [find]. rewrite H1.
  destruct (lf_id a' =? id); [cbn [option_map]; rewrite H2; reflexivity|]. apply IH. exact H.
Qed.

Theorem store_overwrite_silent : forall ctr tr k v tr' po ctr',
  WF_store ctr tr -> bytes k -> smap_get (abs_tree tr) k <> None ->
  put tr k v false ctr = Some (tr', po, ctr') ->
  (forall id, store_leaf_ver tr' id = store_leaf_ver tr id) /\
  store_ids tr' = store_ids tr /\ length (t_layers tr') = length (t_layers tr) /\
  po_info po = None /\ po_status po = St_OK /\ ctr' = ctr.
Proof.
  intros ctr tr k v tr' po ctr' W Hb Habs Hput. rewrite (abs_tree_get ctr tr k W Hb) in Habs.
  destruct (put_cases _ _ _ _ _ _ _ _ W Hb Hput)
    as [Hn|? ? ? ? ? ? ? ? X _ _|q root l t rk slot s ov _ L F|? ? ? ? ? ? ? ? _ A _ _];
    [rewrite (lookup_null tr k Hn) in Habs; destruct (Habs eq_refl)|discriminate X|
     |rewrite (ab_abs _ _ _ _ _ A) in Habs; destruct (Habs eq_refl)].
  pose proof (ld_get _ _ _ _ _ _ _ _ L) as Eg.
  destruct (store_leaves_set _ q root Eg) as (S1 & S2 & E1 & E2).
  assert (map idv (store_leaves (layer_set (t_layers tr) q (overwrite root t slot s v))) =
          map idv (store_leaves (t_layers tr))) as Hm.
  { rewrite E2, E1, !map_app. f_equal. f_equal. exact (c12_overwrite_silent root t slot _). }
  split; [intros id; apply ver_in_idv_ext; exact Hm|]. split.
  { unfold store_ids. cbn [t_layers]. apply (f_equal (map fst)) in Hm. rewrite !map_map in Hm. exact Hm. }
  cbn [t_layers]. rewrite (layer_set_length _ _ _ _ Eg). repeat split.
Qed.

Theorem store_failed_unique_silent : forall ctr tr k v tr' po ctr',
  WF_store ctr tr -> bytes k -> smap_get (abs_tree tr) k <> None ->
  put tr k v true ctr = Some (tr', po, ctr') ->
  tr' = tr /\ po_status po = St_WARN_UNIQUE_RESTRICTION /\ po_info po = None /\ po_retired po = [] /\
  ctr' = ctr /\ (forall id, store_leaf_ver tr' id = store_leaf_ver tr id).
Proof.
  intros ctr tr k v tr' po ctr' W Hb Habs Hput. rewrite (abs_tree_get ctr tr k W Hb) in Habs.
  destruct (put_cases _ _ _ _ _ _ _ _ W Hb Hput)
    as [Hn|? ? ? ? ? ? ? ? _ _ _|? ? ? ? ? ? ? ? X _ _|? ? ? ? ? ? ? ? _ A _ _];
    [rewrite (lookup_null tr k Hn) in Habs; destruct (Habs eq_refl)|repeat split|discriminate X
     |rewrite (ab_abs _ _ _ _ _ A) in Habs; destruct (Habs eq_refl)].
Qed.

(** ** remove: what happens to the version words (the C++ remove reports nothing)

    In the model (and in the code: [border_node::delete_of] does not set inserting_deleting,
    the line is commented out) the deletion of an entry leaves the version word of its border
    as it is ([c12_delete_keeps_versions]).  A remove changes a border's word in two places
    only: a border that becomes the root of its layer because the interior root above it is
    unlinked gets the root flag, and the root border of layer 0, when it loses its last entry,
    gets the deleted flag.  The counters never move, no border is created; borders of emptied
    layers (and emptied borders inside a layer) disappear. *)

Definition vstep (w w' : N) : Prop := w' = w \/ w' = set_root w true \/ w' = set_deleted w true.

(** equal up to the root and deleted flags *)
Definition vsame (w w' : N) : Prop :=
  get_vinsert_delete w' = get_vinsert_delete w /\ get_vsplit w' = get_vsplit w /\
  get_locked w' = get_locked w /\ get_inserting_deleting w' = get_inserting_deleting w /\
  get_splitting w' = get_splitting w /\ get_border w' = get_border w.

Lemma vsame_refl w : vsame w w.
Proof. repeat split. Qed.

Lemma vsame_trans a b c : vsame a b -> vsame b c -> vsame a c.
Proof.
  intros (A1 & A2 & A3 & A4 & A5 & A6) (B1 & B2 & B3 & B4 & B5 & B6).
  repeat split; congruence.
Qed.

Lemma vstep_vsame w w' : vstep w w' -> vsame w w'.
Proof.
  intros [-> | [-> | ->]]; [apply vsame_refl| |]; repeat split; vframe.
Qed.

Definition vrel (R : N -> N -> Prop) (ls ls' : layers_t) : Prop :=
  forall l', In l' (store_leaves ls') ->
  exists l, In l (store_leaves ls) /\ lf_id l = lf_id l' /\ R (lf_ver l) (lf_ver l').

Lemma vrel_refl ls : vrel vsame ls ls.
Proof. intros l' H. exists l'. split; [exact H|]. split; [reflexivity|apply vsame_refl]. Qed.

Lemma vrel_trans a b c : vrel vsame a b -> vrel vsame b c -> vrel vsame a c.
Proof.
  intros H1 H2 l'' H. destruct (H2 l'' H) as (l' & Hl' & E' & V').
  destruct (H1 l' Hl') as (l & Hl & E & V). exists l. split; [exact Hl|]. split; [congruence|].
  eapply vsame_trans; eassumption.
Qed.

Lemma vrel_weaken ls ls' : vrel vstep ls ls' -> vrel vsame ls ls'.
Proof.
  intros H l' Hl'. destruct (H l' Hl') as (l & Hl & E & V). exists l. split; [exact Hl|].
  split; [exact E|apply vstep_vsame; exact V].
Qed.

Lemma rm_root_vstep p r r' : rm_root p r r' ->
  forall l', In l' (bt_leaves r') ->
  exists l, In l (bt_leaves r) /\ lf_id l = lf_id l' /\ vstep (lf_ver l) (lf_ver l').
Proof.
  intros [? root t root' ret0 Ed|l0 t rk slot s _ _] l' Hl'.
  - pose proof (c12_delete_keeps_versions t _ root root' ret0 Ed) as Hincl.
    assert (forall l0, In l0 (bt_leaves root') ->
              exists l, In l (bt_leaves root) /\ lf_id l = lf_id l0 /\ lf_ver l = lf_ver l0) as Hkept.
    { intros l0 Hl0. assert (In (lf_id l0, lf_ver l0) (leaf_versions root)) as X by (apply Hincl, leaf_versions_in; exact Hl0).
      apply in_map_iff in X. destruct X as (l & X & Hl). injection X as X1 X2. exists l. repeat split; assumption. }
    destruct (bt_id root' =? bt_id root); [|destruct root' as [l0|id ver keys ch]].
    + destruct (Hkept l' Hl') as (l & H1 & H2 & H3). exists l. split; [exact H1|]. split; [exact H2|left; symmetry; exact H3].
    + cbn in Hl'. destruct Hl' as [<-|[]]. cbn [lf_id lf_ver].
      destruct (Hkept l0 (or_introl eq_refl)) as (l & H1 & H2 & H3). exists l. split; [exact H1|].
      split; [exact H2|]. right. left. rewrite H3. reflexivity.
    + destruct (Hkept l' Hl') as (l & H1 & H2 & H3). exists l. split; [exact H1|]. split; [exact H2|left; symmetry; exact H3].
  - cbn in Hl'. destruct Hl' as [<-|[]]. exists l0. split; [left; reflexivity|].
    cbn [leaf_with lf_id lf_ver]. rewrite ?leaf_delete_id, ?leaf_delete_ver. split; [reflexivity|right; right; reflexivity].
Qed.

Lemma edit_vrel ls ls' : edit rm_root ls ls' -> vrel vstep ls ls'.
Proof.
  assert (forall l, In l (store_leaves ls) ->
            exists l0, In l0 (store_leaves ls) /\ lf_id l0 = lf_id l /\ vstep (lf_ver l0) (lf_ver l)) as Hid
    by (intros l H; exists l; split; [exact H|split; [reflexivity|left; reflexivity]]).
  intros E l' Hl'. apply store_leaves_in in Hl'. destruct Hl' as (q0 & r0 & Hin & Hl').
  destruct E as [l0 p r r' Eg Hs|l0 p _]; [|apply in_layer_del in Hin; apply Hid, store_leaves_in; eauto].
  apply in_layer_set in Hin. destruct Hin as [[-> ->]|Hin]; [|apply Hid, store_leaves_in; eauto].
  destruct (rm_root_vstep p r r' Hs l' Hl') as (l & H1 & H2). exists l.
  split; [eapply layer_get_leaves; eassumption|exact H2].
Qed.

Theorem store_remove_versions : forall tr k tr' o,
  remove tr k = Some (tr', o) ->
  forall l', In l' (store_leaves (t_layers tr')) ->
  exists l, In l (store_leaves (t_layers tr)) /\ lf_id l = lf_id l' /\ vsame (lf_ver l) (lf_ver l').
Proof.
  intros tr k tr' o E. induction (remove_edits tr k tr' o E) as [|ls l1 l2 _ IH Ed]; [apply vrel_refl|].
  exact (vrel_trans _ _ _ IH (vrel_weaken _ _ (edit_vrel _ _ Ed))).
Qed.

Corollary store_remove_leaf_ver : forall ctr tr k tr' o,
  WF_store ctr tr -> remove tr k = Some (tr', o) ->
  (forall id, In id (store_ids tr') -> In id (store_ids tr)) /\
  (forall id v', store_leaf_ver tr' id = Some v' ->
     exists v, store_leaf_ver tr id = Some v /\ vsame v v' /\
               get_vinsert_delete v' = get_vinsert_delete v /\ get_vsplit v' = get_vsplit v).
Proof.
  intros ctr tr k tr' o W E. destruct (t_null tr) eqn:Hn.
  { rewrite (remove_null_eq tr k Hn) in E. injection E as <- _. split; [intros id H; exact H|].
    intros id v' Hv. exists v'. split; [exact Hv|]. split; [apply vsame_refl|split; reflexivity]. }
  pose proof (store_remove_versions tr k tr' o E) as H. split.
  - intros id Hid. unfold store_ids in *. apply in_map_iff in Hid. destruct Hid as (l' & <- & Hl').
    destruct (H l' Hl') as (l & Hl & Eid & _). rewrite <- Eid. apply in_map. exact Hl.
  - intros id v' Hv. destruct (ver_in_some _ _ _ Hv) as (l' & Hl' & <- & <-).
    destruct (H l' Hl') as (l & Hl & Eid' & V).
    exists (lf_ver l). split; [|split; [exact V|split; apply V]].
    rewrite <- Eid'. exact (store_leaf_ver_spec _ _ _ l (WF_store_layers _ _ W Hn) Hl).
Qed.

(** ** sanity: a concrete three-layer store whose root border is full *)
Module PutInfoExample.
  Import StoreExample.
  (* k17 = 8 + 8 + 1 bytes: layers [], [s1], [s1; s1'] with the borders 1, 3, 4; fourteen one-byte keys
     fill the root border 1.  Every B+-tree insert takes one id for a possible new sibling, whether or
     not the border splits, hence the next free id 19 *)
  Definition keys0 : list key := k17 :: map (fun i => [N.of_nat i]) (seq 1 14).
  Definition ex_pair := puts (empty_tree 1) 2 keys0.
  Definition ex : tree := match ex_pair with Some (t, _) => t | None => null_tree end.
  Definition ctr0 : N := match ex_pair with Some (_, c) => c | None => 0 end.

  Example ex_shape :
    ctr0 = 19 /\ map (fun pr => length (fst pr)) (t_layers ex) = [0; 1; 2]%nat /\
    map (fun l => (lf_id l, leaf_cnk l)) (store_leaves (t_layers ex)) = [(1, 15); (3, 1); (4, 1)].
  Proof. vm_compute. repeat split; reflexivity. Qed.

  Lemma ex_wf : WF_store ctr0 ex.
  Proof.
    destruct (puts_wf keys0 (empty_tree 1) 2) as (tr' & c' & E & W).
    - apply empty_tree_wf. lia.
    - apply keys_bytes. vm_compute. reflexivity.
    - unfold ex, ctr0, ex_pair. rewrite E. exact W.
  Qed.

  Definition opt_eqb (a b : option N) : bool :=
    match a, b with Some x, Some y => x =? y | None, None => true | _, _ => false end.
  Definition ver_diff (tr tr' : tree) : list N :=
    filter (fun i => negb (opt_eqb (store_leaf_ver tr i) (store_leaf_ver tr' i))) (store_ids tr).
  Definition new_ids (tr tr' : tree) : list N :=
    filter (fun c => negb (existsb (N.eqb c) (store_ids tr))) (store_ids tr').
  Definition run (k : key) (unique : bool) :=
    match put ex k (val 77) unique ctr0 with
    | Some (tr', po, c') =>
      Some (po_status po, po_info po, ver_diff ex tr', new_ids ex tr',
            length (t_layers ex), length (t_layers tr'), c')
    | None => None
    end.

  (* (a) an insert without split: the key lands in the (non-full) root border of layer 1 *)
  Definition ka : key := [1;2;3;4;5;6;7;8;42].
  Example run_a :
    run ka false = Some (St_OK, Some {| pi_modified := 3; pi_created := None |}, [3], [], 3%nat, 3%nat, 20).
  Proof. vm_compute. reflexivity. Qed.

  (* (b) an insert that splits the full root border of layer 0: the new border 19 is reported;
     id 20 is the new interior root (not a border) *)
  Definition kb : key := [200].
  Example run_b :
    run kb false = Some (St_OK, Some {| pi_modified := 1; pi_created := Some 19 |}, [1], [19], 3%nat, 3%nat, 21).
  Proof. vm_compute. reflexivity. Qed.

  (* (c) an insert that creates two new next layers below the border of layer 1: the borders
     20 and 21 (roots of the fresh layers) are new and are NOT in the report (id 19 was reserved
     for a sibling that was not needed) *)
  Definition kc : key := [1;2;3;4;5;6;7;8; 7;7;7;7;7;7;7;7; 5;5;5;5;5;5;5;5; 3].
  Example run_c :
    run kc false = Some (St_OK, Some {| pi_modified := 3; pi_created := None |}, [3], [20; 21], 3%nat, 5%nat, 22).
  Proof. vm_compute. reflexivity. Qed.

  (* (c') split of the full root border and two new next layers at once:
     19 = created border (reported), 20 = new interior root, 21 and 22 = fresh layer roots *)
  Definition kc' : key := [9;9;9;9;9;9;9;9; 1;2;3;4;5;6;7;8; 1;2;3;4].
  Example run_c' :
    run kc' false = Some (St_OK, Some {| pi_modified := 1; pi_created := Some 19 |}, [1], [19; 21; 22], 3%nat, 5%nat, 23).
  Proof. vm_compute. reflexivity. Qed.

  (* (d) an overwrite, and a failed unique put: nothing changes, nothing is reported *)
  Example run_d :
    run k17 false = Some (St_OK, None, [], [], 3%nat, 3%nat, 19) /\
    run [3] false = Some (St_OK, None, [], [], 3%nat, 3%nat, 19) /\
    run k17 true = Some (St_WARN_UNIQUE_RESTRICTION, None, [], [], 3%nat, 3%nat, 19).
  Proof. vm_compute. repeat split; reflexivity. Qed.

  (* a remove that empties two layers, and a remove inside the root border: no word changes *)
  Example run_remove :
    match remove ex k17 with
    | Some (tr', _) => (ver_diff ex tr', new_ids ex tr', store_ids tr')
    | None => ([], [], [])
    end = ([3; 4], [], [1]) /\       (* 3 and 4 disappear (lookup None), 1 keeps its word *)
    match remove ex [3] with
    | Some (tr', _) => (ver_diff ex tr', new_ids ex tr', store_ids tr')
    | None => ([], [], [])
    end = ([], [], [1; 3; 4]).
  Proof. vm_compute. split; reflexivity. Qed.

  Example ex_theorem_applies :
    exists tr' po ctr' info,
      put ex kc' (val 77) false ctr0 = Some (tr', po, ctr') /\ po_info po = Some info /\
      pi_modified info = 1 /\ pi_created info = Some 19 /\
      (forall id, In id (store_ids ex) -> (store_leaf_ver tr' id <> store_leaf_ver ex id <-> id = 1)) /\
      (forall id, In id (store_ids tr') /\ ~ In id (store_ids ex) <-> id = 19 \/ 21 <= id < 23).
  Proof.
    assert (bytes kc') as Hb by (apply bytesb_sound; vm_compute; reflexivity).
    destruct (put_refines ctr0 ex kc' (val 77) false ex_wf Hb) as (tr' & po & ctr' & E & _).
    (* one evaluation of the put: its report, counter and number of layers *)
    assert (option_map (fun x => (po_info (snd (fst x)), snd x, length (t_layers (fst (fst x)))))
                       (put ex kc' (val 77) false ctr0)
            = Some (Some {| pi_modified := 1; pi_created := Some 19 |}, 23, 5%nat)) as X by (vm_compute; reflexivity).
    rewrite E in X. cbn [option_map fst snd] in X. injection X as Hi -> Y.
    exists tr', po, 23, {| pi_modified := 1; pi_created := Some 19 |}.
    split; [exact E|]. split; [exact Hi|]. split; [reflexivity|]. split; [reflexivity|].
    destruct (store_put_info_exact ctr0 ex kc' (val 77) false tr' po 23 {| pi_modified := 1; pi_created := Some 19 |} ex_wf) as (P1 & _ & _ & c1 & n & Hlen & _ & Hc & P3 & _);
      [vm_compute; reflexivity|exact Hb|vm_compute; reflexivity|exact E|exact Hi|].
    split; [exact P1|].
    assert (length (t_layers ex) = 3%nat) as L3
      by (rewrite <- (map_length (fun pr : list N * bt => length (fst pr))), (proj1 (proj2 ex_shape)); reflexivity).
    rewrite Y, L3 in Hlen.
    assert (n = 2%nat) as -> by (clear - Hlen; lia).
    assert (c1 = 21) as -> by (clear - Hc; lia).
    intros id. rewrite (P3 id). cbn [pi_created]. split.
    - intros [H|H]; [left; injection H as <-; reflexivity|right; exact H].
    - intros [->|H]; [left; reflexivity|right; exact H].
  Qed.
End PutInfoExample.

Print Assumptions store_put_info_exact.
Print Assumptions store_put_null_root.
Print Assumptions store_overwrite_silent.
Print Assumptions store_failed_unique_silent.
Print Assumptions store_remove_versions.
Print Assumptions store_remove_leaf_ver.
Print Assumptions PutInfoExample.ex_theorem_applies.
