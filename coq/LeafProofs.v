(** * LeafProofs: one border node: its entries in rank order, well-formedness [WF_leaf], and the
    exact effect of lookup / rank / insert / split / delete on the entry list. *)
From Coq Require Import NArith PeanoNat Lia Bool List Sorted.
From Yk Require Import PermProofs KeyProofs TreeDefs.
Import ListNotations.

(** ** Interface definitions

    [WF_leaf] speaks about the entries that the permutation ranks and about nothing else: a slot outside
    the permutation holds whatever was written there last (border_node does not clear the slot of a
    removed entry). *)
Definition leaf_entries (l : leaf) : list slot_t := map snd (leaf_ranked l).
Definition leaf_keys (l : leaf) : list ktuple := map sl_key (leaf_entries l).
Definition sorted_keys (ks : list ktuple) : Prop :=
  StronglySorted (fun a b => canon_lt a b = true) ks.
Definition entry_ok (s : slot_t) : Prop :=
  kt_wf (sl_key s) = true /\
  (match sl_lv s with
   | LLink => kl (sl_key s) = 9%N
   | LValue _ => (kl (sl_key s) <= 8)%N
   | LEmpty => False
   end).
Definition WF_leaf (l : leaf) : Prop :=
  Valid (lf_perm l) /\ length (lf_slots l) = 15%nat /\
  Forall entry_ok (leaf_entries l) /\ sorted_keys (leaf_keys l).

(** ** [set_nth] *)
Lemma set_nth_length {A} n (x : A) l : length (set_nth n x l) = length l.
Proof.
  revert n. induction l as [|a l IH]; intros [|n]; cbn [set_nth length]; auto.
Qed.

Lemma set_nth_split {A} i (x : A) l :
  (i < length l)%nat -> set_nth i x l = firstn i l ++ x :: skipn (S i) l.
Proof.
  revert i. induction l as [|a l IH]; intros i H; [cbn in H; lia|].
  destruct i as [|i]; [reflexivity|]. cbn [set_nth firstn skipn app]. f_equal. apply IH.
  cbn [length] in H. lia.
Qed.

Lemma nth_set_nth {A} (d x : A) l i j :
  nth j (set_nth i x l) d =
    if (j =? i)%nat && (i <? length l)%nat then x else nth j l d.
Proof.
  revert i j. induction l as [|a l IH]; intros i j.
  - assert (set_nth i x (@nil A) = []) as -> by (destruct i; reflexivity).
    cbn [length]. destruct (Nat.ltb_spec i 0); [lia|]. rewrite andb_false_r. reflexivity.
  - destruct i as [|i], j as [|j]; cbn [set_nth nth length]; try reflexivity.
    rewrite IH.
    destruct (Nat.eqb_spec j i); destruct (Nat.eqb_spec (S j) (S i)); try lia;
      destruct (Nat.ltb_spec i (length l)); destruct (Nat.ltb_spec (S i) (S (length l)));
      try lia; reflexivity.
Qed.

Lemma nth_set_nth_eq {A} (d x : A) l i : (i < length l)%nat -> nth i (set_nth i x l) d = x.
Proof.
  intros H. rewrite nth_set_nth.
  destruct (Nat.eqb_spec i i); [|lia]. destruct (Nat.ltb_spec i (length l)); [|lia]. reflexivity.
Qed.

Lemma nth_set_nth_neq {A} (d x : A) l i j : j <> i -> nth j (set_nth i x l) d = nth j l d.
Proof.
  intros H. rewrite nth_set_nth. destruct (Nat.eqb_spec j i); [lia|]. reflexivity.
Qed.

Lemma set_nth_out {A} (x : A) l i : (length l <= i)%nat -> set_nth i x l = l.
Proof.
  revert i. induction l as [|a l IH]; intros i H; [destruct i; reflexivity|].
  destruct i as [|i]; cbn [length] in H; [lia|]. cbn [set_nth]. f_equal. apply IH. lia.
Qed.

Lemma map_set_nth {A B} (f : A -> B) n x l : map f (set_nth n x l) = set_nth n (f x) (map f l).
Proof.
  revert n. induction l as [|a l IH]; intros [|n]; cbn [set_nth map]; try reflexivity.
  rewrite IH. reflexivity.
Qed.

Lemma set_nth_same {A} n (x : A) l : nth_error l n = Some x -> set_nth n x l = l.
Proof.
  revert n. induction l as [|a l IH]; intros [|n] H; cbn [set_nth nth_error] in *; try discriminate.
  - injection H as ->. reflexivity.
  - rewrite IH by exact H. reflexivity.
Qed.

Lemma Forall_set_nth {A} (P : A -> Prop) n x l : Forall P l -> P x -> Forall P (set_nth n x l).
Proof.
  intros Hl Hx. revert n. induction Hl as [|a l Ha Hl IH]; intros [|n]; cbn [set_nth];
    try constructor; auto.
Qed.

Lemma insert_after_set {A} i (x r : A) l :
  (i < length l)%nat -> insert_at (S i) r (set_nth i x l) = firstn i l ++ x :: r :: skipn (S i) l.
Proof.
  revert i. induction l as [|a l IH]; intros i H; [cbn in H; lia|].
  destruct i as [|i]; [reflexivity|]. cbn [length] in H.
  specialize (IH i ltac:(lia)). unfold insert_at in *.
  cbn [set_nth firstn skipn app]. f_equal. exact IH.
Qed.

Lemma flat_map_set_nth {A B} (f : A -> list B) l i x :
  (i < length l)%nat ->
  flat_map f (set_nth i x l) = flat_map f (firstn i l) ++ f x ++ flat_map f (skipn (S i) l).
Proof.
  intros H. rewrite set_nth_split by exact H. rewrite flat_map_app. cbn [flat_map]. reflexivity.
Qed.

Lemma flat_map_insert_after_set {A B} (f : A -> list B) l i x r :
  (i < length l)%nat ->
  flat_map f (insert_at (S i) r (set_nth i x l)) =
    flat_map f (firstn i l) ++ (f x ++ f r) ++ flat_map f (skipn (S i) l).
Proof.
  intros H. rewrite insert_after_set by exact H. rewrite flat_map_app. cbn [flat_map].
  rewrite <- app_assoc. reflexivity.
Qed.

(** ** sorted key lists
    [sorted_keys] unfolds to [StronglySorted], so the lemmas of ListAux ([StronglySorted_app_iff],
    [_firstn], [_remove_at], ...) apply to it as they stand. *)
Lemma sorted_NoDup l : sorted_keys l -> NoDup l.
Proof. apply StronglySorted_NoDup. intros a. rewrite canon_lt_irrefl. discriminate. Qed.

Lemma sorted_sep A B sep :
  sorted_keys (A ++ B) -> hd_error B = Some sep ->
  Forall (fun t => canon_lt t sep = true) A /\ Forall (fun t => canon_lt t sep = false) B.
Proof.
  intros H Hh. destruct B as [|b B]; [discriminate|]. cbn [hd_error] in Hh.
  injection Hh as ->. apply StronglySorted_app_iff in H. destruct H as (_ & S2 & C). split.
  - apply Forall_forall. intros a Ha. apply C; [exact Ha|left; reflexivity].
  - apply StronglySorted_cons_iff in S2. destruct S2 as [_ F]. constructor.
    + apply canon_lt_irrefl.
    + apply Forall_forall. intros t Ht. rewrite Forall_forall in F.
      apply canon_lt_asym. apply F. exact Ht.
Qed.

(** ** the position of a key in a sorted key list

    [leaf_rank], [route] and [iins_pos] scan for the first stored key that their
    probe finds above [k], and on well-formed tuples each probe is [canon_lt k].
    [is_pos keys k i] says that [i] is that index; in a sorted list it is the
    number of keys not above [k]. *)
Definition is_pos (keys : list ktuple) (k : ktuple) (i : nat) : Prop :=
  (i <= length keys)%nat /\
  (forall j, (j < i)%nat -> canon_lt k (nth j keys {| ks := 0; kl := 0 |}) = false) /\
  ((i < length keys)%nat -> canon_lt k (nth i keys {| ks := 0; kl := 0 |}) = true).

Lemma is_pos_unique keys k i p : is_pos keys k i -> is_pos keys k p -> i = p.
Proof.
  intros (A1 & A2 & A3) (B1 & B2 & B3).
  destruct (Nat.lt_trichotomy i p) as [H|[H|H]]; [|exact H|].
  - specialize (B2 i H). rewrite A3 in B2 by lia. discriminate.
  - specialize (A2 p H). rewrite B3 in A2 by lia. discriminate.
Qed.

Section Probe.
  Context {A : Type} (key : A -> ktuple) (probe : ktuple -> ktuple -> bool)
          (pos : list A -> ktuple -> nat -> nat).
  Hypothesis pos_eq : forall l k n,
    pos l k n = match l with [] => n | a :: r => if probe k (key a) then n else pos r k (S n) end.

  Lemma probe_is_pos l k :
    Forall (fun a => probe k (key a) = canon_lt k (key a)) l ->
    forall n, exists i, pos l k n = (n + i)%nat /\ is_pos (map key l) k i.
  Proof.
    induction 1 as [|a l Ha _ IH]; intros n; rewrite pos_eq.
    - exists 0%nat. split; [lia|]. split; [reflexivity|]. split; intros; cbn in *; lia.
    - rewrite Ha. destruct (canon_lt k (key a)) eqn:E.
      + exists 0%nat. split; [lia|]. split; [cbn; lia|].
        split; [intros j Hj; lia|intros _; exact E].
      + destruct (IH (S n)) as (i & -> & P1 & P2 & P3). exists (S i). split; [lia|].
        split; [cbn [map length]; lia|]. split.
        * intros [|j] Hj; cbn [map nth]; [exact E|apply P2; lia].
        * cbn [map length nth]. intros Hi. apply P3. lia.
  Qed.
End Probe.

Lemma sorted_nth_lt keys : sorted_keys keys -> forall i j,
  (i < j)%nat -> (j < length keys)%nat ->
  canon_lt (nth i keys {| ks := 0; kl := 0 |}) (nth j keys {| ks := 0; kl := 0 |}) = true.
Proof. intros Hs i j Hij Hj. apply (StronglySorted_nth _ _ keys Hs). lia. Qed.

Lemma sorted_nth_le keys : sorted_keys keys -> forall i j,
  (i <= j)%nat -> (j < length keys)%nat ->
  canon_lt (nth j keys {| ks := 0; kl := 0 |}) (nth i keys {| ks := 0; kl := 0 |}) = false.
Proof.
  intros Hs i j Hij Hj. destruct (Nat.eq_dec i j) as [->|Hne]; [apply canon_lt_irrefl|].
  apply canon_lt_asym. apply sorted_nth_lt; [exact Hs|lia|exact Hj].
Qed.

Lemma is_pos_le_iff keys k i j :
  sorted_keys keys -> is_pos keys k i -> (j < length keys)%nat ->
  ((i <= j)%nat <-> canon_lt k (nth j keys {| ks := 0; kl := 0 |}) = true).
Proof.
  intros Hs (A1 & A2 & A3) Hj. split.
  - intros Hij. specialize (A3 ltac:(lia)). destruct (Nat.eq_dec i j) as [<-|Hne]; [exact A3|].
    eapply canon_lt_trans; [exact A3|]. apply sorted_nth_lt; [exact Hs|lia|exact Hj].
  - intros H. destruct (Nat.le_gt_cases i j) as [G|G]; [exact G|].
    rewrite (A2 j G) in H. discriminate.
Qed.

Lemma is_pos_firstn keys k i n : is_pos keys k i -> (i <= n)%nat -> is_pos (firstn n keys) k i.
Proof.
  intros (A1 & A2 & A3) Hn. unfold is_pos. rewrite firstn_length. split; [lia|]. split.
  - intros j Hj. rewrite nth_firstn. destruct (Nat.ltb_spec j n); [|lia]. apply A2. exact Hj.
  - intros Hi. rewrite nth_firstn. destruct (Nat.ltb_spec i n); [|lia]. apply A3. lia.
Qed.

Lemma is_pos_skipn keys k i n : is_pos keys k i -> (n <= i)%nat -> is_pos (skipn n keys) k (i - n).
Proof.
  intros (A1 & A2 & A3) Hn. unfold is_pos. rewrite skipn_length. split; [lia|]. split.
  - intros j Hj. rewrite nth_skipn. apply A2. lia.
  - intros Hi. rewrite nth_skipn. replace (n + (i - n))%nat with i by lia. apply A3. lia.
Qed.

Lemma sorted_insert_pos keys k i :
  sorted_keys keys -> ~ In k keys -> is_pos keys k i -> sorted_keys (insert_at i k keys).
Proof.
  intros Hs Hn Hp. pose proof Hp as (A1 & A2 & _).
  apply StronglySorted_insert_at; [exact Hs| |]; apply Forall_nth; intros j d Hj;
    rewrite (nth_indep _ d {| ks := 0; kl := 0 |} Hj).
  - rewrite firstn_length in Hj. rewrite nth_firstn. destruct (Nat.ltb_spec j i); [|lia].
    (* not above [k], and not [k] *)
    destruct (canon_lt (nth j keys {| ks := 0; kl := 0 |}) k) eqn:E; [reflexivity|].
    exfalso. apply Hn. rewrite (canon_lt_trich _ _ (A2 j ltac:(lia)) E). apply nth_In. lia.
  - rewrite skipn_length in Hj. rewrite nth_skipn. apply (is_pos_le_iff keys k i); [exact Hs|exact Hp|lia|lia].
Qed.

(** ** entries as a function of (permutation list, slot array) *)
Definition ents_of (p : list N) (sl : list slot_t) : list slot_t :=
  map (fun i => nth (N.to_nat i) sl empty_slot) p.

Lemma leaf_entries_ents l : leaf_entries l = ents_of (perm_list (lf_perm l)) (lf_slots l).
Proof. unfold leaf_entries, leaf_ranked, ents_of. rewrite map_map. reflexivity. Qed.

Lemma leaf_ranked_fst l : map fst (leaf_ranked l) = perm_list (lf_perm l).
Proof. unfold leaf_ranked. rewrite map_map. cbn [fst]. apply map_id. Qed.

Lemma leaf_ranked_length l : length (leaf_ranked l) = N.to_nat (leaf_cnk l).
Proof. unfold leaf_ranked, leaf_cnk. rewrite map_length. apply perm_list_length. Qed.

Lemma leaf_entries_length l : length (leaf_entries l) = N.to_nat (leaf_cnk l).
Proof. unfold leaf_entries. rewrite map_length. apply leaf_ranked_length. Qed.

Lemma leaf_keys_length l : length (leaf_keys l) = N.to_nat (leaf_cnk l).
Proof. unfold leaf_keys. rewrite map_length. apply leaf_entries_length. Qed.

Lemma leaf_ranked_nth l r slot s :
  nth_error (leaf_ranked l) r = Some (slot, s) ->
  (r < N.to_nat (leaf_cnk l))%nat /\ nth r (perm_list (lf_perm l)) 0%N = slot /\ s = slot_at l slot.
Proof.
  intros H. unfold leaf_ranked in H. rewrite nth_error_map in H.
  destruct (nth_error (perm_list (lf_perm l)) r) as [i|] eqn:E; [|discriminate].
  injection H as <- <-. split.
  - unfold leaf_cnk. rewrite <- perm_list_length. apply nth_error_Some. congruence.
  - split; [apply nth_error_nth; exact E|reflexivity].
Qed.

Lemma leaf_ranked_entries l r slot s :
  nth_error (leaf_ranked l) r = Some (slot, s) -> nth_error (leaf_entries l) r = Some s.
Proof. intros H. unfold leaf_entries. rewrite nth_error_map, H. reflexivity. Qed.

Lemma leaf_ranked_in l i e : In (i, e) (leaf_ranked l) -> In e (leaf_entries l).
Proof. intros H. exact (in_map snd _ _ H). Qed.

Lemma leaf_entries_nil l : leaf_entries l = [] <-> leaf_ranked l = [].
Proof. unfold leaf_entries. split; [apply map_eq_nil|intros ->; reflexivity]. Qed.

Lemma leaf_lookup_nonempty l k x : leaf_lookup l k = Some x -> leaf_entries l <> [].
Proof. intros E H. apply leaf_entries_nil in H. unfold leaf_lookup in E. rewrite H in E. discriminate. Qed.

Lemma leaf_keys_of l es : leaf_entries l = es -> leaf_keys l = map sl_key es.
Proof. intros <-. reflexivity. Qed.

Lemma leaf_keys_hd l p :
  perm_list (lf_perm l) = 0%N :: p -> hd_error (leaf_keys l) = Some (sl_key (slot_at l 0)).
Proof. intros H. unfold leaf_keys, leaf_entries, leaf_ranked. rewrite H. reflexivity. Qed.

Lemma ents_length p sl : length (ents_of p sl) = length p.
Proof. apply map_length. Qed.

Lemma ents_nth p sl r d :
  (r < length p)%nat -> nth r (ents_of p sl) d = nth (N.to_nat (nth r p 0%N)) sl empty_slot.
Proof.
  intros H. unfold ents_of.
  set (f := fun i => nth (N.to_nat i) sl empty_slot).
  rewrite (nth_indep _ d (f 0%N)) by (rewrite map_length; exact H).
  rewrite map_nth. reflexivity.
Qed.

Lemma ents_set_nth_notin p sl j x :
  ~ In j p -> ents_of p (set_nth (N.to_nat j) x sl) = ents_of p sl.
Proof.
  intros H. unfold ents_of. apply map_ext_in. intros i Hi.
  apply nth_set_nth_neq. intros E. apply H.
  assert (i = j) as -> by lia. exact Hi.
Qed.

Lemma leaf_ranked_set_nth_notin l j x v :
  ~ In j (perm_list (lf_perm l)) ->
  leaf_ranked (leaf_with l v (lf_perm l) (set_nth (N.to_nat j) x (lf_slots l))) = leaf_ranked l.
Proof.
  intros H. unfold leaf_ranked, leaf_with. cbn [lf_perm]. apply map_ext_in. intros i Hi.
  f_equal. unfold slot_at. cbn [lf_slots]. apply nth_set_nth_neq. intros E. apply H.
  assert (i = j) as -> by lia. exact Hi.
Qed.

Lemma ents_insert p sl r j x :
  ~ In j p -> (N.to_nat j < length sl)%nat ->
  ents_of (insert_at r j p) (set_nth (N.to_nat j) x sl) = insert_at r x (ents_of p sl).
Proof.
  intros Hn Hj. unfold ents_of at 1. rewrite map_insert_at.
  rewrite nth_set_nth_eq by exact Hj.
  fold (ents_of p (set_nth (N.to_nat j) x sl)). rewrite ents_set_nth_notin by exact Hn. reflexivity.
Qed.

Lemma ents_remove p sl r :
  ents_of (remove_at r p) sl = remove_at r (ents_of p sl).
Proof. unfold ents_of. apply map_remove_at. Qed.

Lemma ents_delete p sl r x :
  NoDup p -> (r < length p)%nat ->
  ents_of (remove_at r p) (set_nth (N.to_nat (nth r p 0%N)) x sl) = remove_at r (ents_of p sl).
Proof.
  intros Hnd Hr. rewrite ents_set_nth_notin by (apply nth_notin_remove_at; assumption).
  apply ents_remove.
Qed.

Lemma ents_overwrite p sl r x :
  NoDup p -> (r < length p)%nat -> (N.to_nat (nth r p 0%N) < length sl)%nat ->
  ents_of p (set_nth (N.to_nat (nth r p 0%N)) x sl) = set_nth r x (ents_of p sl).
Proof.
  intros Hnd Hr Hs. apply (nth_ext _ _ empty_slot empty_slot).
  - rewrite set_nth_length, !ents_length. reflexivity.
  - intros i Hi. rewrite ents_length in Hi.
    rewrite ents_nth by exact Hi. rewrite !nth_set_nth, ents_length.
    destruct (Nat.ltb_spec (N.to_nat (nth r p 0%N)) (length sl)); [|lia].
    destruct (Nat.ltb_spec r (length p)); [|lia].
    rewrite !andb_true_r.
    destruct (Nat.eqb_spec i r) as [->|Hne].
    + rewrite Nat.eqb_refl. reflexivity.
    + destruct (Nat.eqb_spec (N.to_nat (nth i p 0%N)) (N.to_nat (nth r p 0%N))) as [E|_].
      * exfalso. apply Hne. rewrite (NoDup_nth p 0%N) in Hnd. apply Hnd; [exact Hi|exact Hr|lia].
      * rewrite ents_nth by exact Hi. reflexivity.
Qed.

(** ** [leaf_with] and the version word

    The projections of [leaf_with] compute, and entries, keys, lookup, rank and [WF_leaf] read the
    permutation and the slots only.  So every equation of this section holds by [reflexivity], and a leaf
    that differs from [l] in its version word alone stands for [l] by conversion ([change], [exact]) in the
    proofs below, without a rewrite. *)
Lemma leaf_with_id l v p s : lf_id (leaf_with l v p s) = lf_id l.
Proof. reflexivity. Qed.
Lemma leaf_with_ver l v p s : lf_ver (leaf_with l v p s) = v.
Proof. reflexivity. Qed.
Lemma leaf_with_perm l v p s : lf_perm (leaf_with l v p s) = p.
Proof. reflexivity. Qed.
Lemma leaf_with_slots l v p s : lf_slots (leaf_with l v p s) = s.
Proof. reflexivity. Qed.

Lemma slot_at_with_ver l v j : slot_at (leaf_with l v (lf_perm l) (lf_slots l)) j = slot_at l j.
Proof. reflexivity. Qed.
Lemma leaf_ranked_with_ver l v : leaf_ranked (leaf_with l v (lf_perm l) (lf_slots l)) = leaf_ranked l.
Proof. reflexivity. Qed.
Lemma leaf_lookup_with_ver l v k : leaf_lookup (leaf_with l v (lf_perm l) (lf_slots l)) k = leaf_lookup l k.
Proof. reflexivity. Qed.
Lemma leaf_rank_with_ver l v k : leaf_rank (leaf_with l v (lf_perm l) (lf_slots l)) k = leaf_rank l k.
Proof. reflexivity. Qed.

Lemma leaf_insert_at_id l slot k lv r : lf_id (leaf_insert_at l slot k lv r) = lf_id l.
Proof. reflexivity. Qed.
Lemma leaf_insert_at_ver l slot k lv r : lf_ver (leaf_insert_at l slot k lv r) = lf_ver l.
Proof. reflexivity. Qed.
Lemma leaf_delete_id l r slot : lf_id (leaf_delete l r slot) = lf_id l.
Proof. reflexivity. Qed.
Lemma leaf_delete_ver l r slot : lf_ver (leaf_delete l r slot) = lf_ver l.
Proof. reflexivity. Qed.

Lemma slot_at_set_nth l v p i x j :
  slot_at (leaf_with l v p (set_nth (N.to_nat i) x (lf_slots l))) j =
    if (j =? i)%N && (N.to_nat i <? length (lf_slots l))%nat then x else slot_at l j.
Proof.
  unfold slot_at. rewrite leaf_with_slots, nth_set_nth.
  destruct (N.eqb_spec j i) as [->|Hne].
  - rewrite Nat.eqb_refl. reflexivity.
  - destruct (Nat.eqb_spec (N.to_nat j) (N.to_nat i)); [lia|]. reflexivity.
Qed.

(** ** [WF_leaf] *)
Lemma WF_leaf_intro l es :
  Valid (lf_perm l) -> length (lf_slots l) = 15%nat -> leaf_entries l = es ->
  Forall entry_ok es -> sorted_keys (map sl_key es) -> WF_leaf l.
Proof. intros Hv Hl <- Ha Hs. split; [exact Hv|]. split; [exact Hl|]. split; [exact Ha|exact Hs]. Qed.

Lemma WF_leaf_cnk l : WF_leaf l -> (leaf_cnk l <= 15)%N.
Proof. intros (H & _). apply H. Qed.

Lemma WF_leaf_keys_wf l : WF_leaf l -> Forall (fun t => kt_wf t = true) (leaf_keys l).
Proof.
  intros (_ & _ & H & _). unfold leaf_keys. apply Forall_map.
  eapply Forall_impl; [|exact H]. intros s Hs. apply Hs.
Qed.

Lemma WF_leaf_keys_NoDup l : WF_leaf l -> NoDup (leaf_keys l).
Proof. intros (_ & _ & _ & H). apply sorted_NoDup. exact H. Qed.

(** ** Lookup *)
Definition ranked_keys (es : list (N * slot_t)) : list ktuple := map (fun e => sl_key (snd e)) es.

Lemma leaf_entries_ranked l : leaf_entries l = map snd (leaf_ranked l).
Proof. reflexivity. Qed.

Lemma leaf_entries_dir rtl l : in_dir rtl (leaf_entries l) = map snd (in_dir rtl (leaf_ranked l)).
Proof. rewrite leaf_entries_ranked. symmetry. apply in_dir_map. Qed.

Lemma leaf_keys_ranked l : leaf_keys l = ranked_keys (leaf_ranked l).
Proof. unfold leaf_keys, leaf_entries, ranked_keys. apply map_map. Qed.

Lemma leaf_keys_nth l r k :
  nth_error (leaf_keys l) r = Some k ->
  exists slot s, nth_error (leaf_ranked l) r = Some (slot, s) /\ sl_key s = k.
Proof.
  rewrite leaf_keys_ranked. unfold ranked_keys. rewrite nth_error_map.
  destruct (nth_error (leaf_ranked l) r) as [[slot s]|]; [|discriminate].
  intros H. injection H as H. exists slot, s. split; [reflexivity|exact H].
Qed.

(** The scan stops at the first key not below [k]; in a sorted list a later
    entry with key [k] would put the key it stopped at below [k].  [n] is the rank of the head of
    [es] in the leaf, so the hit of rank [r] stands at [r - n] in [es]. *)
Lemma lookup_ranked_iff es k : forall n r slot s,
  kt_wf k = true -> Forall (fun t => kt_wf t = true) (ranked_keys es) -> sorted_keys (ranked_keys es) ->
  (lookup_ranked es k n = Some (r, slot, s) <->
   (n <= r)%nat /\ nth_error es (r - n) = Some (slot, s) /\ sl_key s = k).
Proof.
  induction es as [|[i s0] es IH]; intros n r slot s Hk Hw Hs; cbn [lookup_ranked].
  - split; [discriminate|]. intros (_ & H & _). destruct (r - n)%nat; discriminate.
  - cbn [ranked_keys map snd] in Hw, Hs. fold (ranked_keys es) in Hw, Hs.
    apply Forall_cons_iff in Hw. destruct Hw as [Hw0 Hw].
    apply StronglySorted_cons_iff in Hs. destruct Hs as [Hs Hf].
    assert (forall m, nth_error es m = Some (slot, s) -> sl_key s = k ->
                      canon_lt (sl_key s0) k = true) as Hlater.
    { intros m Hm <-. rewrite Forall_forall in Hf. apply Hf.
      apply (in_map (fun e => sl_key (snd e)) es (slot, s)). eapply nth_error_In. exact Hm. }
    pose proof (lookup_probe_cases k (sl_key s0) Hk Hw0) as C.
    destruct (lookup_probe k (sl_key s0)).
    + split.
      * intros H. injection H as <- <- <-. rewrite Nat.sub_diag.
        split; [lia|]. split; [reflexivity|symmetry; exact C].
      * intros (Hn & H & Hsk). destruct (r - n)%nat as [|m] eqn:Em; cbn [nth_error] in H.
        -- injection H as <- <-. replace r with n by lia. reflexivity.
        -- pose proof (Hlater m H Hsk) as X. rewrite <- C, canon_lt_irrefl in X. discriminate.
    + split; [discriminate|]. intros (Hn & H & Hsk). exfalso.
      destruct (r - n)%nat as [|m]; cbn [nth_error] in H.
      * injection H as _ <-. rewrite Hsk, canon_lt_irrefl in C. discriminate.
      * pose proof (Hlater m H Hsk) as X. apply canon_lt_asym in X. congruence.
    + rewrite (IH (S n) r slot s Hk Hw Hs). split.
      * intros (Hn & H & Hsk). split; [lia|]. split; [|exact Hsk].
        replace (r - n)%nat with (S (r - S n)) by lia. exact H.
      * intros (Hn & H & Hsk). destruct (r - n)%nat as [|m] eqn:Em; cbn [nth_error] in H.
        -- exfalso. injection H as _ <-. rewrite Hsk, canon_lt_irrefl in C. discriminate.
        -- split; [lia|]. split; [|exact Hsk]. replace (r - S n)%nat with m by lia. exact H.
Qed.

Theorem leaf_lookup_some l k rank slot s :
  WF_leaf l -> kt_wf k = true ->
  (leaf_lookup l k = Some (rank, slot, s) <->
   nth_error (leaf_ranked l) rank = Some (slot, s) /\ sl_key s = k).
Proof.
  intros Hwf Hk. pose proof (WF_leaf_keys_wf l Hwf) as Hw. destruct Hwf as (_ & _ & _ & Hs).
  rewrite leaf_keys_ranked in Hw, Hs. unfold leaf_lookup.
  rewrite (lookup_ranked_iff _ k 0 rank slot s Hk Hw Hs), Nat.sub_0_r.
  split; [intros (_ & H); exact H|intros H; split; [lia|exact H]].
Qed.

Lemma leaf_lookup_entry l k r slot s :
  WF_leaf l -> kt_wf k = true -> leaf_lookup l k = Some (r, slot, s) ->
  In s (leaf_entries l) /\ sl_key s = k /\ nth_error (leaf_entries l) r = Some s.
Proof.
  intros Hl Hk E. apply leaf_lookup_some in E; [|assumption..]. destruct E as [H1 H2].
  pose proof (leaf_ranked_entries l r slot s H1) as H3.
  split; [eapply nth_error_In; exact H3|]. split; assumption.
Qed.

Theorem leaf_lookup_found l k r :
  WF_leaf l -> kt_wf k = true -> nth_error (leaf_keys l) r = Some k ->
  exists slot s, leaf_lookup l k = Some (r, slot, s) /\
                 nth_error (leaf_ranked l) r = Some (slot, s) /\ sl_key s = k.
Proof.
  intros Hwf Hk Hr. destruct (leaf_keys_nth l r k Hr) as (slot & s & H).
  exists slot, s. split; [apply leaf_lookup_some; assumption|exact H].
Qed.

Theorem leaf_lookup_none l k :
  WF_leaf l -> kt_wf k = true ->
  (leaf_lookup l k = None <-> ~ In k (leaf_keys l)).
Proof.
  intros Hwf Hk. split.
  - intros E Hin. apply In_nth_error in Hin. destruct Hin as [r Hr].
    destruct (leaf_lookup_found l k r Hwf Hk Hr) as (slot & s & H & _). congruence.
  - intros Hn. destruct (leaf_lookup l k) as [[[r slot] s]|] eqn:E; [|reflexivity].
    apply leaf_lookup_some in E; [|assumption..]. destruct E as [E <-]. exfalso. apply Hn.
    apply in_map. eapply nth_error_In, leaf_ranked_entries, E.
Qed.

Theorem leaf_lookup_in l k :
  WF_leaf l -> kt_wf k = true -> In k (leaf_keys l) ->
  exists r slot s, leaf_lookup l k = Some (r, slot, s) /\
                   nth_error (leaf_ranked l) r = Some (slot, s) /\ sl_key s = k /\
                   nth_error (leaf_keys l) r = Some k /\
                   (forall r', nth_error (leaf_keys l) r' = Some k -> r' = r).
Proof.
  intros Hwf Hk Hin. apply In_nth_error in Hin. destruct Hin as [r Hr].
  destruct (leaf_lookup_found l k r Hwf Hk Hr) as (slot & s & H1 & H2 & H3).
  exists r, slot, s. repeat split; try assumption.
  intros r' Hr'. pose proof (WF_leaf_keys_NoDup l Hwf) as Hnd. rewrite NoDup_nth_error in Hnd.
  apply Hnd; [|congruence]. apply nth_error_Some. congruence.
Qed.

(** ** Rank *)
Theorem leaf_rank_spec l k : is_pos (leaf_keys l) k (leaf_rank l k).
Proof.
  destruct (probe_is_pos (fun e => sl_key (snd e)) rank_probe rank_ranked) with
    (l := leaf_ranked l) (k := k) (n := 0%nat) as (i & E & P).
  - intros [|[j s] r] k0 n; reflexivity.
  - apply Forall_forall. intros e _. apply rank_probe_site.
  - unfold leaf_rank. rewrite E, leaf_keys_ranked. exact P.
Qed.

Theorem leaf_rank_sorted l k :
  WF_leaf l -> ~ In k (leaf_keys l) ->
  sorted_keys (insert_at (leaf_rank l k) k (leaf_keys l)).
Proof.
  intros Hwf Hn. apply sorted_insert_pos; [apply Hwf|exact Hn|apply leaf_rank_spec].
Qed.

(** ** Plain insert *)
Lemma leaf_insert_at_entries l k lv r :
  Valid (lf_perm l) -> length (lf_slots l) = 15%nat -> (leaf_cnk l < 15)%N ->
  (r <= length (leaf_entries l))%nat ->
  perm_list (lf_perm (leaf_insert_at l (get_empty_slot (lf_perm l)) k lv r)) =
    insert_at r (get_empty_slot (lf_perm l)) (perm_list (lf_perm l)) /\
  Valid (lf_perm (leaf_insert_at l (get_empty_slot (lf_perm l)) k lv r)) /\
  length (lf_slots (leaf_insert_at l (get_empty_slot (lf_perm l)) k lv r)) = 15%nat /\
  leaf_entries (leaf_insert_at l (get_empty_slot (lf_perm l)) k lv r) =
    insert_at r {| sl_key := k; sl_lv := lv |} (leaf_entries l).
Proof.
  intros Hv Hlen Hc Hr.
  unfold leaf_cnk in Hc. rewrite leaf_entries_length in Hr. unfold leaf_cnk in Hr.
  destruct (get_empty_slot_free (lf_perm l) Hc) as (Hnin & Hlt & _).
  set (slot := get_empty_slot (lf_perm l)) in *.
  pose proof (insert_rank_list (lf_perm l) (N.of_nat r) slot Hc ltac:(lia) ltac:(lia)) as Hpl.
  pose proof (insert_rank_valid (lf_perm l) (N.of_nat r) slot Hv Hc ltac:(lia) Hlt Hnin) as Hv'.
  rewrite Nat2N.id in Hpl.
  split; [exact Hpl|]. split; [exact Hv'|]. unfold leaf_insert_at.
  split; [rewrite leaf_with_slots, set_nth_length; exact Hlen|].
  rewrite !leaf_entries_ents, leaf_with_perm, leaf_with_slots, Hpl.
  apply ents_insert; [exact Hnin|lia].
Qed.

Lemma leaf_insert_at_gen l k lv r :
  WF_leaf l -> (leaf_cnk l < 15)%N -> (r <= length (leaf_entries l))%nat ->
  entry_ok {| sl_key := k; sl_lv := lv |} ->
  sorted_keys (insert_at r k (leaf_keys l)) ->
  leaf_entries (leaf_insert_at l (get_empty_slot (lf_perm l)) k lv r) =
    insert_at r {| sl_key := k; sl_lv := lv |} (leaf_entries l) /\
  WF_leaf (leaf_insert_at l (get_empty_slot (lf_perm l)) k lv r).
Proof.
  intros (Hv & Hlen & Hall & Hs) Hc Hr Hok Hsorted.
  destruct (leaf_insert_at_entries l k lv r Hv Hlen Hc Hr) as (_ & Hv' & Hlen' & He).
  split; [exact He|]. apply (WF_leaf_intro _ _ Hv' Hlen' He).
  - apply Forall_insert_at; assumption.
  - rewrite map_insert_at. exact Hsorted.
Qed.

Theorem leaf_insert_at_spec l k lv :
  WF_leaf l -> (leaf_cnk l < 15)%N -> ~ In k (leaf_keys l) ->
  entry_ok {| sl_key := k; sl_lv := lv |} ->
  leaf_entries (leaf_insert_at l (get_empty_slot (lf_perm l)) k lv (leaf_rank l k)) =
    insert_at (leaf_rank l k) {| sl_key := k; sl_lv := lv |} (leaf_entries l) /\
  WF_leaf (leaf_insert_at l (get_empty_slot (lf_perm l)) k lv (leaf_rank l k)).
Proof.
  intros Hwf Hc Hn Hok.
  apply leaf_insert_at_gen; try assumption.
  - destruct (leaf_rank_spec l k) as (H & _).
    unfold leaf_keys in H. rewrite map_length in H. exact H.
  - apply leaf_rank_sorted; assumption.
Qed.

Theorem leaf_put_nosplit l k lv nid :
  WF_leaf l -> leaf_cnk l <> 15%N -> kt_wf k = true -> ~ In k (leaf_keys l) ->
  entry_ok {| sl_key := k; sl_lv := lv |} ->
  exists l' info,
    leaf_put l k lv nid = (IOne (BLeaf l'), info) /\
    leaf_entries l' = insert_at (leaf_rank l k) {| sl_key := k; sl_lv := lv |} (leaf_entries l) /\
    WF_leaf l' /\ lf_id l' = lf_id l /\
    pi_modified info = lf_id l /\ pi_created info = None.
Proof.
  intros Hwf Hc _ Hn Hok.
  assert (leaf_cnk l < 15)%N as Hc' by (pose proof (WF_leaf_cnk l Hwf); lia).
  unfold leaf_put. cbv zeta.
  destruct (N.eqb_spec (leaf_cnk l) 15) as [E|_]; [contradiction|].
  (* the leaf returned differs from [leaf_insert_at l ...] in the version word only *)
  destruct (leaf_insert_at_spec l k lv Hwf Hc' Hn Hok) as [He Hw].
  eexists. eexists. split; [reflexivity|].
  split; [exact He|]. split; [exact Hw|]. repeat split.
Qed.

(** ** Delete *)
Theorem leaf_delete_spec l rank slot s :
  WF_leaf l -> nth_error (leaf_ranked l) rank = Some (slot, s) ->
  leaf_entries (leaf_delete l rank slot) = remove_at rank (leaf_entries l) /\
  WF_leaf (leaf_delete l rank slot) /\
  lf_id (leaf_delete l rank slot) = lf_id l.
Proof.
  intros (Hv & Hlen & Hall & Hs) Hr.
  destruct (leaf_ranked_nth l rank slot s Hr) as (Hlt & Hslot & _). unfold leaf_cnk in Hlt.
  pose proof (delete_rank_list (lf_perm l) (N.of_nat rank) (proj1 Hv) ltac:(lia)) as Hpl.
  pose proof (delete_rank_valid (lf_perm l) (N.of_nat rank) Hv ltac:(lia)) as Hv'.
  rewrite Nat2N.id in Hpl. rewrite <- perm_list_length in Hlt.
  pose proof Hv as (_ & _ & Hnd & _).
  unfold leaf_delete.
  (* the slot array is untouched, or only the deleted entry's slot is rewritten *)
  set (slots' := match sl_lv (slot_at l slot) with
                 | LValue v => if v_inline v then lf_slots l else _
                 | _ => lf_slots l end).
  assert (exists x, slots' = lf_slots l \/ slots' = set_nth (N.to_nat slot) x (lf_slots l)) as Hsl.
  { unfold slots'. destruct (sl_lv (slot_at l slot)) as [|v|]; [exists empty_slot; left; reflexivity| |
      exists empty_slot; left; reflexivity].
    destruct (v_inline v); [exists empty_slot; left; reflexivity|eexists; right; reflexivity]. }
  clearbody slots'. destruct Hsl as [x Hsl].
  assert (leaf_entries (leaf_with l (lf_ver l) (delete_rank (lf_perm l) (N.of_nat rank)) slots') =
          remove_at rank (leaf_entries l)) as He.
  { rewrite !leaf_entries_ents, leaf_with_perm, leaf_with_slots, Hpl.
    destruct Hsl as [->| ->]; [apply ents_remove|].
    rewrite <- Hslot. apply ents_delete; assumption. }
  split; [exact He|]. split; [|reflexivity].
  apply WF_leaf_intro with (es := remove_at rank (leaf_entries l)); [exact Hv'| |exact He| |].
  - destruct Hsl as [->| ->]; [exact Hlen|]. rewrite leaf_with_slots, set_nth_length. exact Hlen.
  - apply Forall_remove_at. exact Hall.
  - rewrite map_remove_at. apply StronglySorted_remove_at. exact Hs.
Qed.

Corollary leaf_delete_keys l rank slot s :
  WF_leaf l -> nth_error (leaf_ranked l) rank = Some (slot, s) ->
  leaf_keys (leaf_delete l rank slot) = remove_at rank (leaf_keys l).
Proof.
  intros Hwf Hr. destruct (leaf_delete_spec l rank slot s Hwf Hr) as (He & _).
  rewrite (leaf_keys_of _ _ He). apply map_remove_at.
Qed.

Lemma leaf_delete_count l rank slot :
  (1 <= leaf_cnk l)%N -> leaf_cnk (leaf_delete l rank slot) = (leaf_cnk l - 1)%N.
Proof. apply (delete_rank_cnk (lf_perm l) (N.of_nat rank)). Qed.

Lemma leaf_delete_cnk l rank slot s :
  WF_leaf l -> nth_error (leaf_ranked l) rank = Some (slot, s) ->
  leaf_cnk (leaf_delete l rank slot) = (leaf_cnk l - 1)%N.
Proof.
  intros _ Hr. destruct (leaf_ranked_nth l rank slot s Hr) as (Hlt & _).
  apply leaf_delete_count. lia.
Qed.

(** ** Overwrite: the value word of a stored entry is replaced (put on an existing key) *)
Theorem leaf_overwrite_spec l v rank slot s x :
  WF_leaf l -> nth_error (leaf_ranked l) rank = Some (slot, s) ->
  sl_key x = sl_key s -> entry_ok x ->
  leaf_entries (leaf_with l v (lf_perm l) (set_nth (N.to_nat slot) x (lf_slots l))) =
    set_nth rank x (leaf_entries l) /\
  leaf_keys (leaf_with l v (lf_perm l) (set_nth (N.to_nat slot) x (lf_slots l))) = leaf_keys l /\
  WF_leaf (leaf_with l v (lf_perm l) (set_nth (N.to_nat slot) x (lf_slots l))).
Proof.
  intros (Hv & Hlen & Hall & Hs) Hr Hkey Hok.
  pose proof (leaf_ranked_entries l rank slot s Hr) as Hre.
  destruct (leaf_ranked_nth l rank slot s Hr) as (Hlt & Hslot & _).
  unfold leaf_cnk in Hlt. rewrite <- perm_list_length in Hlt.
  pose proof Hv as (_ & _ & Hnd & Hf15).
  assert (slot < 15)%N as Hs15.
  { rewrite <- Hslot. apply (proj1 (Forall_nth _ _) Hf15). exact Hlt. }
  set (l' := leaf_with l v (lf_perm l) (set_nth (N.to_nat slot) x (lf_slots l))).
  assert (leaf_entries l' = set_nth rank x (leaf_entries l)) as He.
  { rewrite !leaf_entries_ents. unfold l'. rewrite leaf_with_perm, leaf_with_slots, <- Hslot.
    apply ents_overwrite; [exact Hnd|exact Hlt|]. rewrite Hslot. lia. }
  assert (map sl_key (set_nth rank x (leaf_entries l)) = leaf_keys l) as Hk.
  { rewrite map_set_nth. apply set_nth_same.
    unfold leaf_keys. rewrite nth_error_map, Hre. cbn [option_map]. rewrite Hkey. reflexivity. }
  split; [exact He|]. split; [rewrite (leaf_keys_of _ _ He); exact Hk|].
  apply WF_leaf_intro with (es := set_nth rank x (leaf_entries l)); [exact Hv| |exact He| |].
  - unfold l'. rewrite leaf_with_slots, set_nth_length. exact Hlen.
  - apply Forall_set_nth; assumption.
  - rewrite Hk. exact Hs.
Qed.

(** ** Fresh leaves *)
Lemma fresh_slots_length : length fresh_slots = 15%nat.
Proof. reflexivity. Qed.

Lemma empty_leaf_WF id v :
  WF_leaf {| lf_id := id; lf_ver := v; lf_perm := 0; lf_slots := fresh_slots |} /\
  leaf_entries {| lf_id := id; lf_ver := v; lf_perm := 0; lf_slots := fresh_slots |} = [].
Proof.
  split; [|reflexivity].
  split; [exact init_valid|]. split; [reflexivity|]. split; constructor.
Qed.

Lemma single_leaf_id id t lv : lf_id (single_leaf id t lv) = id.
Proof. reflexivity. Qed.

Theorem single_leaf_spec id k lv :
  entry_ok {| sl_key := k; sl_lv := lv |} ->
  WF_leaf (single_leaf id k lv) /\
  leaf_entries (single_leaf id k lv) = [{| sl_key := k; sl_lv := lv |}] /\
  lf_id (single_leaf id k lv) = id.
Proof.
  intros Hok. unfold single_leaf.
  set (l0 := {| lf_id := id; lf_ver := v_new_layer_border; lf_perm := 0; lf_slots := fresh_slots |}).
  destruct (empty_leaf_WF id v_new_layer_border) as [Hwf He]. fold l0 in Hwf, He.
  assert (get_empty_slot (lf_perm l0) = 0%N) as Hslot by reflexivity.
  destruct (leaf_insert_at_gen l0 k lv 0 Hwf) as [H1 H2].
  - unfold leaf_cnk. cbn. lia.
  - lia.
  - exact Hok.
  - rewrite (leaf_keys_of _ _ He). unfold insert_at. cbn [map firstn skipn app].
    constructor; constructor.
  - rewrite Hslot in H1, H2. split; [exact H2|]. split; [|reflexivity].
    rewrite H1, He. reflexivity.
Qed.

Theorem empty_tree_leaf_spec id :
  exists l, t_layers (empty_tree id) = [([], BLeaf l)] /\ WF_leaf l /\ leaf_entries l = [] /\ lf_id l = id.
Proof.
  eexists. split; [reflexivity|].
  destruct (empty_leaf_WF id (v_fresh_border true)) as [H1 H2].
  split; [exact H1|]. split; [exact H2|reflexivity].
Qed.

(** ** Split *)

Lemma split_moves_spec n : forall i old ns old' ns',
  Valid (lf_perm old) -> length (lf_slots old) = 15%nat ->
  get_cnk (lf_perm old) = N.of_nat (8 + n) -> (i + n <= length ns)%nat ->
  split_moves n i old ns = (old', ns') ->
  lf_id old' = lf_id old /\
  Valid (lf_perm old') /\ get_cnk (lf_perm old') = 8%N /\ length (lf_slots old') = 15%nat /\
  leaf_entries old' = firstn 8 (leaf_entries old) /\
  length ns' = length ns /\
  (forall j, (j < n)%nat ->
     nth (i + j) ns' empty_slot = nth (8 + j) (leaf_entries old) empty_slot) /\
  (forall j, (j < i)%nat -> nth j ns' empty_slot = nth j ns empty_slot).
Proof.
  induction n as [|m IH]; intros i old ns old' ns' Hv Hlen Hc Hi H; cbn [split_moves] in H.
  - injection H as <- <-.
    split; [reflexivity|]. split; [exact Hv|]. split; [exact Hc|]. split; [exact Hlen|].
    split; [|split; [reflexivity|split; [intros j Hj; lia|reflexivity]]].
    symmetry. apply firstn_all2. rewrite leaf_entries_length. unfold leaf_cnk. lia.
  - set (p := perm_list (lf_perm old)) in *.
    assert (length p = 8 + S m)%nat as Hpl by (unfold p; rewrite perm_list_length; lia).
    replace (get_index_of_rank (lf_perm old) 8) with (nth 8 p 0%N) in H
      by (unfold p; rewrite perm_list_nth, get_index_of_rank_nib by lia; reflexivity).
    pose proof (delete_rank_list (lf_perm old) 8 (proj1 Hv) ltac:(lia)) as Hpl'.
    pose proof (delete_rank_cnk (lf_perm old) 8 ltac:(lia)) as Hcnk'.
    pose proof (delete_rank_valid (lf_perm old) 8 Hv ltac:(lia)) as Hv'.
    change (N.to_nat 8) with 8%nat in Hpl'. fold p in Hpl'.
    pose proof Hv as (_ & _ & Hnd & _). fold p in Hnd.
    set (old1 := leaf_with old _ _ _) in H.
    assert (leaf_entries old1 = remove_at 8 (leaf_entries old)) as He1.
    { rewrite !leaf_entries_ents. unfold old1. rewrite leaf_with_perm, leaf_with_slots, Hpl'.
      fold p. apply ents_delete; [exact Hnd|lia]. }
    assert (slot_at old (nth 8 p 0%N) = nth 8 (leaf_entries old) empty_slot) as Hs.
    { rewrite leaf_entries_ents. fold p. rewrite ents_nth by lia. reflexivity. }
    assert (length (leaf_entries old) = 8 + S m)%nat as HlenE
      by (rewrite leaf_entries_ents, ents_length; exact Hpl).
    apply IH in H;
      [|exact Hv'|unfold old1; rewrite leaf_with_slots, set_nth_length; exact Hlen
       |unfold old1; rewrite leaf_with_perm, Hcnk', Hc; lia|rewrite set_nth_length; lia].
    destruct H as (H1 & H3 & H4 & H5 & H6 & H7 & H8 & H9).
    split; [exact H1|]. split; [exact H3|]. split; [exact H4|]. split; [exact H5|].
    split; [rewrite H6, He1; apply firstn_remove_at|].
    split; [rewrite H7; apply set_nth_length|]. split.
    + intros [|j] Hj.
      * rewrite Nat.add_0_r, H9, nth_set_nth_eq, Hs by lia. reflexivity.
      * replace (i + S j)%nat with (S i + j)%nat by lia.
        rewrite (H8 j), He1, nth_remove_at by lia.
        destruct (Nat.ltb_spec (8 + j) 8); [lia|reflexivity].
    + intros j Hj. rewrite H9, nth_set_nth_neq by lia. reflexivity.
Qed.

Lemma split_dest7_list : perm_list (split_dest 7) = 0%N :: map N.of_nat (seq 1 6).
Proof. apply (split_dest_list 7); lia. Qed.

Lemma new_leaf_entries ns E :
  length E = 15%nat ->
  (forall j, (j < 7)%nat -> nth j ns empty_slot = nth (8 + j) E empty_slot) ->
  ents_of (perm_list (split_dest 7)) ns = skipn 8 E.
Proof.
  intros HE H. rewrite split_dest7_list. change (0%N :: _) with (map N.of_nat (seq 0 7)).
  unfold ents_of. rewrite map_map.
  apply (nth_ext _ _ empty_slot empty_slot).
  - rewrite map_length, seq_length, skipn_length. lia.
  - intros i Hi. rewrite map_length, seq_length in Hi.
    rewrite nth_map_seq by exact Hi. rewrite Nat2N.id. cbn [Nat.add].
    rewrite nth_skipn. apply H. exact Hi.
Qed.

Definition split_post (l : leaf) (k : ktuple) (lv : lvw) (nid : N)
           (L : leaf) (sep : ktuple) (R : leaf) (info : put_info) : Prop :=
  leaf_entries L ++ leaf_entries R =
    insert_at (leaf_rank l k) {| sl_key := k; sl_lv := lv |} (leaf_entries l) /\
  WF_leaf L /\ WF_leaf R /\ lf_id L = lf_id l /\ lf_id R = nid /\
  (8 <= length (leaf_entries L))%nat /\ (7 <= length (leaf_entries R))%nat /\
  (length (leaf_entries L) + length (leaf_entries R) = 16)%nat /\
  hd_error (leaf_keys R) = Some sep /\
  Forall (fun t => canon_lt t sep = true) (leaf_keys L) /\
  Forall (fun t => canon_lt t sep = false) (leaf_keys R) /\
  pi_modified info = lf_id l /\ pi_created info = Some nid.

(** Both halves of a split are cuts, after 8 or 9 entries, of the 16 entries
    that inserting at the rank gives; everything in [split_post] follows from that. *)
Lemma split_finish l k lv nid L R m sep :
  WF_leaf l -> leaf_cnk l = 15%N -> ~ In k (leaf_keys l) ->
  entry_ok {| sl_key := k; sl_lv := lv |} -> (8 <= m <= 9)%nat ->
  Valid (lf_perm L) -> length (lf_slots L) = 15%nat ->
  leaf_entries L =
    firstn m (insert_at (leaf_rank l k) {| sl_key := k; sl_lv := lv |} (leaf_entries l)) ->
  Valid (lf_perm R) -> length (lf_slots R) = 15%nat ->
  leaf_entries R =
    skipn m (insert_at (leaf_rank l k) {| sl_key := k; sl_lv := lv |} (leaf_entries l)) ->
  lf_id L = lf_id l -> lf_id R = nid -> hd_error (leaf_keys R) = Some sep ->
  split_post l k lv nid L sep R {| pi_modified := lf_id l; pi_created := Some nid |}.
Proof.
  intros Hwf Hc Hn Hok Hm HvL HlL HeL HvR HlR HeR HiL HiR Hhd.
  set (E' := insert_at _ _ _) in *.
  assert (length E' = 16%nat) as HE'.
  { destruct (leaf_rank_spec l k) as (Hr & _). unfold leaf_keys in Hr.
    rewrite map_length in Hr. unfold E'. rewrite insert_at_length by exact Hr.
    rewrite leaf_entries_length, Hc. reflexivity. }
  assert (Forall entry_ok E') as Hall by (apply Forall_insert_at; [apply Hwf|exact Hok]).
  assert (sorted_keys (map sl_key E')) as Hs
    by (unfold E'; rewrite map_insert_at; apply leaf_rank_sorted; assumption).
  assert (sorted_keys (leaf_keys L ++ leaf_keys R)) as Hsorted.
  { rewrite (leaf_keys_of _ _ HeL), (leaf_keys_of _ _ HeR), <- map_app, firstn_skipn. exact Hs. }
  destruct (sorted_sep _ _ _ Hsorted Hhd) as [F1 F2].
  split; [rewrite HeL, HeR; apply firstn_skipn|]. split.
  { apply (WF_leaf_intro L _ HvL HlL HeL); [apply Forall_firstn; exact Hall|].
    rewrite <- firstn_map. apply StronglySorted_firstn. exact Hs. }
  split.
  { apply (WF_leaf_intro R _ HvR HlR HeR); [apply Forall_skipn; exact Hall|].
    rewrite <- skipn_map. apply StronglySorted_skipn. exact Hs. }
  split; [exact HiL|]. split; [exact HiR|].
  rewrite HeL, HeR, firstn_length, skipn_length, HE'.
  split; [lia|]. split; [lia|]. split; [lia|].
  split; [exact Hhd|]. split; [exact F1|]. split; [exact F2|]. split; reflexivity.
Qed.

Theorem leaf_put_split l k lv nid :
  WF_leaf l -> leaf_cnk l = 15%N -> kt_wf k = true -> ~ In k (leaf_keys l) ->
  entry_ok {| sl_key := k; sl_lv := lv |} ->
  exists L sep R info,
    leaf_put l k lv nid = (ISplit (BLeaf L) sep (BLeaf R), info) /\
    split_post l k lv nid L sep R info.
Proof.
  intros Hwf Hc Hk Hn Hok.
  pose proof Hwf as (Hv & Hlen & _ & Hs).
  pose proof (leaf_entries_length l) as HE. rewrite Hc in HE. change (N.to_nat 15) with 15%nat in HE.
  unfold leaf_put. cbv zeta.
  destruct (N.eqb_spec (leaf_cnk l) 15) as [_|X]; [|contradiction].
  set (v2 := set_splitting _ true). clearbody v2.
  destruct (split_moves 7 0 (leaf_with l v2 (lf_perm l) (lf_slots l)) fresh_slots)
    as [old ns] eqn:Hsm.
  apply split_moves_spec in Hsm; [|exact Hv|exact Hlen|exact Hc|rewrite fresh_slots_length; lia].
  destruct Hsm as (Hido & Hvo & Hco & Hleno & Heo & Hlns & Hns & _).
  change (leaf_entries (leaf_with l v2 (lf_perm l) (lf_slots l))) with (leaf_entries l) in Heo, Hns.
  (* the new leaf holds the entries of rank 8.. in slots 0..6, slot 0 first *)
  set (new := {| lf_id := nid; lf_ver := v2; lf_perm := split_dest 7; lf_slots := ns |}).
  assert (leaf_entries new = skipn 8 (leaf_entries l)) as Hen
    by (rewrite leaf_entries_ents; apply new_leaf_entries; [exact HE|exact Hns]).
  assert (Valid (lf_perm new)) as Hvn by (apply (split_dest_valid 7); lia).
  assert (leaf_cnk new = 7%N) as Hcn.
  { apply N2Nat.inj. unfold leaf_cnk. rewrite <- perm_list_length.
    cbn [lf_perm new]. rewrite split_dest7_list. reflexivity. }
  set (first := sl_key (slot_at new 0)).
  pose proof (leaf_keys_hd new _ split_dest7_list) as Hhd. fold first in Hhd.
  assert (nth_error (leaf_keys l) 8 = Some first) as Hfirst.
  { rewrite <- hd_error_skipn, <- Hhd. unfold leaf_keys. rewrite Hen, skipn_map. reflexivity. }
  assert (kt_wf first = true) as Hwfirst.
  { apply (proj1 (Forall_forall _ _) (WF_leaf_keys_wf l Hwf)).
    apply nth_error_In with 8%nat. exact Hfirst. }
  (* the side is decided by the rank: left iff it is at most 8 *)
  pose proof (leaf_rank_spec l k) as Hpos. pose proof Hpos as (Hr & _).
  pose proof (leaf_keys_length l) as HK. rewrite Hc in HK. change (N.to_nat 15) with 15%nat in HK.
  rewrite HK in Hr.
  pose proof (is_pos_le_iff _ _ _ 8%nat Hs Hpos ltac:(lia)) as Hside.
  rewrite (nth_error_nth _ _ _ Hfirst) in Hside.
  assert (bsplit_left k first (N.of_nat (leaf_rank l k)) 8 = canon_lt k first) as ->.
  { apply bsplit_left_site; [exact Hk|exact Hwfirst| |].
    - destruct (N.eq_dec (ks k) (ks first)) as [E1|E1]; [|left; exact E1].
      right. intros E2. apply Hn. apply nth_error_In with 8%nat.
      rewrite Hfirst. f_equal. symmetry. apply ktuple_eq. split; assumption.
    - intros Hlt. apply Hside. apply N.ltb_lt in Hlt. lia. }
  destruct (canon_lt k first); cbv beta iota.
  - (* left: the old leaf takes the entry, the new leaf stays as moved *)
    assert (leaf_rank l k <= 8)%nat as Hr8 by (apply Hside; reflexivity).
    destruct (leaf_insert_at_entries old k lv (leaf_rank l k) Hvo Hleno) as (_ & Hv2 & Hl2 & He2).
    { unfold leaf_cnk. rewrite Hco. reflexivity. }
    { rewrite Heo, firstn_length, HE. clear -Hr8. lia. }
    eexists. eexists. eexists. eexists. split; [reflexivity|].
    apply (split_finish l k lv nid _ _ 9 first Hwf Hc Hn Hok);
      [lia|exact Hv2|exact Hl2| |exact Hvn|exact Hlns| |exact Hido|reflexivity|exact Hhd].
    + rewrite firstn_insert_at_le, <- Heo by exact Hr8. exact He2.
    + rewrite skipn_insert_at_le by exact Hr8. exact Hen.
  - (* right: at rank - 8 >= 1 of the new leaf, so slot 0 still holds its first key *)
    assert (8 < leaf_rank l k)%nat as Hr8.
    { destruct (Nat.le_gt_cases (leaf_rank l k) 8) as [G|G]; [|exact G].
      apply Hside in G. discriminate. }
    destruct (leaf_insert_at_entries new k lv (leaf_rank l k - 8) Hvn Hlns)
      as (Hp2 & Hv2 & Hl2 & He2).
    { rewrite Hcn. reflexivity. }
    { rewrite Hen, skipn_length, HE. clear -Hr. lia. }
    cbn [lf_perm new] in Hp2. rewrite split_dest7_list in Hp2.
    replace (leaf_rank l k - 8)%nat with (S (leaf_rank l k - 9)) in Hp2 at 2 by (clear -Hr8; lia).
    rewrite insert_at_cons in Hp2.
    eexists. eexists. eexists. eexists. split; [reflexivity|].
    apply (split_finish l k lv nid _ _ 8 _ Hwf Hc Hn Hok);
      [lia|exact Hvo|exact Hleno| |exact Hv2|exact Hl2| |exact Hido|reflexivity
      |exact (leaf_keys_hd _ _ Hp2)].
    + rewrite firstn_insert_at_ge by (rewrite ?HE; clear -Hr Hr8; lia). exact Heo.
    + rewrite skipn_insert_at_ge, <- Hen by (rewrite ?HE; clear -Hr Hr8; lia). exact He2.
Qed.

Corollary split_post_keys l k lv nid L sep R info :
  split_post l k lv nid L sep R info ->
  leaf_keys L ++ leaf_keys R = insert_at (leaf_rank l k) k (leaf_keys l).
Proof.
  intros (He & _). unfold leaf_keys. rewrite <- map_app, He, map_insert_at. reflexivity.
Qed.

(** ** The version words a put writes *)

(** The version word of the border at the point where insert_lv (border_helper.h) chooses
    between inserting and splitting: locked, the inserting bit set, and the deleted bit cleared
    when the border was empty. *)
Definition put_dirty (l : leaf) : N :=
  let v := set_inserting_deleting (v_lock (lf_ver l)) true in
  if (leaf_cnk l =? 0)%N then set_deleted v false else v.

Lemma split_moves_id_ver n : forall i old ns,
  lf_id (fst (split_moves n i old ns)) = lf_id old /\
  lf_ver (fst (split_moves n i old ns)) = lf_ver old.
Proof.
  induction n as [|n IH]; intros i old ns; cbn [split_moves]; [split; reflexivity|].
  cbv zeta.
  match goal with |- context [split_moves n ?a ?b ?c] => destruct (IH a b c) as [H1 H2] end.
  rewrite H1, H2. split; reflexivity.
Qed.

(** No hypothesis on [l] or [k]: the ids, the version words and the report of a put do not
    depend on where the entry goes. *)
Lemma leaf_put_words l k lv nid :
  if (leaf_cnk l =? 15)%N then
    exists L sep R,
      leaf_put l k lv nid =
        (ISplit (BLeaf L) sep (BLeaf R), {| pi_modified := lf_id l; pi_created := Some nid |}) /\
      lf_id L = lf_id l /\ lf_id R = nid /\
      lf_ver L = unlock (set_root (set_splitting (put_dirty l) true) false) /\ lf_ver R = lf_ver L
  else
    exists l',
      leaf_put l k lv nid = (IOne (BLeaf l'), {| pi_modified := lf_id l; pi_created := None |}) /\
      lf_id l' = lf_id l /\ lf_ver l' = unlock (put_dirty l).
Proof.
  unfold leaf_put, put_dirty. cbv zeta.
  set (v1 := if (leaf_cnk l =? 0)%N then _ else _).
  destruct (leaf_cnk l =? 15)%N.
  - set (v2 := set_splitting v1 true).
    pose proof (split_moves_id_ver 7 0 (leaf_with l v2 (lf_perm l) (lf_slots l)) fresh_slots) as [M1 M2].
    destruct (split_moves 7 0 (leaf_with l v2 (lf_perm l) (lf_slots l)) fresh_slots) as [old ns].
    cbn [fst leaf_with lf_id lf_ver] in M1, M2.
    destruct (bsplit_left _ _ _ _); eexists _, _, _; (split; [reflexivity|]);
      cbn [leaf_with leaf_insert_at lf_id lf_ver]; rewrite M1, M2; repeat split; reflexivity.
  - eexists. split; [reflexivity|]. split; reflexivity.
Qed.

(** ** sanity: the hypotheses are satisfiable on a full leaf, and the split
    theorem's conclusion is what the executable model computes *)
Module LeafExample.
  Local Open Scope N_scope.
  Definition kk (i : N) : ktuple := {| ks := 1000 * i; kl := 8 |}.
  Definition vv (i : N) : lvw := LValue {| v_id := i; v_bytes := []; v_align := 8; v_inline := false |}.
  Definition put1 (l : leaf) (i : N) : leaf :=
    match fst (leaf_put l (kk i) (vv i) 99) with IOne (BLeaf l') => l' | _ => l end.
  Definition l0 : leaf := single_leaf 1 (kk 8) (vv 8).
  Definition l15 : leaf :=
    fold_left put1 [3; 12; 1; 15; 7; 10; 2; 14; 5; 9; 4; 13; 6; 11] l0.

  Example l15_full : leaf_cnk l15 = 15 /\ map ks (leaf_keys l15) = map (fun i => 1000 * N.of_nat i) (seq 1 15).
  Proof. vm_compute. split; reflexivity. Qed.

  Example l15_WF : WF_leaf l15.
  Proof.
    split; [apply perm_validb_sound; vm_compute; reflexivity|].
    split; [vm_compute; reflexivity|]. split.
    - let e := eval vm_compute in (leaf_entries l15) in change (leaf_entries l15) with e.
      repeat (apply Forall_cons; [split; [vm_compute; reflexivity|cbn [sl_lv sl_key kl]; lia]|]).
      apply Forall_nil.
    - let e := eval vm_compute in (leaf_keys l15) in change (leaf_keys l15) with e.
      repeat constructor.
  Qed.

  Example l15_split_applies :
    exists L sep R info,
      leaf_put l15 {| ks := 4500; kl := 9 |} LLink 77 = (ISplit (BLeaf L) sep (BLeaf R), info) /\
      split_post l15 {| ks := 4500; kl := 9 |} LLink 77 L sep R info.
  Proof.
    apply leaf_put_split.
    - exact l15_WF.
    - vm_compute. reflexivity.
    - vm_compute. reflexivity.
    - let e := eval vm_compute in (leaf_keys l15) in change (leaf_keys l15) with e.
      cbn [In]. intros H. repeat (destruct H as [H|H]; [discriminate H|]). exact H.
    - split; [vm_compute; reflexivity|reflexivity].
  Qed.

  (* the model's output on that input: the new key is the fifth of the nine entries that stay left *)
  Example l15_split_computed :
    match fst (leaf_put l15 {| ks := 4500; kl := 9 |} LLink 77) with
    | ISplit (BLeaf L) sep (BLeaf R) =>
      (map ks (leaf_keys L), ks sep, map ks (leaf_keys R), lf_id R)
    | _ => ([], 0, [], 0)
    end = ([1000; 2000; 3000; 4000; 4500; 5000; 6000; 7000; 8000], 9000,
           [9000; 10000; 11000; 12000; 13000; 14000; 15000], 77).
  Proof. vm_compute. reflexivity. Qed.
End LeafExample.

(** ** axiom audit *)
Print Assumptions leaf_lookup_some.
Print Assumptions leaf_lookup_none.
Print Assumptions leaf_lookup_found.
Print Assumptions leaf_lookup_in.
Print Assumptions leaf_rank_spec.
Print Assumptions leaf_rank_sorted.
Print Assumptions leaf_insert_at_spec.
Print Assumptions leaf_put_nosplit.
Print Assumptions leaf_put_split.
Print Assumptions leaf_delete_spec.
Print Assumptions leaf_overwrite_spec.
Print Assumptions single_leaf_spec.
Print Assumptions empty_tree_leaf_spec.
