(** * BorderUniqueProofs: "exactly one winner" for racing unique inserts, resp.
    racing removes, of ONE key on the border node of BorderDefs.v (what
    property C13 needs for concurrent create_storage / delete_storage of one
    name: they are a unique insert, resp. a remove, of the name in the
    directory tree).

    The history of completed operations (thread, operation, result, in return
    order) is not ghost state: [bhist] computes it by replaying the trace.
    All interleavings, any number of threads, any number of operations per
    thread.  Built on the invariant [Inv] of BorderProofs.v. *)
From Coq Require Import NArith List Lia.
From Yk Require Import BorderDefs BorderProofs.
Import ListNotations.
Local Open Scope N_scope.

(** ** The history of a trace: completed operations in return order *)

Definition hist_entry : Type := (nat * bop * bres)%type.

Definition ret_of (s : bstate) (e : bev) : list hist_entry :=
  match e with
  | BReturn t => match t_op (b_thr s t), t_pc (b_thr s t) with
                 | Some o, PDone r => [(t, o, r)]
                 | _, _ => []
                 end
  | _ => []
  end.

Fixpoint bhist (s : bstate) (tr : list bev) : list hist_entry :=
  match tr with
  | [] => []
  | e :: tr' => match bstep true s e with
                | Some s' => ret_of s e ++ bhist s' tr'
                | None => []
                end
  end.

Definition count_if {A} (f : A -> bool) (l : list A) : nat := length (filter f l).

Lemma count_if_app {A} (f : A -> bool) l1 l2 :
  count_if f (l1 ++ l2) = (count_if f l1 + count_if f l2)%nat.
Proof. unfold count_if. rewrite filter_app, app_length. reflexivity. Qed.

Definition uput_ok (k : N) (x : hist_entry) : bool :=
  match x with (_, OpUput k' _, ROk) => k' =? k | _ => false end.
Definition rem_ok (k : N) (x : hist_entry) : bool :=
  match x with (_, OpRem k', ROk) => k' =? k | _ => false end.

Definition uput_ok_returns (k : N) (s0 : bstate) (tr : list bev) : nat := count_if (uput_ok k) (bhist s0 tr).
Definition rem_ok_returns (k : N) (s0 : bstate) (tr : list bev) : nat := count_if (rem_ok k) (bhist s0 tr).

Lemma brun_hist_inv (J : bstate -> list hist_entry -> Prop) (okev : bev -> Prop) :
  (forall s h e s', Inv s -> J s h -> okev e -> bstep true s e = Some s' -> J s' (h ++ ret_of s e)) ->
  forall tr s h s', Inv s -> J s h -> (forall e, In e tr -> okev e) -> brun true s tr = Some s' ->
                    J s' (h ++ bhist s tr).
Proof.
  intros Hstep. induction tr as [|e tr IH]; intros s h s' HI HJ Hev; cbn [brun bhist].
  - intros H; injection H as <-. rewrite app_nil_r. exact HJ.
  - destruct (bstep true s e) as [s1|] eqn:E; [|discriminate].
    intros Hrun. rewrite app_assoc. apply IH; auto.
    + eapply inv_step; eauto.
    + apply (Hstep s h e s1); auto. apply Hev. cbn; auto.
    + intros e' He'. apply Hev. cbn; auto.
Qed.

Definition bres_eqb (a b : bres) : bool :=
  match a, b with
  | ROk, ROk | RNotExist, RNotExist | RNotFound, RNotFound | RUnique, RUnique => true
  | ROkVal v, ROkVal w => v =? w
  | _, _ => false
  end.

Lemma bres_eqb_eq a b : bres_eqb a b = true -> a = b.
Proof. destruct a, b; cbn; try discriminate; auto. intros H. apply N.eqb_eq in H. congruence. Qed.

(** ** The counting core: past winners [n] plus current winners [W] = the flag (0 or 1) *)

Definition Core (b : bool) (n : nat) (W : nat -> Prop) : Prop :=
  exists w : option nat, (forall t, W t <-> w = Some t) /\
    (n + match w with Some _ => 1 | None => 0 end = if b then 1 else 0)%nat.

Lemma core_same b n W W' : Core b n W -> (forall t, W' t <-> W t) -> Core b n W'.
Proof. intros (w & Hw & E) H. exists w. split; [|exact E]. intros t. rewrite H. apply Hw. Qed.

Lemma core_lin n W W' t : Core false n W -> (forall t', W' t' <-> W t' \/ t' = t) -> Core true n W'.
Proof.
  intros (w & Hw & E) H. destruct w as [t0|]; [lia|]. exists (Some t). split; [|lia].
  intros t'. rewrite H, Hw. split; [intros [X| ->]; [discriminate X|reflexivity]|intros X; right; congruence].
Qed.

Lemma core_ret b n W W' t :
  Core b n W -> W t -> (forall t', W' t' <-> W t' /\ t' <> t) -> Core b (S n) W'.
Proof.
  intros (w & Hw & E) Ht H. apply Hw in Ht. subst w. exists None. split; [|rewrite <- E; lia].
  intros t'. rewrite H, Hw. split; [intros [X Y]; congruence|discriminate].
Qed.

Lemma core_le1 b n W : Core b n W -> (n <= 1)%nat.
Proof. intros (w & _ & E). destruct b; lia. Qed.

Lemma core_unique b n W t1 t2 : Core b n W -> W t1 -> W t2 -> t1 = t2.
Proof. intros (w & Hw & _) H1 H2. apply Hw in H1, H2. congruence. Qed.

Lemma core_winner_zero b n W t : Core b n W -> W t -> n = 0%nat /\ b = true.
Proof. intros (w & Hw & E) H. apply Hw in H. subst w. destruct b; [split; [lia|reflexivity]|lia]. Qed.

Lemma core_flag b n W : Core b n W -> (b = true <-> n = 1%nat \/ exists t, W t).
Proof.
  intros (w & Hw & E). destruct w as [t|].
  - destruct b; [|lia]. split; [intros _; right; exists t; apply Hw; reflexivity|reflexivity].
  - split; [intros ->; left; lia|]. intros [->|[t Ht]]; [destruct b; [reflexivity|discriminate E]|].
    apply Hw in Ht. discriminate Ht.
Qed.

Lemma core_cases b n W :
  Core b n W -> b = true ->
  (n = 1%nat /\ forall t, ~ W t) \/ (n = 0%nat /\ exists t, W t /\ forall t', W t' -> t' = t).
Proof.
  intros (w & Hw & E) ->. destruct w as [t|]; [right|left]; (split; [lia|]).
  - exists t. split; [apply Hw; reflexivity|]. intros t' Ht'. apply Hw in Ht'. congruence.
  - intros t Ht. apply Hw in Ht. discriminate Ht.
Qed.

Lemma count_if_two {A} (f : A -> bool) l1 x l2 y l3 :
  f x = true -> f y = true -> (2 <= count_if f (l1 ++ x :: l2 ++ y :: l3))%nat.
Proof.
  intros Hx Hy. rewrite count_if_app. change (x :: l2 ++ y :: l3) with ([x] ++ l2 ++ [y] ++ l3).
  rewrite !count_if_app. unfold count_if at 2 4. cbn [filter]. rewrite Hx, Hy. cbn [length]. lia.
Qed.

Definition quiet (k : N) (s : bstate) : Prop :=
  forall t o, t_op (b_thr s t) = Some o -> op_key o <> k.

Lemma quiet_binit k : quiet k binit.
Proof. intros t o. cbn. discriminate. Qed.

(** ** One race, two instances

    Operations of one kind ([mine]: the unique inserts of [k], resp. the
    removes of [k]) race from a state in which [flag (bm s k)] is false (key
    unbound, resp. bound); besides them only [allowed] operations touch [k].
    The linearization step of the first of them sets the flag for good; from
    that step to its return that thread is at a [decided] program counter
    ([pc_next_decided]) and is the winner; every later one sees the flag,
    either on its ghost list or under the lock, and gives up with [rother].
    The successful writers of the other kind pass through decided program
    counters too and also arrive at [PDone ROk]: [bad] marks the decided ones
    that a racing operation never reaches ([PUnlockPlain ROk] and [PShrink _]
    after an overwrite or a remove, resp. [PUnlockIns] after an insert), and a
    thread has [won] at the others.  [val] relates the winner to the binding
    of [k]. *)
Section OneWinner.
  Variable k : N.
  Variables (mine : bop -> bool) (allowed : bop -> Prop) (bad : bpc -> bool) (flag : option N -> bool).
  Variables (rother : bres) (okh : hist_entry -> bool) (val : bop -> option N -> Prop).

  Definition won (p : bpc) : bool := decided p && negb (bad p).

  Record race : Prop := {
    R_key : forall o, mine o = true -> op_key o = k;
    R_okh : forall t o r, okh (t, o, r) = true <-> mine o = true /\ r = ROk;
    R_start : bad PStable0 = false;
    R_done : bad (PDone ROk) = false;
    R_other : rother <> ROk;
    R_lin : forall s t o x, Inv s -> t_op (b_thr s t) = Some o -> mine o = true ->
            lin_of o (t_pc (b_thr s t)) = Some x -> flag (bm s k) = false /\ flag x = true /\ val o x;
    R_nolin : forall s t o, Inv s -> t_op (b_thr s t) = Some o -> op_key o = k -> allowed o ->
              mine o = false -> lin_of o (t_pc (b_thr s t)) = None;
    R_nobad : forall s t o p', Inv s -> t_op (b_thr s t) = Some o -> mine o = true ->
              pc_next o (t_pc (b_thr s t)) p' -> bad p' = false;
    R_res : forall o seen r, mine o = true -> res_ok o seen r ->
            (r = ROk \/ r = rother) /\ exists x, In x seen /\ flag x = true
  }.

  Hypothesis HR : race.

  Lemma won_decided p : won p = true -> decided p = true.
  Proof. intros W. apply andb_prop in W. apply W. Qed.

  Lemma won_done : won (PDone ROk) = true.
  Proof. unfold won. rewrite (R_done HR). reflexivity. Qed.

  Definition winner (s : bstate) (t : nat) : Prop :=
    exists o, t_op (b_thr s t) = Some o /\ mine o = true /\ won (t_pc (b_thr s t)) = true.

  Definition thr_ok (m : option N) (oo : option bop) (p : bpc) : Prop :=
    forall o, oo = Some o ->
      (op_key o = k -> allowed o) /\
      (mine o = true -> bad p = false /\ (won p = true -> val o m)).

  Record J (s : bstate) (h : list hist_entry) : Prop := {
    J_thr : forall t, thr_ok (bm s k) (t_op (b_thr s t)) (t_pc (b_thr s t));
    J_seen : forall t o x, t_op (b_thr s t) = Some o -> op_key o = k ->
                           In x (t_seen (b_thr s t)) -> flag x = true -> flag (bm s k) = true;
    J_hist : forall t o r, In (t, o, r) h -> mine o = true ->
               flag (bm s k) = true /\ (r = ROk \/ r = rother) /\ (r = ROk -> val o (bm s k));
    J_core : Core (flag (bm s k)) (count_if okh h) (winner s)
  }.

  (** ghost lists: once set, the flag stays set is all that is needed *)
  Lemma seen_step s e s' :
    bstep true s e = Some s' ->
    (flag (bm s k) = true -> flag (bm s' k) = true) ->
    (forall t o x, t_op (b_thr s t) = Some o -> op_key o = k ->
                   In x (t_seen (b_thr s t)) -> flag x = true -> flag (bm s k) = true) ->
    forall t o x, t_op (b_thr s' t) = Some o -> op_key o = k ->
                  In x (t_seen (b_thr s' t)) -> flag x = true -> flag (bm s' k) = true.
  Proof.
    intros H Hmono Hold t o x Ho Hk Hin Hx.
    destruct (step_seen _ _ _ _ _ _ _ H Ho Hin) as [E|[Ho1 Hin1]].
    - rewrite <- Hk, <- E. exact Hx.
    - apply Hmono. eapply Hold; eauto.
  Qed.

  (** An event leaves the threads other than its own where they are. *)
  Lemma winner_other s e s' t' :
    bstep true s e = Some s' -> t' <> ev_thread e -> (winner s' t' <-> winner s t').
  Proof. intros H Hne. unfold winner. destruct (bstep_other _ _ _ _ t' H Hne) as [-> ->]. reflexivity. Qed.

  Lemma thr_ok_other s e s' t' m :
    bstep true s e = Some s' -> t' <> ev_thread e ->
    thr_ok m (t_op (b_thr s t')) (t_pc (b_thr s t')) -> thr_ok m (t_op (b_thr s' t')) (t_pc (b_thr s' t')).
  Proof. intros H Hne. destruct (bstep_other _ _ _ _ t' H Hne) as [-> ->]. auto. Qed.

  (** a racing thread is a winner from its linearization step on *)
  Lemma won_next s h t o p' :
    Inv s -> J s h -> t_op (b_thr s t) = Some o -> mine o = true -> pc_next o (t_pc (b_thr s t)) p' ->
    won p' = won (t_pc (b_thr s t)) || is_some (lin_of o (t_pc (b_thr s t))).
  Proof.
    intros HI HJ Ho Hm Hn. destruct (proj2 (J_thr s h HJ t o Ho) Hm) as [Hb _]. unfold won.
    rewrite (R_nobad HR s t o _ HI Ho Hm Hn), Hb, !Bool.andb_true_r. apply pc_next_decided, Hn.
  Qed.

  (** An event that leaves the binding of [k] alone, and its own thread a
      winner or not as it was, keeps [J] with the history as it is. *)
  Lemma J_keep s h e s' :
    J s h -> bstep true s e = Some s' -> bm s' k = bm s k ->
    thr_ok (bm s k) (t_op (b_thr s' (ev_thread e))) (t_pc (b_thr s' (ev_thread e))) ->
    (winner s' (ev_thread e) <-> winner s (ev_thread e)) -> J s' h.
  Proof.
    intros [HT HS HH HC] H Ebm HT' Hw. constructor.
    - intros t. rewrite Ebm. destruct (Nat.eq_dec t (ev_thread e)) as [->|Hne]; [exact HT'|].
      apply (thr_ok_other s e s' t _ H Hne), HT.
    - apply (seen_step s e s' H); [rewrite Ebm; auto|exact HS].
    - rewrite Ebm. exact HH.
    - rewrite Ebm. apply (core_same _ _ _ _ HC). intros t.
      destruct (Nat.eq_dec t (ev_thread e)) as [->|Hne]; [exact Hw|apply (winner_other s e s' t H Hne)].
  Qed.

  Lemma J_invoke s h t o s' :
    J s h -> (op_key o = k -> allowed o) -> bstep true s (BInvoke t o) = Some s' -> J s' h.
  Proof.
    intros HJ Hal H. destruct (bstep_invoke _ _ _ _ _ H) as (Hidle & _ & Es).
    assert (Et : b_thr s' t = {| t_op := Some o; t_pc := PStable0; t_seen := [bm s (op_key o)] |})
      by (rewrite Es; apply updf_same).
    apply (J_keep s h _ s' HJ H); cbn [ev_thread]; [rewrite Es; reflexivity| |].
    - rewrite Et. cbn [t_op t_pc]. intros o' E. injection E as <-. split; [exact Hal|].
      intros _. split; [apply (R_start HR)|]. intros W. apply won_decided in W. discriminate W.
    - unfold winner. rewrite Et, Hidle. cbn [t_pc].
      split; intros (o' & _ & _ & W); apply won_decided in W; discriminate W.
  Qed.

  (** a step that is not the linearization step of a racing operation *)
  Lemma J_step_same s h t o s' :
    Inv s -> J s h -> bstep true s (BStep t) = Some s' -> t_op (b_thr s t) = Some o -> step_of s t o s' ->
    bm s' k = bm s k -> (mine o = true -> won (t_pc (b_thr s' t)) = won (t_pc (b_thr s t))) -> J s' h.
  Proof.
    intros HI HJ H Ho (Hn & _ & _ & Hthr) Ebm Hkeep.
    assert (Eop : t_op (b_thr s' t) = Some o) by (rewrite (proj1 (Hthr t)); exact Ho).
    apply (J_keep s h _ s' HJ H Ebm); cbn [ev_thread].
    - rewrite Eop. intros o' E. injection E as <-. destruct (J_thr s h HJ t o Ho) as [A B].
      split; [exact A|]. intros Hm.
      split; [apply (R_nobad HR s t o _ HI Ho Hm Hn)|]. rewrite (Hkeep Hm). apply (B Hm).
    - unfold winner. rewrite Eop, Ho.
      split; intros (o' & Ho1 & Hm' & W); exists o'; injection Ho1 as <-;
        (split; [reflexivity|]); (split; [exact Hm'|]);
        [rewrite <- (Hkeep Hm')|rewrite (Hkeep Hm')]; exact W.
  Qed.

  (** the linearization step of a racing operation: the flag was not set, so
      there was no winner; now it is set and this thread is the winner *)
  Lemma J_step_lin s h t o x s' :
    Inv s -> J s h -> bstep true s (BStep t) = Some s' -> t_op (b_thr s t) = Some o -> step_of s t o s' ->
    mine o = true -> lin_of o (t_pc (b_thr s t)) = Some x -> J s' h.
  Proof.
    intros HI HJ H Ho (Hn & Hbm & _ & Hthr) Hm Hx. pose proof HJ as [HT HS HH HC].
    assert (Eop : t_op (b_thr s' t) = Some o) by (rewrite (proj1 (Hthr t)); exact Ho).
    destruct (R_lin HR s t o x HI Ho Hm Hx) as (Hb & Hfx & Hvx).
    assert (Ek : bm s' k = x).
    { rewrite Hbm, Hx, <- (R_key HR o Hm). apply updm_same. }
    rewrite Hb in HC.
    assert (Hnow : forall t', ~ winner s t').
    { intros t' Ht'. destruct (core_winner_zero _ _ _ t' HC Ht') as [_ X]. discriminate X. }
    constructor.
    - intros t'. rewrite Ek. destruct (Nat.eq_dec t' t) as [->|Hne].
      + rewrite Eop. intros o' E. injection E as <-. split; [apply (HT t o Ho)|]. intros _.
        split; [apply (R_nobad HR s t o _ HI Ho Hm Hn)|intros _; exact Hvx].
      + apply (thr_ok_other s _ s' t' _ H Hne). intros o' Ho1. destruct (HT t' o' Ho1) as [A B].
        split; [exact A|]. intros Hm'. split; [apply (B Hm')|]. intros W.
        destruct (Hnow t'). exists o'. auto.
    - intros. rewrite Ek. exact Hfx.
    - intros t' o' r Hin Hm'. destruct (HH t' o' r Hin Hm') as (F & _). congruence.
    - rewrite Ek, Hfx. apply (core_lin _ (winner s) _ t HC). intros t'.
      destruct (Nat.eq_dec t' t) as [->|Hne].
      + split; [auto|]. intros _. exists o. split; [exact Eop|]. split; [exact Hm|].
        rewrite (won_next s h t o _ HI HJ Ho Hm Hn), Hx. apply Bool.orb_true_r.
      + rewrite (winner_other s _ s' t' H Hne). intuition.
  Qed.

  Lemma J_return s h t s' :
    Inv s -> J s h -> bstep true s (BReturn t) = Some s' -> J s' (h ++ ret_of s (BReturn t)).
  Proof.
    intros HI [HT HS HH HC] H.
    pose proof (fun t' => winner_other s _ s' t' H) as Wo. cbn [ev_thread] in Wo.
    destruct (bstep_return _ _ _ _ H) as ((r & Hpc) & Es).
    assert (Em : bm s' = bm s) by (rewrite Es; reflexivity).
    assert (Et : b_thr s' t = idle_thread) by (rewrite Es; apply updf_same).
    destruct (inv_op_of_pc s t HI) as [o Ho]; [rewrite Hpc; discriminate|].
    pose proof (inv_done_res s t o _ HI Ho Hpc) as Hres.
    destruct (HT t o Ho) as [_ Hmine].
    assert (Hnot : ~ winner s' t).
    { intros (o' & E & _). rewrite Et in E. discriminate E. }
    cbn [ret_of]. rewrite Ho, Hpc. constructor.
    - intros t'. rewrite Em.
      destruct (Nat.eq_dec t' t) as [->|Hne]; [|apply (thr_ok_other s _ s' t' _ H Hne), HT].
      rewrite Et. intros o' E. discriminate E.
    - apply (seen_step s _ s' H); [rewrite Em; auto|exact HS].
    - intros t' o' r' Hin Hm'. rewrite Em.
      apply in_app_or in Hin as [Hin|[E|[]]]; [apply (HH _ _ _ Hin Hm')|].
      injection E as -> -> ->. destruct (R_res HR o' _ r' Hm' Hres) as [Hr (x & Hx & Hfx)].
      split; [apply (HS t' o' x Ho (R_key HR _ Hm') Hx Hfx)|]. split; [exact Hr|].
      intros ->. apply (proj2 (Hmine Hm')). rewrite Hpc. apply won_done.
    - rewrite Em, count_if_app. unfold count_if at 2. cbn [filter].
      destruct (okh (t, o, r)) eqn:Hu; cbn [length].
      + (* the winner returns *)
        apply (R_okh HR) in Hu as [Hm ->]. rewrite Nat.add_1_r.
        apply (core_ret _ _ (winner s) _ t); [exact HC| |].
        * exists o. rewrite Hpc. split; [exact Ho|]. split; [exact Hm|apply won_done].
        * intros t'. destruct (Nat.eq_dec t' t) as [->|Hne].
          -- split; [intros Hx; contradiction|intros [_ Hx]; contradiction].
          -- rewrite (Wo t' Hne). intuition.
      + (* another thread returns: it was no winner, or [okh] would count its [ROk] *)
        rewrite Nat.add_0_r. eapply core_same; [exact HC|]. intros t'.
        destruct (Nat.eq_dec t' t) as [->|Hne]; [|apply Wo; exact Hne].
        split; [intros Hx; contradiction|]. intros (o' & Ho1 & Hm' & W). exfalso.
        assert (o' = o) by congruence. subst o'. rewrite Hpc in W.
        apply won_decided in W. destruct r; try discriminate W.
        assert (okh (t, o, ROk) = true) by (apply (R_okh HR); auto). congruence.
  Qed.

  Lemma J_step s h e s' :
    Inv s -> J s h -> (forall t o, e = BInvoke t o -> op_key o = k -> allowed o) ->
    bstep true s e = Some s' -> J s' (h ++ ret_of s e).
  Proof.
    intros HI HJ Hev H. destruct e as [t o|t|t]; [| |apply J_return; assumption]; cbn [ret_of]; rewrite app_nil_r.
    - apply (J_invoke s h t o s' HJ (Hev t o eq_refl) H).
    - destruct (bstep_step _ _ _ _ H) as (o & Ho & S). pose proof S as (Hn & Hbm & _).
      destruct (mine o) eqn:Hm; [destruct (lin_of o (t_pc (b_thr s t))) as [x|] eqn:Hx|].
      + apply (J_step_lin s h t o x s' HI HJ H Ho S Hm Hx).
      + (* any other step of a racing operation *)
        apply (J_step_same s h t o s' HI HJ H Ho S); [rewrite Hbm; reflexivity|]. intros _.
        rewrite (won_next s h t o _ HI HJ Ho Hm Hn), Hx. apply Bool.orb_false_r.
      + (* a step of another operation: on [k] only the [allowed] ones, which do not write *)
        apply (J_step_same s h t o s' HI HJ H Ho S); [|rewrite Hm; discriminate]. rewrite Hbm.
        destruct (N.eq_dec (op_key o) k) as [E|E].
        * rewrite (R_nolin HR s t o HI Ho E (proj1 (J_thr s h HJ t o Ho) E) Hm). reflexivity.
        * destruct (lin_of o _); [apply updm_other; congruence|reflexivity].
  Qed.

  Lemma J_start s0 : flag (bm s0 k) = false -> quiet k s0 -> J s0 [].
  Proof.
    intros Hn Hq. constructor.
    - intros t o Ho. split; [intros Hk; exfalso; apply (Hq t o Ho Hk)|].
      intros Hm. exfalso. apply (Hq t o Ho), (R_key HR), Hm.
    - intros t o x Ho Hk. exfalso. apply (Hq t o Ho Hk).
    - intros t o r [].
    - rewrite Hn. exists None. split; [|reflexivity]. intros t. split; [|discriminate].
      intros (o & Ho & Hm & _). exfalso. apply (Hq t o Ho), (R_key HR), Hm.
  Qed.

  Theorem one_winner s0 tr s :
    Inv s0 -> flag (bm s0 k) = false -> quiet k s0 -> brun true s0 tr = Some s ->
    (forall t o, In (BInvoke t o) tr -> op_key o = k -> allowed o) ->
    let h := bhist s0 tr in
    let n := count_if okh h in
    Core (flag (bm s k)) n (winner s) /\
    (forall l1 x l2 y l3, h = l1 ++ x :: l2 ++ y :: l3 -> okh x = true -> okh y = true -> False) /\
    (forall t o r, In (t, o, r) h -> mine o = true ->
       flag (bm s k) = true /\ (r = ROk \/ r = rother) /\ (r = ROk -> val o (bm s k))) /\
    (forall t o, t_op (b_thr s t) = Some o -> mine o = true -> won (t_pc (b_thr s t)) = true ->
       val o (bm s k)) /\
    (forall t o, t_op (b_thr s t) = Some o -> mine o = true -> t_pc (b_thr s t) = PDone rother ->
       flag (bm s k) = true /\ (n = 1%nat \/ exists t', t' <> t /\ winner s t')).
  Proof.
    intros HI0 Hn Hq Hrun Honly h n.
    assert (HJ : J s h).
    { apply (brun_hist_inv J (fun e => forall t o, e = BInvoke t o -> op_key o = k -> allowed o))
        with (tr := tr) (s := s0) (h := []) (s' := s); auto.
      - intros s1 h1 e s2 HI1 HJ Hev Hst. eapply J_step; eauto.
      - apply J_start; auto.
      - intros e He t o ->. apply (Honly t). exact He. }
    pose proof (inv_run tr s0 s HI0 Hrun) as HI. destruct HJ as [HT HS HH HC]. fold n in HC.
    split; [exact HC|]. split.
    { intros l1 x l2 y l3 E Hx Hy. pose proof (count_if_two okh l1 x l2 y l3 Hx Hy) as H2.
      rewrite <- E in H2. pose proof (core_le1 _ _ _ HC) as H1. fold n in H2. lia. }
    split; [exact HH|]. split.
    { intros t o Ho Hm W. apply (HT t o Ho); assumption. }
    intros t o Ho Hm Hpc. pose proof (inv_done_res s t o _ HI Ho Hpc) as Hres.
    destruct (R_res HR o _ _ Hm Hres) as [_ (x & Hx & Hfx)].
    pose proof (HS t o x Ho (R_key HR _ Hm) Hx Hfx) as Hb. split; [exact Hb|].
    apply (core_flag _ _ _ HC) in Hb as [Hb|[t' Ht']]; [left; exact Hb|right].
    exists t'. split; [|exact Ht']. intros ->. destruct Ht' as (o' & _ & _ & W). rewrite Hpc in W.
    apply won_decided in W. apply (R_other HR). destruct rother; try discriminate W. reflexivity.
  Qed.
End OneWinner.

(** ** (U) racing unique inserts of one key *)

Definition ug (o : bop) : Prop := match o with OpUput _ _ | OpGet _ => True | _ => False end.
Definition is_uput (k : N) (o : bop) : bool := match o with OpUput k' _ => k' =? k | _ => false end.
Definition uput_val (o : bop) (m : option N) : Prop := match o with OpUput _ v => m = Some v | _ => True end.

Lemma is_uput_true k o : is_uput k o = true -> exists v, o = OpUput k v.
Proof. destruct o; cbn [is_uput]; try discriminate. intros E. apply N.eqb_eq in E. subst. eauto. Qed.

Definition uwon (p : bpc) : bool := match p with PUnlockIns | PDone ROk => true | _ => false end.

Definition uwinner (k : N) (s : bstate) (t : nat) : Prop :=
  exists v, t_op (b_thr s t) = Some (OpUput k v) /\ uwon (t_pc (b_thr s t)) = true.

Definition ubad (p : bpc) : bool := match p with PUnlockPlain ROk | PShrink _ => true | _ => false end.

Lemma uwon_won p : won ubad p = uwon p.
Proof. destruct p; try reflexivity; destruct r; reflexivity. Qed.

Lemma ubad_decided p : decided p = false -> ubad p = false.
Proof. destruct p; try reflexivity; try discriminate. destruct r; try reflexivity; discriminate. Qed.

Lemma uput_race k : race k (is_uput k) ug ubad is_some RUnique (uput_ok k) uput_val.
Proof.
  constructor; try reflexivity; try discriminate.
  - (* R_key *) intros o H. apply is_uput_true in H as [v ->]. reflexivity.
  - (* R_okh *) intros t o r. destruct o, r; cbn [uput_ok is_uput]; intuition discriminate.
  - (* R_lin *)
    intros s t o x HI Ho Hm Hx. apply is_uput_true in Hm as [v ->].
    destruct (t_pc (b_thr s t)) eqn:Hpc; cbn [lin_of] in Hx; try discriminate Hx.
    + (* PStorePerm *)
      pose proof (inv_storeperm_unbound s t _ _ _ HI Ho Hpc) as Hnone. cbn [op_key] in Hnone.
      rewrite Hnone. injection Hx as <-. repeat split.
    + (* PClear *) destruct (inv_clear_bound s t _ _ _ HI Ho Hpc) as [[] _].
  - (* R_nolin *)
    intros s t o HI Ho E Hug Hm. destruct (t_pc (b_thr s t)) eqn:Hpc; cbn [lin_of]; try reflexivity.
    + (* PStorePerm *)
      destruct o; cbn [ug] in Hug; try contradiction; try reflexivity.
      cbn [is_uput op_key] in *. apply N.eqb_neq in Hm. contradiction.
    + (* POverwrite *) destruct o; cbn [ug] in Hug; try contradiction; reflexivity.
    + (* PClear *)
      destruct (inv_clear_bound s t o _ _ HI Ho Hpc) as [Hr _].
      destruct o; cbn [ug is_rem] in *; contradiction.
  - (* R_nobad: only from a decided program counter, or by a linearization step, does a thread get
       to a decided one *)
    intros s t o p' HI Ho Hm Hn. apply is_uput_true in Hm as [v ->].
    destruct (t_pc (b_thr s t)) eqn:Hpc; cbn [pc_next] in Hn; try contradiction;
      try (apply ubad_decided; exact Hn).
    + (* PStorePerm *) destruct Hn as [-> _]. reflexivity.
    + (* PUnlockIns *) subst p'. reflexivity.
    + (* POverwrite *) destruct Hn as [_ Hn]. discriminate Hn.
    + (* PClear *) destruct (inv_clear_bound s t _ _ _ HI Ho Hpc) as [[] _].
    + (* PShrink *) destruct (inv_at_pc s t _ _ HI Ho Hpc) as [[] _].
    + (* PUnlockPlain *) subst p'. reflexivity.
  - (* R_res *)
    intros o seen r Hm Hres. apply is_uput_true in Hm as [v ->].
    destruct r; cbn [res_ok] in Hres; try contradiction.
    + split; [auto|]. exists (Some v). auto.
    + destruct Hres as [w Hw]. split; [auto|]. exists (Some w). auto.
Qed.

Lemma uwinner_iff k s t : uwinner k s t <-> winner (is_uput k) ubad s t.
Proof.
  split.
  - intros (v & Ho & W). exists (OpUput k v). rewrite uwon_won. cbn [is_uput]. rewrite N.eqb_refl. auto.
  - intros (o & Ho & Hm & W). rewrite uwon_won in W. apply is_uput_true in Hm as [v ->]. exists v. auto.
Qed.

Lemma is_uput_refl k v : is_uput k (OpUput k v) = true.
Proof. apply N.eqb_refl. Qed.

(** ** (U): the theorems *)

Definition only_uput_get (k : N) (tr : list bev) : Prop :=
  forall t o, In (BInvoke t o) tr -> op_key o = k -> exists v, o = OpUput k v \/ o = OpGet k.

Lemma only_uput_get_ug k tr : only_uput_get k tr -> forall t o, In (BInvoke t o) tr -> op_key o = k -> ug o.
Proof. intros H t o Hin Hk. destruct (H t o Hin Hk) as [v [-> | ->]]; exact I. Qed.

Theorem uput_one_winner_from s0 tr s k :
  Inv s0 -> bm s0 k = None -> quiet k s0 ->
  brun true s0 tr = Some s -> only_uput_get k tr ->
  let h := bhist s0 tr in
  let n := uput_ok_returns k s0 tr in
  (* (a) at most one success, ever *)
  (n <= 1)%nat /\
  (forall l1 x l2 y l3, h = l1 ++ x :: l2 ++ y :: l3 -> uput_ok k x = true -> uput_ok k y = true -> False) /\
  (forall t1 t2, uwinner k s t1 -> uwinner k s t2 -> t1 = t2) /\
  (forall t, uwinner k s t -> n = 0%nat) /\
  (* the key is bound iff there is a (past or in-flight) winner *)
  (bm s k <> None <-> n = 1%nat \/ exists t, uwinner k s t) /\
  (* (b) once one unique insert has completed, the key is bound and there is exactly one winner *)
  (forall t v r, In (t, OpUput k v, r) h ->
     (r = ROk \/ r = RUnique) /\ bm s k <> None /\
     ((n = 1%nat /\ forall t', ~ uwinner k s t') \/
      (n = 0%nat /\ exists t', uwinner k s t' /\ forall t'', uwinner k s t'' -> t'' = t'))) /\
  (* the binding is the winner's value *)
  (forall t v, In (t, OpUput k v, ROk) h \/
               (t_op (b_thr s t) = Some (OpUput k v) /\ uwon (t_pc (b_thr s t)) = true) ->
               bm s k = Some v) /\
  (* a unique insert about to report RUnique: the key is bound, another insert is the winner *)
  (forall t v, t_op (b_thr s t) = Some (OpUput k v) -> t_pc (b_thr s t) = PDone RUnique ->
     bm s k <> None /\ (n = 1%nat \/ exists t', t' <> t /\ uwinner k s t')).
Proof.
  intros HI0 Hn Hq Hrun Honly h n.
  destruct (one_winner k _ _ _ _ _ _ _ (uput_race k) s0 tr s HI0) as (HC & H2 & HH & HW & HD);
    [rewrite Hn; reflexivity|exact Hq|exact Hrun|exact (only_uput_get_ug k tr Honly)|].
  fold h in HC, H2, HH, HD. change (count_if (uput_ok k) h) with n in HC, HD.
  apply (core_same _ _ _ (uwinner k s)) in HC; [|apply uwinner_iff].
  split; [eapply core_le1; eauto|]. split; [exact H2|].
  split; [intros t1 t2; eapply core_unique; eauto|].
  split; [intros t Ht; apply (core_winner_zero _ _ _ t HC Ht)|].
  split; [rewrite <- is_some_true; apply (core_flag _ _ _ HC)|].
  split.
  { intros t v r Hin. destruct (HH _ _ _ Hin (is_uput_refl k v)) as (Hb & Hr & _).
    split; [exact Hr|]. split; [apply is_some_true; exact Hb|]. apply (core_cases _ _ _ HC Hb). }
  split.
  { intros t v [Hin|[Ho Hw]].
    - apply (HH _ _ _ Hin (is_uput_refl k v)). reflexivity.
    - apply (HW t _ Ho (is_uput_refl k v)). rewrite uwon_won. exact Hw. }
  intros t v Ho Hpc. destruct (HD t _ Ho (is_uput_refl k v) Hpc) as [Hb Hx].
  split; [apply is_some_true; exact Hb|]. destruct Hx as [Hx|(t' & Hne & Ht')]; [auto|right].
  exists t'. split; [exact Hne|apply uwinner_iff; exact Ht'].
Qed.

Theorem uput_exactly_one_winner tr s k :
  brun true binit tr = Some s -> only_uput_get k tr ->
  let h := bhist binit tr in
  let n := uput_ok_returns k binit tr in
  (n <= 1)%nat /\
  (forall l1 x l2 y l3, h = l1 ++ x :: l2 ++ y :: l3 -> uput_ok k x = true -> uput_ok k y = true -> False) /\
  (forall t1 t2, uwinner k s t1 -> uwinner k s t2 -> t1 = t2) /\
  (forall t, uwinner k s t -> n = 0%nat) /\
  (bm s k <> None <-> n = 1%nat \/ exists t, uwinner k s t) /\
  (forall t v r, In (t, OpUput k v, r) h ->
     (r = ROk \/ r = RUnique) /\ bm s k <> None /\
     ((n = 1%nat /\ forall t', ~ uwinner k s t') \/
      (n = 0%nat /\ exists t', uwinner k s t' /\ forall t'', uwinner k s t'' -> t'' = t'))) /\
  (forall t v, In (t, OpUput k v, ROk) h \/
               (t_op (b_thr s t) = Some (OpUput k v) /\ uwon (t_pc (b_thr s t)) = true) ->
               bm s k = Some v) /\
  (forall t v, t_op (b_thr s t) = Some (OpUput k v) -> t_pc (b_thr s t) = PDone RUnique ->
     bm s k <> None /\ (n = 1%nat \/ exists t', t' <> t /\ uwinner k s t')).
Proof.
  intros Hrun Honly. apply uput_one_winner_from; auto.
  - exact inv_init.
  - apply quiet_binit.
Qed.

Theorem uput_at_most_one_ok : forall tr s k,
  brun true binit tr = Some s ->
  (forall t o, In (BInvoke t o) tr -> op_key o = k -> exists v, o = OpUput k v \/ o = OpGet k) ->
  forall t1 t2 v1 v2,
    t_op (b_thr s t1) = Some (OpUput k v1) -> t_pc (b_thr s t1) = PDone ROk ->
    t_op (b_thr s t2) = Some (OpUput k v2) -> t_pc (b_thr s t2) = PDone ROk -> t1 = t2.
Proof.
  intros tr s k Hrun Honly t1 t2 v1 v2 Ho1 Hp1 Ho2 Hp2.
  destruct (uput_exactly_one_winner tr s k Hrun Honly) as (_ & _ & Hu & _).
  apply Hu; [exists v1|exists v2]; split; auto; [rewrite Hp1|rewrite Hp2]; reflexivity.
Qed.

Theorem uput_unique_after_winner s0 tr1 t tr2 s k v :
  Inv s0 -> bm s0 k = None -> quiet k s0 ->
  brun true s0 (tr1 ++ BReturn t :: tr2) = Some s -> only_uput_get k (tr1 ++ BReturn t :: tr2) ->
  exists s1, brun true s0 tr1 = Some s1 /\
    (t_op (b_thr s1 t) = Some (OpUput k v) -> t_pc (b_thr s1 t) = PDone RUnique ->
     bm s1 k <> None /\
     (uput_ok_returns k s0 tr1 = 1%nat \/ exists t', t' <> t /\ uwinner k s1 t')).
Proof.
  intros HI0 Hn Hq Hrun Honly. apply brun_app in Hrun as (s1 & H1 & _). exists s1. split; [exact H1|].
  assert (Honly1 : only_uput_get k tr1).
  { intros t' o Hin. apply (Honly t'). apply in_or_app. auto. }
  destruct (uput_one_winner_from s0 tr1 s1 k HI0 Hn Hq H1 Honly1) as (_ & _ & _ & _ & _ & _ & _ & Hu).
  apply Hu.
Qed.

(** ** (R) racing removes of one key *)

Definition rg (o : bop) : Prop := match o with OpRem _ | OpGet _ => True | _ => False end.
Definition is_remove (k : N) (o : bop) : bool := match o with OpRem k' => k' =? k | _ => false end.

Lemma is_remove_true k o : is_remove k o = true -> o = OpRem k.
Proof. destruct o; cbn [is_remove]; try discriminate. intros E. apply N.eqb_eq in E. congruence. Qed.

Definition rwon (p : bpc) : bool :=
  match p with PShrink _ | PUnlockPlain ROk | PDone ROk => true | _ => false end.

Definition rwinner (k : N) (s : bstate) (t : nat) : Prop :=
  t_op (b_thr s t) = Some (OpRem k) /\ rwon (t_pc (b_thr s t)) = true.

Definition rbad (p : bpc) : bool := match p with PUnlockIns => true | _ => false end.

Lemma rwon_won p : won rbad p = rwon p.
Proof. destruct p; try reflexivity; destruct r; reflexivity. Qed.

Lemma rbad_decided p : decided p = false -> rbad p = false.
Proof. destruct p; try reflexivity; discriminate. Qed.

Lemma rem_race k : race k (is_remove k) rg rbad is_none RNotFound (rem_ok k) (fun _ _ => True).
Proof.
  constructor; try reflexivity; try discriminate.
  - (* R_key *) intros o H. apply is_remove_true in H as ->. reflexivity.
  - (* R_okh *) intros t o r. destruct o, r; cbn [rem_ok is_remove]; intuition discriminate.
  - (* R_lin: a remove linearizes at PClear only *)
    intros s t o x HI Ho Hm Hx. apply is_remove_true in Hm as ->.
    destruct (t_pc (b_thr s t)) eqn:Hpc; cbn [lin_of] in Hx; try discriminate Hx.
    destruct (inv_clear_bound s t _ _ _ HI Ho Hpc) as (_ & _ & Hsome). cbn [op_key] in Hsome.
    rewrite Hsome. injection Hx as <-. repeat split.
  - (* R_nolin *)
    intros s t o HI Ho E Hrg Hm. destruct (t_pc (b_thr s t)) eqn:Hpc; cbn [lin_of]; try reflexivity.
    + (* PStorePerm *) destruct o; cbn [rg] in Hrg; try contradiction; reflexivity.
    + (* POverwrite *) destruct o; cbn [rg] in Hrg; try contradiction; reflexivity.
    + (* PClear *)
      destruct (inv_clear_bound s t o _ _ HI Ho Hpc) as [Hr _].
      destruct o; cbn [is_rem] in Hr; try contradiction.
      cbn [is_remove op_key] in *. apply N.eqb_neq in Hm. contradiction.
  - (* R_nobad *)
    intros s t o p' HI Ho Hm Hn. apply is_remove_true in Hm as ->.
    destruct (t_pc (b_thr s t)) eqn:Hpc; cbn [pc_next] in Hn; try contradiction;
      try (apply rbad_decided; exact Hn).
    + (* PStorePerm *) destruct Hn as [_ Hn]. discriminate Hn.
    + (* PUnlockIns *) subst p'. reflexivity.
    + (* POverwrite *) destruct Hn as [_ Hn]. discriminate Hn.
    + (* PClear *) destruct Hn as [rk ->]. reflexivity.
    + (* PShrink *) subst p'. reflexivity.
    + (* PUnlockPlain *) subst p'. reflexivity.
  - (* R_res *)
    intros o seen r Hm Hres. apply is_remove_true in Hm as ->.
    destruct r; cbn [res_ok] in Hres; try contradiction; (split; [auto|exists None; auto]).
Qed.

Lemma rwinner_iff k s t : rwinner k s t <-> winner (is_remove k) rbad s t.
Proof.
  split.
  - intros (Ho & W). exists (OpRem k). rewrite rwon_won. cbn [is_remove]. rewrite N.eqb_refl. auto.
  - intros (o & Ho & Hm & W). rewrite rwon_won in W. apply is_remove_true in Hm as ->. split; assumption.
Qed.

Lemma is_remove_refl k : is_remove k (OpRem k) = true.
Proof. apply N.eqb_refl. Qed.

(** ** (R): the theorems *)

Definition only_rem_get (k : N) (tr : list bev) : Prop :=
  forall t o, In (BInvoke t o) tr -> op_key o = k -> o = OpRem k \/ o = OpGet k.

Lemma only_rem_get_rg k tr : only_rem_get k tr -> forall t o, In (BInvoke t o) tr -> op_key o = k -> rg o.
Proof. intros H t o Hin Hk. destruct (H t o Hin Hk) as [-> | ->]; exact I. Qed.

Theorem rem_one_winner_from s0 tr s k :
  Inv s0 -> bm s0 k <> None -> quiet k s0 ->
  brun true s0 tr = Some s -> only_rem_get k tr ->
  let h := bhist s0 tr in
  let n := rem_ok_returns k s0 tr in
  (n <= 1)%nat /\
  (forall l1 x l2 y l3, h = l1 ++ x :: l2 ++ y :: l3 -> rem_ok k x = true -> rem_ok k y = true -> False) /\
  (forall t1 t2, rwinner k s t1 -> rwinner k s t2 -> t1 = t2) /\
  (forall t, rwinner k s t -> n = 0%nat) /\
  (bm s k = None <-> n = 1%nat \/ exists t, rwinner k s t) /\
  (forall t r, In (t, OpRem k, r) h ->
     (r = ROk \/ r = RNotFound) /\ bm s k = None /\
     ((n = 1%nat /\ forall t', ~ rwinner k s t') \/
      (n = 0%nat /\ exists t', rwinner k s t' /\ forall t'', rwinner k s t'' -> t'' = t'))) /\
  (forall t, t_op (b_thr s t) = Some (OpRem k) -> t_pc (b_thr s t) = PDone RNotFound ->
     bm s k = None /\ (n = 1%nat \/ exists t', t' <> t /\ rwinner k s t')).
Proof.
  intros HI0 Hn Hq Hrun Honly h n.
  destruct (one_winner k _ _ _ _ _ _ _ (rem_race k) s0 tr s HI0) as (HC & H2 & HH & _ & HD);
    [destruct (bm s0 k); [reflexivity|contradiction]|exact Hq|exact Hrun|exact (only_rem_get_rg k tr Honly)|].
  fold h in HC, H2, HH, HD. change (count_if (rem_ok k) h) with n in HC, HD.
  apply (core_same _ _ _ (rwinner k s)) in HC; [|apply rwinner_iff].
  split; [eapply core_le1; eauto|]. split; [exact H2|].
  split; [intros t1 t2; eapply core_unique; eauto|].
  split; [intros t Ht; apply (core_winner_zero _ _ _ t HC Ht)|].
  split; [rewrite <- is_none_true; apply (core_flag _ _ _ HC)|].
  split.
  { intros t r Hin. destruct (HH _ _ _ Hin (is_remove_refl k)) as (Hb & Hr & _).
    split; [exact Hr|]. split; [apply is_none_true; exact Hb|]. apply (core_cases _ _ _ HC Hb). }
  intros t Ho Hpc. destruct (HD t _ Ho (is_remove_refl k) Hpc) as [Hb Hx].
  split; [apply is_none_true; exact Hb|]. destruct Hx as [Hx|(t' & Hne & Ht')]; [auto|right].
  exists t'. split; [exact Hne|apply rwinner_iff; exact Ht'].
Qed.

Theorem rem_exactly_one_winner tr0 s0 tr1 s k :
  brun true binit tr0 = Some s0 -> bm s0 k <> None -> quiet k s0 ->
  brun true s0 tr1 = Some s -> only_rem_get k tr1 ->
  let h := bhist s0 tr1 in
  let n := rem_ok_returns k s0 tr1 in
  (n <= 1)%nat /\
  (forall l1 x l2 y l3, h = l1 ++ x :: l2 ++ y :: l3 -> rem_ok k x = true -> rem_ok k y = true -> False) /\
  (forall t1 t2, rwinner k s t1 -> rwinner k s t2 -> t1 = t2) /\
  (forall t, rwinner k s t -> n = 0%nat) /\
  (bm s k = None <-> n = 1%nat \/ exists t, rwinner k s t) /\
  (forall t r, In (t, OpRem k, r) h ->
     (r = ROk \/ r = RNotFound) /\ bm s k = None /\
     ((n = 1%nat /\ forall t', ~ rwinner k s t') \/
      (n = 0%nat /\ exists t', rwinner k s t' /\ forall t'', rwinner k s t'' -> t'' = t'))) /\
  (forall t, t_op (b_thr s t) = Some (OpRem k) -> t_pc (b_thr s t) = PDone RNotFound ->
     bm s k = None /\ (n = 1%nat \/ exists t', t' <> t /\ rwinner k s t')).
Proof.
  intros Hrun0. apply rem_one_winner_from. eapply inv_reachable; eauto.
Qed.

Theorem rem_at_most_one_ok tr0 s0 tr1 s k :
  brun true binit tr0 = Some s0 -> bm s0 k <> None -> quiet k s0 ->
  brun true s0 tr1 = Some s -> only_rem_get k tr1 ->
  forall t1 t2,
    t_op (b_thr s t1) = Some (OpRem k) -> t_pc (b_thr s t1) = PDone ROk ->
    t_op (b_thr s t2) = Some (OpRem k) -> t_pc (b_thr s t2) = PDone ROk -> t1 = t2.
Proof.
  intros H0 Hb Hq H1 Honly t1 t2 Ho1 Hp1 Ho2 Hp2.
  destruct (rem_exactly_one_winner tr0 s0 tr1 s k H0 Hb Hq H1 Honly) as (_ & _ & Hu & _).
  apply Hu; split; auto; [rewrite Hp1|rewrite Hp2]; reflexivity.
Qed.

Theorem rem_notfound_after_winner s0 tr1 t tr2 s k :
  Inv s0 -> bm s0 k <> None -> quiet k s0 ->
  brun true s0 (tr1 ++ BReturn t :: tr2) = Some s -> only_rem_get k (tr1 ++ BReturn t :: tr2) ->
  exists s1, brun true s0 tr1 = Some s1 /\
    (t_op (b_thr s1 t) = Some (OpRem k) -> t_pc (b_thr s1 t) = PDone RNotFound ->
     bm s1 k = None /\
     (rem_ok_returns k s0 tr1 = 1%nat \/ exists t', t' <> t /\ rwinner k s1 t')).
Proof.
  intros HI0 Hn Hq Hrun Honly. apply brun_app in Hrun as (s1 & H1 & _). exists s1. split; [exact H1|].
  assert (Honly1 : only_rem_get k tr1).
  { intros t' o Hin. apply (Honly t'). apply in_or_app. auto. }
  destruct (rem_one_winner_from s0 tr1 s1 k HI0 Hn Hq H1 Honly1) as (_ & _ & _ & _ & _ & _ & Hu).
  apply Hu.
Qed.

(** ** At quiescence: exactly one [ROk], all the others [RUnique] / [RNotFound] *)

Corollary uput_quiescent_exactly_one s0 tr s k :
  Inv s0 -> bm s0 k = None -> quiet k s0 ->
  brun true s0 tr = Some s -> only_uput_get k tr ->
  quiet k s ->
  (exists t v r, In (t, OpUput k v, r) (bhist s0 tr)) ->
  uput_ok_returns k s0 tr = 1%nat /\ bm s k <> None /\
  forall t v r, In (t, OpUput k v, r) (bhist s0 tr) -> r = ROk \/ r = RUnique.
Proof.
  intros HI0 Hn Hq Hrun Honly Hqs (t & v & r & Hin).
  destruct (uput_one_winner_from s0 tr s k HI0 Hn Hq Hrun Honly) as (_ & _ & _ & _ & _ & Hb & _).
  destruct (Hb t v r Hin) as (_ & Hbd & [[H1 _]|[_ (t' & (v' & Ho & _) & _)]]).
  - split; [exact H1|]. split; [exact Hbd|]. intros t1 v1 r1 Hin1. apply (Hb t1 v1 r1 Hin1).
  - exfalso. apply (Hqs t' _ Ho). reflexivity.
Qed.

Corollary rem_quiescent_exactly_one s0 tr s k :
  Inv s0 -> bm s0 k <> None -> quiet k s0 ->
  brun true s0 tr = Some s -> only_rem_get k tr ->
  quiet k s ->
  (exists t r, In (t, OpRem k, r) (bhist s0 tr)) ->
  rem_ok_returns k s0 tr = 1%nat /\ bm s k = None /\
  forall t r, In (t, OpRem k, r) (bhist s0 tr) -> r = ROk \/ r = RNotFound.
Proof.
  intros HI0 Hn Hq Hrun Honly Hqs (t & r & Hin).
  destruct (rem_one_winner_from s0 tr s k HI0 Hn Hq Hrun Honly) as (_ & _ & _ & _ & _ & Hb & _).
  destruct (Hb t r Hin) as (_ & Hbd & [[H1 _]|[_ (t' & (Ho & _) & _)]]).
  - split; [exact H1|]. split; [exact Hbd|]. intros t1 r1 Hin1. apply (Hb t1 r1 Hin1).
  - exfalso. apply (Hqs t' _ Ho). reflexivity.
Qed.

(** ** Example: three threads race unique inserts of key 5, then two threads race removes of it *)

Definition only_uput_get_b (k : N) (tr : list bev) : bool :=
  forallb (fun e => match e with
                    | BInvoke _ o => negb (op_key o =? k) ||
                                     match o with OpUput _ _ | OpGet _ => true | _ => false end
                    | _ => true
                    end) tr.
Definition only_rem_get_b (k : N) (tr : list bev) : bool :=
  forallb (fun e => match e with
                    | BInvoke _ o => negb (op_key o =? k) ||
                                     match o with OpRem _ | OpGet _ => true | _ => false end
                    | _ => true
                    end) tr.

Lemma only_uput_get_check k tr : only_uput_get_b k tr = true -> only_uput_get k tr.
Proof.
  unfold only_uput_get_b. rewrite forallb_forall. intros H t o Hin Hk. specialize (H _ Hin). cbn in H.
  rewrite Hk, N.eqb_refl in H. cbn [negb orb] in H.
  destruct o as [k0|k0 v|k0 v|k0]; try discriminate H; cbn [op_key] in Hk; subst k0;
    [exists 0|exists v]; auto.
Qed.

Lemma only_rem_get_check k tr : only_rem_get_b k tr = true -> only_rem_get k tr.
Proof.
  unfold only_rem_get_b. rewrite forallb_forall. intros H t o Hin Hk. specialize (H _ Hin). cbn in H.
  rewrite Hk, N.eqb_refl in H. cbn [negb orb] in H.
  destruct o as [k0|k0 v|k0 v|k0]; try discriminate H; cbn [op_key] in Hk; subst k0; auto.
Qed.

(** threads 0 and 1 both miss the key and queue for the lock; 0 wins it and
    inserts (1 and 2 spin meanwhile); 1 then gets the lock, fails the version
    check, searches again and finds the key; 2 finds it on its first search.
    Thread 1 returns before the winner does. *)
Definition race_uput : list bev :=
  [BInvoke 0 (OpUput 5 7); BInvoke 1 (OpUput 5 8); BInvoke 2 (OpUput 5 9)] ++
  repeat (BStep 0) 4 ++ repeat (BStep 1) 4 ++
  [BStep 0; BStep 1; BStep 2] ++ repeat (BStep 0) 3 ++ [BStep 2; BStep 1] ++ repeat (BStep 0) 3 ++
  repeat (BStep 1) 7 ++ [BReturn 1] ++ repeat (BStep 2) 4 ++ [BReturn 0; BReturn 2].

(** threads 3 and 4 both find the key and queue for the lock; 3 removes it;
    4 then gets the lock and does not find the key any more *)
Definition race_rem : list bev :=
  [BInvoke 3 (OpRem 5); BInvoke 4 (OpRem 5)] ++
  repeat (BStep 3) 4 ++ repeat (BStep 4) 4 ++
  [BStep 3; BStep 4] ++ repeat (BStep 3) 5 ++ repeat (BStep 4) 4 ++ [BReturn 4; BReturn 3].

Example race_history :
  bhist binit (race_uput ++ race_rem) =
  [(1%nat, OpUput 5 8, RUnique); (0%nat, OpUput 5 7, ROk); (2%nat, OpUput 5 9, RUnique);
   (4%nat, OpRem 5, RNotFound); (3%nat, OpRem 5, ROk)].
Proof. vm_compute. reflexivity. Qed.

Definition run_or_init (s : bstate) (tr : list bev) : bstate :=
  match brun true s tr with Some s' => s' | None => binit end.

Definition race_s0 : bstate := run_or_init binit race_uput.
Definition race_s1 : bstate := run_or_init race_s0 race_rem.

Lemma run_or_init_some s tr :
  match brun true s tr with Some _ => true | None => false end = true ->
  brun true s tr = Some (run_or_init s tr).
Proof. unfold run_or_init. destruct (brun true s tr); [reflexivity|discriminate]. Qed.

Example race_uput_runs : brun true binit race_uput = Some race_s0.
Proof. apply run_or_init_some. vm_compute. reflexivity. Qed.

Example race_uput_only : only_uput_get 5 race_uput.
Proof. apply only_uput_get_check. vm_compute. reflexivity. Qed.

Example race_uput_one_ok : uput_ok_returns 5 binit race_uput = 1%nat /\ bm race_s0 5 = Some 7.
Proof. vm_compute. auto. Qed.

Example race_s0_bound : bm race_s0 5 <> None.
Proof. vm_compute. discriminate. Qed.

Example race_s0_quiet : quiet 5 race_s0.
Proof.
  intros t o. do 5 (destruct t as [|t]; [vm_compute; discriminate|]). vm_compute. discriminate.
Qed.

Example race_rem_runs : brun true race_s0 race_rem = Some race_s1.
Proof. apply run_or_init_some. vm_compute. reflexivity. Qed.

Example race_rem_only : only_rem_get 5 race_rem.
Proof. apply only_rem_get_check. vm_compute. reflexivity. Qed.

Example race_rem_one_ok :
  rem_ok_returns 5 race_s0 race_rem = 1%nat /\ bm race_s1 5 = None /\
  bhist race_s0 race_rem = [(4%nat, OpRem 5, RNotFound); (3%nat, OpRem 5, ROk)].
Proof. vm_compute. auto. Qed.

Definition race_uput_instance :=
  uput_exactly_one_winner race_uput race_s0 5 race_uput_runs race_uput_only.
Definition race_rem_instance :=
  rem_exactly_one_winner race_uput race_s0 race_rem race_s1 5
    race_uput_runs race_s0_bound race_s0_quiet race_rem_runs race_rem_only.

(** in the middle of the race: thread 1 is about to return RUnique while the
    winner, thread 0, has not returned yet (no ROk in the history of these 29 events) *)
Example race_middle :
  let tr := firstn 29 race_uput in
  let s := run_or_init binit tr in
  brun true binit tr <> None /\
  t_pc (b_thr s 1%nat) = PDone RUnique /\ t_pc (b_thr s 0%nat) = PDone ROk /\
  t_pc (b_thr s 2%nat) = PStable0 /\
  uput_ok_returns 5 binit tr = 0%nat /\ bm s 5 = Some 7 /\ nth 29 race_uput (BStep 0) = BReturn 1.
Proof. vm_compute. repeat split; auto. discriminate. Qed.

(** ** Assumptions *)
Print Assumptions uput_one_winner_from.
Print Assumptions uput_exactly_one_winner.
Print Assumptions uput_at_most_one_ok.
Print Assumptions uput_unique_after_winner.
Print Assumptions rem_one_winner_from.
Print Assumptions rem_exactly_one_winner.
Print Assumptions rem_at_most_one_ok.
Print Assumptions rem_notfound_after_winner.
Print Assumptions uput_quiescent_exactly_one.
Print Assumptions rem_quiescent_exactly_one.
Print Assumptions race_history.
Print Assumptions race_uput_instance.
Print Assumptions race_rem_instance.
