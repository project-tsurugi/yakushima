(** * LayerProofs: one layer (one B+-tree): well-formedness [WF_bt] / [WF_layer], and the exact
    effect of find / lookup / put / update / delete / layer_remove on the element list and on
    the set of node ids.  [layer_lookup] is how the specification reads a layer (the border the
    key is routed to, then the key in it); [put_all] builds the well-formed layers of the examples. *)
From Coq Require Import NArith PeanoNat Lia Bool List Sorted Permutation.
From Yk Require Import KeyProofs ScanDefs LeafProofs.
Import ListNotations.

(** ** Interface definitions *)
Fixpoint bt_elems (t : bt) : list slot_t :=
  match t with
  | BLeaf l => leaf_entries l
  | BInt _ _ _ ch => flat_map bt_elems ch
  end.
Definition bt_keys (t : bt) : list ktuple := map sl_key (bt_elems t).
Fixpoint bt_ids (t : bt) : list N :=
  match t with
  | BLeaf l => [lf_id l]
  | BInt id _ _ ch => id :: flat_map bt_ids ch
  end.

Definition dk : ktuple := {| ks := 0; kl := 0 |}.
Definition dleaf : leaf := {| lf_id := 0; lf_ver := 0; lf_perm := 0; lf_slots := [] |}.
Definition dbt : bt := BLeaf dleaf.

Definition lo_ok (lo : option ktuple) (k : ktuple) : Prop :=
  match lo with None => True | Some b => canon_lt k b = false end.
Definition lo_lt (lo : option ktuple) (k : ktuple) : Prop :=
  match lo with None => True | Some b => canon_lt b k = true end.
Definition hi_ok (hi : option ktuple) (k : ktuple) : Prop :=
  match hi with None => True | Some b => canon_lt k b = true end.
Definition in_bnd lo hi k : Prop := lo_ok lo k /\ hi_ok hi k.          (* element keys *)
Definition sep_bnd lo hi k : Prop := lo_lt lo k /\ hi_ok hi k.         (* separators *)

Definition lo_at (lo : option ktuple) (keys : list ktuple) (i : nat) : option ktuple :=
  match i with O => lo | S j => Some (nth j keys dk) end.
Definition hi_at (hi : option ktuple) (keys : list ktuple) (i : nat) : option ktuple :=
  if (i <? length keys)%nat then Some (nth i keys dk) else hi.

(** [WF_bt lo hi t]: [t] is a search tree over keys within [lo, hi).  An interior node has 1 to 15
    separators (interior_node::key_slice_length; a node left with one child is replaced by that child) and
    every child holds an entry (a border that loses its last entry is unlinked from its parent).  Hence only
    a tree that is a single border can be empty: the root border of a layer. *)
Inductive WF_bt : option ktuple -> option ktuple -> bt -> Prop :=
| WF_leaf_node lo hi l :
    WF_leaf l -> Forall (in_bnd lo hi) (leaf_keys l) -> WF_bt lo hi (BLeaf l)
| WF_int_node lo hi id ver keys ch :
    (1 <= length keys <= 15)%nat -> length ch = S (length keys) ->
    sorted_keys keys -> Forall (fun s => kt_wf s = true) keys ->
    Forall (sep_bnd lo hi) keys ->
    (forall i, (i < length ch)%nat -> WF_bt (lo_at lo keys i) (hi_at hi keys i) (nth i ch dbt)) ->
    (forall i, (i < length ch)%nat -> bt_elems (nth i ch dbt) <> []) ->
    WF_bt lo hi (BInt id ver keys ch).

Definition WF_layer (root : bt) : Prop := WF_bt None None root /\ NoDup (bt_ids root).

(** the children part of [WF_bt] for an interior node (no bound on the number of keys), by index: the form
    for routing and the descent.  [kids] below says the same along the node and is the form for replacing,
    inserting and removing a child. *)
Definition kids_ok lo hi (keys : list ktuple) (ch : list bt) : Prop :=
  length ch = S (length keys) /\
  sorted_keys keys /\ Forall (fun s => kt_wf s = true) keys /\
  Forall (sep_bnd lo hi) keys /\
  (forall i, (i < length ch)%nat -> WF_bt (lo_at lo keys i) (hi_at hi keys i) (nth i ch dbt)) /\
  (forall i, (i < length ch)%nat -> bt_elems (nth i ch dbt) <> []).

Lemma WF_int_iff lo hi id ver keys ch :
  WF_bt lo hi (BInt id ver keys ch) <-> (1 <= length keys <= 15)%nat /\ kids_ok lo hi keys ch.
Proof.
  split.
  - intros H. inversion H; subst. split; [assumption|]. repeat split; assumption.
  - intros (H1 & H2 & H3 & H4 & H5 & H6 & H7). constructor; assumption.
Qed.

Lemma WF_leaf_iff lo hi l :
  WF_bt lo hi (BLeaf l) <-> WF_leaf l /\ Forall (in_bnd lo hi) (leaf_keys l).
Proof.
  split.
  - intros H. inversion H; subst. split; assumption.
  - intros [H1 H2]. constructor; assumption.
Qed.

(** ** induction principle for [bt] *)
Lemma bt_ind' (P : bt -> Prop) :
  (forall l, P (BLeaf l)) ->
  (forall id ver keys ch, Forall P ch -> P (BInt id ver keys ch)) ->
  forall t, P t.
Proof.
  intros Hl Hi. fix IH 1. intros [l|id ver keys ch].
  - apply Hl.
  - apply Hi. revert ch. fix IHch 1. intros [|c ch].
    + constructor.
    + constructor; [apply IH|apply IHch].
Qed.

(** ** order facts *)
Lemma canon_lt_le a b : canon_lt a b = true -> canon_lt b a = false.
Proof. apply canon_lt_asym. Qed.

Definition lo_le (lo' lo : option ktuple) : Prop :=
  match lo' with
  | None => True
  | Some a => match lo with None => False | Some b => canon_lt b a = false end
  end.
Definition hi_le (hi hi' : option ktuple) : Prop :=
  match hi' with
  | None => True
  | Some b' => match hi with None => False | Some b => canon_lt b' b = false end
  end.

Lemma lo_le_refl lo : lo_le lo lo.
Proof. destruct lo; cbn; [apply canon_lt_irrefl|exact I]. Qed.
Lemma hi_le_refl hi : hi_le hi hi.
Proof. destruct hi; cbn; [apply canon_lt_irrefl|exact I]. Qed.

Lemma lo_ok_widen lo' lo k : lo_le lo' lo -> lo_ok lo k -> lo_ok lo' k.
Proof.
  destruct lo' as [a|]; [|intros; exact I]. destruct lo as [b|]; cbn; [|intros []].
  intros H1 H2. eapply canon_le_trans; eassumption.
Qed.
Lemma lo_lt_widen lo' lo k : lo_le lo' lo -> lo_lt lo k -> lo_lt lo' k.
Proof.
  destruct lo' as [a|]; [|intros; exact I]. destruct lo as [b|]; cbn; [|intros []].
  intros H1 H2. eapply canon_le_lt_trans; eassumption.
Qed.
Lemma hi_ok_widen hi hi' k : hi_le hi hi' -> hi_ok hi k -> hi_ok hi' k.
Proof.
  destruct hi' as [a|]; [|intros; exact I]. destruct hi as [b|]; cbn; [|intros []].
  intros H1 H2. eapply canon_lt_le_trans; eassumption.
Qed.
Lemma lo_lt_ok lo k : lo_lt lo k -> lo_ok lo k.
Proof. destruct lo; cbn; [apply canon_lt_asym|auto]. Qed.
Lemma lo_lt_le lo k : lo_lt lo k -> lo_le lo (Some k).
Proof. destruct lo; cbn; [apply canon_lt_asym|auto]. Qed.
Lemma hi_ok_le hi k : hi_ok hi k -> hi_le (Some k) hi.
Proof. destruct hi; cbn; [apply canon_lt_asym|auto]. Qed.
Lemma lo_ok_lt_trans lo a b : lo_ok lo a -> canon_lt a b = true -> lo_lt lo b.
Proof. destruct lo; cbn; [|auto]. intros. eapply canon_le_lt_trans; eassumption. Qed.
Lemma lo_lt_trans lo a b : lo_lt lo a -> canon_lt a b = true -> lo_lt lo b.
Proof. destruct lo; cbn; [|auto]. intros. eapply canon_lt_trans; eassumption. Qed.
Lemma hi_ok_trans hi a b : canon_lt a b = true -> hi_ok hi b -> hi_ok hi a.
Proof. destruct hi; cbn; [|auto]. intros. eapply canon_lt_trans; eassumption. Qed.
Lemma hi_ok_le_trans hi a b : canon_lt b a = false -> hi_ok hi b -> hi_ok hi a.
Proof. destruct hi; cbn; [|auto]. intros. eapply canon_le_lt_trans; eassumption. Qed.

(** ** the children of an interior node *)
Lemma height_child id ver keys ch i :
  (i < length ch)%nat -> (bt_height (nth i ch dbt) < bt_height (BInt id ver keys ch))%nat.
Proof.
  intros H. cbn [bt_height]. apply Nat.lt_succ_r.
  assert (forall c, In c ch ->
            (bt_height c <= fold_right (fun c m => Nat.max (bt_height c) m) 0 ch)%nat) as G.
  { clear. induction ch as [|a ch IH]; intros c []; cbn [fold_right].
    - subst. lia.
    - specialize (IH c H). lia. }
  apply G. apply nth_In. exact H.
Qed.

Lemma nth_error_child (ch : list bt) i :
  (i < length ch)%nat -> nth_error ch i = Some (nth i ch dbt).
Proof. apply nth_error_nth'. Qed.

(** ** [bt_set_ver] changes nothing of interest *)
Lemma bt_set_ver_elems t v : bt_elems (bt_set_ver t v) = bt_elems t.
Proof. destruct t; reflexivity. Qed.
Lemma bt_set_ver_ids t v : bt_ids (bt_set_ver t v) = bt_ids t.
Proof. destruct t; reflexivity. Qed.
Lemma bt_set_ver_id t v : bt_id (bt_set_ver t v) = bt_id t.
Proof. destruct t; reflexivity. Qed.
Lemma bt_set_ver_leaves_entries t v :
  map leaf_entries (bt_leaves (bt_set_ver t v)) = map leaf_entries (bt_leaves t).
Proof. destruct t; reflexivity. Qed.
Lemma bt_set_ver_WF lo hi t v : WF_bt lo hi t -> WF_bt lo hi (bt_set_ver t v).
Proof.
  intros H. destruct t as [l|id ver keys ch]; cbn [bt_set_ver].
  - apply WF_leaf_iff in H. apply WF_leaf_iff. exact H.
  - apply WF_int_iff in H. apply WF_int_iff. exact H.
Qed.
Lemma set_root_flag_elems t b : bt_elems (set_root_flag t b) = bt_elems t.
Proof. apply bt_set_ver_elems. Qed.
Lemma set_root_flag_ids t b : bt_ids (set_root_flag t b) = bt_ids t.
Proof. apply bt_set_ver_ids. Qed.
Lemma set_root_flag_WF_layer t b : WF_layer t -> WF_layer (set_root_flag t b).
Proof.
  intros [H1 H2]. split; [apply bt_set_ver_WF; exact H1|].
  rewrite set_root_flag_ids. exact H2.
Qed.

(** ** bounds widening *)
Lemma WF_bt_widen lo hi t :
  WF_bt lo hi t -> forall lo' hi', lo_le lo' lo -> hi_le hi hi' -> WF_bt lo' hi' t.
Proof.
  induction 1 as [lo hi l Hl Hb|lo hi id ver keys ch Hn Hlen Hs Hw Hsb Hc IH Hne];
    intros lo' hi' Hlo Hhi.
  - constructor; [exact Hl|]. eapply Forall_impl; [|exact Hb].
    intros k [H1 H2]. split; [eapply lo_ok_widen|eapply hi_ok_widen]; eassumption.
  - constructor; try assumption.
    + eapply Forall_impl; [|exact Hsb].
      intros k [H1 H2]. split; [eapply lo_lt_widen|eapply hi_ok_widen]; eassumption.
    + intros i Hi. apply IH; [exact Hi| |].
      * destruct i; cbn [lo_at]; [exact Hlo|apply lo_le_refl].
      * unfold hi_at. destruct (i <? length keys)%nat; [apply hi_le_refl|exact Hhi].
Qed.

(** ** the elements are sorted, well-formed and within the bounds *)
Lemma lo_at_cons lo s keys i : lo_at lo (s :: keys) (S i) = lo_at (Some s) keys i.
Proof. destruct i; reflexivity. Qed.
Lemma hi_at_cons hi s keys i : hi_at hi (s :: keys) (S i) = hi_at hi keys i.
Proof. reflexivity. Qed.

Lemma flat_keys_sorted (f : bt -> list ktuple) ch : forall lo hi keys,
  length ch = S (length keys) -> sorted_keys keys -> Forall (sep_bnd lo hi) keys ->
  (forall i, (i < length ch)%nat ->
     sorted_keys (f (nth i ch dbt)) /\
     Forall (in_bnd (lo_at lo keys i) (hi_at hi keys i)) (f (nth i ch dbt))) ->
  sorted_keys (flat_map f ch) /\ Forall (in_bnd lo hi) (flat_map f ch).
Proof.
  induction ch as [|c ch IH]; intros lo hi keys Hlen Hsk Hsb Hc; [cbn in Hlen; lia|].
  cbn [flat_map]. destruct keys as [|s keys].
  - destruct ch; [|cbn in Hlen; lia]. cbn [flat_map]. rewrite app_nil_r.
    destruct (Hc 0%nat ltac:(cbn; lia)) as [H1 H2]. cbn in H1, H2. split; assumption.
  - apply Forall_cons_iff in Hsb. destruct Hsb as [[Hs1 Hs2] Hsb].
    apply StronglySorted_cons_iff in Hsk. destruct Hsk as [Hsk Hsf].
    destruct (Hc 0%nat ltac:(cbn; lia)) as [H1 H2]. cbn [nth lo_at] in H1, H2.
    change (hi_at hi (s :: keys) 0) with (Some s) in H2.
    destruct (IH (Some s) hi keys) as [I1 I2].
    + cbn [length] in Hlen. lia.
    + exact Hsk.
    + rewrite Forall_forall in Hsb, Hsf |- *. intros k Hk. split; [|apply Hsb; exact Hk].
      cbn. apply Hsf. exact Hk.
    + intros i Hi. specialize (Hc (S i) ltac:(cbn [length]; lia)).
      rewrite lo_at_cons, hi_at_cons in Hc. exact Hc.
    + split.
      * apply StronglySorted_app_iff. split; [exact H1|]. split; [exact I1|].
        intros a b Ha Hb. rewrite Forall_forall in H2, I2.
        destruct (H2 a Ha) as [_ Ha2]. destruct (I2 b Hb) as [Hb1 _]. cbn in Ha2, Hb1.
        eapply canon_lt_le_trans; eassumption.
      * apply Forall_app. split.
        -- eapply Forall_impl; [|exact H2]. intros k [K1 K2]. split; [exact K1|].
           cbn in K2. eapply hi_ok_trans; eassumption.
        -- eapply Forall_impl; [|exact I2]. intros k [K1 K2]. split; [|exact K2].
           apply (lo_ok_widen lo (Some s)); [apply lo_lt_le; exact Hs1|exact K1].
Qed.

Lemma bt_keys_leaf l : bt_keys (BLeaf l) = leaf_keys l.
Proof. reflexivity. Qed.

Lemma bt_keys_int id ver keys ch : bt_keys (BInt id ver keys ch) = flat_map bt_keys ch.
Proof.
  unfold bt_keys. cbn [bt_elems]. apply map_flat_map.
Qed.

Theorem bt_elems_sorted lo hi t :
  WF_bt lo hi t ->
  sorted_keys (bt_keys t) /\
  Forall (fun k => kt_wf k = true) (bt_keys t) /\
  Forall entry_ok (bt_elems t) /\
  Forall (in_bnd lo hi) (bt_keys t).
Proof.
  induction 1 as [lo hi l Hl Hb|lo hi id ver keys ch Hn Hlen Hs Hw Hsb Hc IH Hne].
  - rewrite bt_keys_leaf.
    split; [apply Hl|]. split; [apply WF_leaf_keys_wf; exact Hl|]. split; [apply Hl|exact Hb].
  - rewrite bt_keys_int.
    destruct (flat_keys_sorted bt_keys ch lo hi keys Hlen Hs Hsb) as [S1 S2].
    { intros i Hi. destruct (IH i Hi) as (A & _ & _ & B). split; assumption. }
    split; [exact S1|]. split; [|split; [|exact S2]].
    + apply Forall_forall. intros k Hk. apply (in_flat_map_nth bt_keys dbt) in Hk.
      destruct Hk as (i & Hi & Hk). destruct (IH i Hi) as (_ & A & _).
      rewrite Forall_forall in A. apply A. exact Hk.
    + cbn [bt_elems]. apply Forall_forall. intros s Hs'.
      apply (in_flat_map_nth bt_elems dbt) in Hs'.
      destruct Hs' as (i & Hi & Hk). destruct (IH i Hi) as (_ & _ & A & _).
      rewrite Forall_forall in A. apply A. exact Hk.
Qed.

Corollary WF_bt_sorted lo hi t : WF_bt lo hi t -> sorted_keys (bt_keys t).
Proof. intros H. apply (bt_elems_sorted lo hi t H). Qed.
Corollary WF_bt_elems_sorted lo hi t :
  WF_bt lo hi t -> StronglySorted (fun a b => canon_lt (sl_key a) (sl_key b) = true) (bt_elems t).
Proof. intros H. apply (StronglySorted_map_iff sl_key (fun a b => canon_lt a b = true)). exact (WF_bt_sorted lo hi t H). Qed.
Corollary WF_bt_keys_wf lo hi t : WF_bt lo hi t -> Forall (fun k => kt_wf k = true) (bt_keys t).
Proof. intros H. apply (bt_elems_sorted lo hi t H). Qed.
Corollary WF_bt_entries_ok lo hi t : WF_bt lo hi t -> Forall entry_ok (bt_elems t).
Proof. intros H. apply (bt_elems_sorted lo hi t H). Qed.
Corollary elem_wf lo hi root s : WF_bt lo hi root -> In s (bt_elems root) -> kt_wf (sl_key s) = true.
Proof. intros Hwf Hs. pose proof (WF_bt_entries_ok _ _ _ Hwf) as X. rewrite Forall_forall in X. apply (X s Hs). Qed.
Corollary WF_bt_keys_bnd lo hi t : WF_bt lo hi t -> Forall (in_bnd lo hi) (bt_keys t).
Proof. intros H. apply (bt_elems_sorted lo hi t H). Qed.
Corollary WF_bt_keys_NoDup lo hi t : WF_bt lo hi t -> NoDup (bt_keys t).
Proof. intros H. apply sorted_NoDup. apply (WF_bt_sorted lo hi t H). Qed.

Lemma in_elems_in_keys t s : In s (bt_elems t) -> In (sl_key s) (bt_keys t).
Proof. intros H. unfold bt_keys. apply in_map. exact H. Qed.

Lemma in_keys_in_elems t k : In k (bt_keys t) -> exists s, In s (bt_elems t) /\ sl_key s = k.
Proof.
  unfold bt_keys. intros H. apply in_map_iff in H. destruct H as (s & E & H). exists s. split; assumption.
Qed.

Lemma WF_bt_key_inj lo hi t a b :
  WF_bt lo hi t -> In a (bt_elems t) -> In b (bt_elems t) -> sl_key a = sl_key b -> a = b.
Proof. intros H. apply map_NoDup_inj. apply (WF_bt_keys_NoDup lo hi t H). Qed.

Lemma sorted_perm_eq (l1 l2 : list slot_t) :
  sorted_keys (map sl_key l1) -> sorted_keys (map sl_key l2) -> Permutation l1 l2 -> l1 = l2.
Proof.
  intros H1 H2 HP. apply StronglySorted_map_iff in H1, H2. refine (StronglySorted_ext _ _ l1 l2 H1 H2 _).
  - intros a b H. rewrite (canon_lt_asym _ _ H). discriminate.
  - intros x. split; apply Permutation_in; [|symmetry]; exact HP.
Qed.

(** ** leaves *)
Lemma bt_leaves_elems t : flat_map leaf_entries (bt_leaves t) = bt_elems t.
Proof.
  induction t as [l|id ver keys ch IH] using bt_ind'.
  - cbn. apply app_nil_r.
  - cbn [bt_leaves bt_elems]. induction IH as [|c ch Hc _ IH2]; [reflexivity|].
    cbn [flat_map]. rewrite flat_map_app, Hc, IH2. reflexivity.
Qed.

Lemma bt_leaves_ids_incl t l : In l (bt_leaves t) -> In (lf_id l) (bt_ids t).
Proof.
  induction t as [l0|id ver keys ch IH] using bt_ind'.
  - cbn. intros [->|[]]. left. reflexivity.
  - cbn [bt_leaves bt_ids]. intros H. right. rewrite in_flat_map in *.
    destruct H as (c & Hc & H). exists c. split; [exact Hc|].
    rewrite Forall_forall in IH. apply IH; assumption.
Qed.

Lemma bt_leaves_WF lo hi t : WF_bt lo hi t -> forall l, In l (bt_leaves t) -> WF_leaf l.
Proof.
  induction 1 as [lo hi l Hl Hb|lo hi id ver keys ch Hn Hlen Hs Hw Hsb Hc IH Hne]; intros l' Hin.
  - cbn in Hin. destruct Hin as [<-|[]]. exact Hl.
  - cbn [bt_leaves] in Hin. apply (in_flat_map_nth bt_leaves dbt) in Hin.
    destruct Hin as (i & Hi & Hin). apply (IH i Hi). exact Hin.
Qed.

Lemma bt_leaves_nonempty lo hi t :
  WF_bt lo hi t -> bt_elems t <> [] -> forall l, In l (bt_leaves t) -> leaf_entries l <> [].
Proof.
  induction 1 as [lo hi l Hl Hb|lo hi id ver keys ch Hn Hlen Hs Hw Hsb Hc IH Hne]; intros Hnn l' Hin.
  - cbn in Hin. destruct Hin as [<-|[]]. exact Hnn.
  - cbn [bt_leaves] in Hin. apply (in_flat_map_nth bt_leaves dbt) in Hin.
    destruct Hin as (i & Hi & Hin). apply (IH i Hi); [apply Hne; exact Hi|exact Hin].
Qed.

Lemma bt_leaves_nonempty_root lo hi t :
  WF_bt lo hi t -> forall l, In l (bt_leaves t) -> leaf_entries l <> [] \/ t = BLeaf l.
Proof.
  intros H l Hin. destruct t as [l0|id ver keys ch].
  - right. cbn in Hin. destruct Hin as [->|[]]. reflexivity.
  - left. apply WF_int_iff in H. destruct H as (_ & _ & _ & _ & _ & Hc & Hne).
    cbn [bt_leaves] in Hin. apply (in_flat_map_nth bt_leaves dbt) in Hin.
    destruct Hin as (i & Hi & Hin).
    eapply bt_leaves_nonempty; [apply Hc; exact Hi|apply Hne; exact Hi|exact Hin].
Qed.

Lemma bt_leaves_not_nil t lo hi : WF_bt lo hi t -> bt_leaves t <> [].
Proof.
  induction 1 as [lo hi l Hl Hb|lo hi id ver keys ch Hn Hlen Hs Hw Hsb Hc IH Hne].
  - discriminate.
  - cbn [bt_leaves]. destruct ch as [|c ch]; [cbn in Hlen; lia|]. cbn [flat_map].
    specialize (IH 0%nat ltac:(cbn; lia)). cbn [nth] in IH.
    destruct (bt_leaves c); [contradiction|discriminate].
Qed.

(** ** routing: the first separator greater than the key *)
Lemma route_is_pos keys k :
  Forall (fun s => kt_wf s = true) keys -> kt_wf k = true -> is_pos keys k (route keys k 0).
Proof.
  intros Hw Hk.
  destruct (probe_is_pos (fun s => s) route_probe route) with (l := keys) (k := k) (n := 0%nat)
    as (i & -> & P).
  - intros [|s r] k0 n; reflexivity.
  - eapply Forall_impl; [|exact Hw]. intros s Hs. apply route_probe_site; assumption.
  - rewrite map_id in P. exact P.
Qed.

Lemma route_mono keys d k :
  Forall (fun s => kt_wf s = true) keys -> kt_wf d = true -> kt_wf k = true ->
  canon_lt k d = false -> (route keys d 0 <= route keys k 0)%nat.
Proof.
  intros Hw Hd Hk Hle.
  destruct (route_is_pos keys d Hw Hd) as (A1 & A2 & A3).
  destruct (route_is_pos keys k Hw Hk) as (B1 & B2 & B3).
  destruct (Nat.le_gt_cases (route keys d 0) (route keys k 0)) as [H|H]; [exact H|exfalso].
  specialize (A2 _ H). specialize (B3 (Nat.lt_le_trans _ _ _ H A1)).
  pose proof (canon_lt_le_trans _ _ _ B3 A2) as X. congruence.
Qed.

Lemma route_ext keys d k :
  (forall s, In s keys -> route_probe d s = route_probe k s) -> forall i, route keys d i = route keys k i.
Proof.
  induction keys as [|s keys IH]; intros H i; [reflexivity|]. cbn [route].
  rewrite (H s (or_introl eq_refl)). destruct (route_probe k s); [reflexivity|].
  apply IH. intros s' Hs'. apply H. right. exact Hs'.
Qed.

Lemma route_none keys k :
  (forall s, In s keys -> route_probe k s = false) -> forall i, route keys k i = (i + length keys)%nat.
Proof.
  induction keys as [|s keys IH]; intros H i; cbn [route length]; [lia|].
  rewrite (H s (or_introl eq_refl)). rewrite IH; [lia|]. intros s' Hs'. apply H. right. exact Hs'.
Qed.

Lemma iins_pos_is_pos keys k :
  Forall (fun s => kt_wf s = true) keys -> kt_wf k = true -> is_pos keys k (iins_pos keys k 0).
Proof.
  intros Hw Hk.
  destruct (probe_is_pos (fun s => s) iins_probe iins_pos) with (l := keys) (k := k) (n := 0%nat)
    as (i & -> & P).
  - intros [|s r] k0 n; reflexivity.
  - eapply Forall_impl; [|exact Hw]. intros s Hs. apply iins_probe_site; assumption.
  - rewrite map_id in P. exact P.
Qed.

Lemma is_pos_of_bounds lo hi keys k i :
  sorted_keys keys -> (i <= length keys)%nat ->
  lo_ok (lo_at lo keys i) k -> hi_ok (hi_at hi keys i) k -> is_pos keys k i.
Proof.
  intros Hs Hi Hlo Hhi. split; [exact Hi|]. split.
  - intros j Hj. destruct i as [|i]; [lia|]. cbn [lo_at lo_ok] in Hlo.
    eapply canon_le_trans; [|exact Hlo]. apply sorted_nth_le; [exact Hs|lia|lia].
  - intros Hlt. unfold hi_at in Hhi. destruct (Nat.ltb_spec i (length keys)); [|lia]. exact Hhi.
Qed.

Lemma is_pos_bounds lo hi keys k i :
  is_pos keys k i -> in_bnd lo hi k -> in_bnd (lo_at lo keys i) (hi_at hi keys i) k.
Proof.
  intros (A1 & A2 & A3) [B1 B2]. split.
  - destruct i as [|i]; cbn [lo_at]; [exact B1|]. cbn. apply A2. lia.
  - unfold hi_at. destruct (Nat.ltb_spec i (length keys)); [|exact B2]. cbn. apply A3. assumption.
Qed.

Lemma sep_is_pos lo hi keys k i :
  sorted_keys keys -> (i <= length keys)%nat ->
  sep_bnd (lo_at lo keys i) (hi_at hi keys i) k -> is_pos keys k i.
Proof.
  intros Hs Hi [H1 H2]. eapply is_pos_of_bounds; try eassumption. apply lo_lt_ok. exact H1.
Qed.

Lemma kids_route lo hi keys ch k :
  kids_ok lo hi keys ch -> kt_wf k = true ->
  (route keys k 0 < length ch)%nat /\
  (in_bnd lo hi k ->
   in_bnd (lo_at lo keys (route keys k 0)) (hi_at hi keys (route keys k 0)) k) /\
  forall s, In s (flat_map bt_elems ch) -> sl_key s = k ->
            In s (bt_elems (nth (route keys k 0) ch dbt)).
Proof.
  intros (Hlen & Hs & Hw & Hsb & Hc & Hne) Hk.
  pose proof (route_is_pos keys k Hw Hk) as Hp.
  split; [destruct Hp as (P1 & _); lia|]. split; [apply is_pos_bounds; exact Hp|].
  intros s Hin Hsk. apply (in_flat_map_nth bt_elems dbt) in Hin. destruct Hin as (j & Hj & Hin).
  assert (is_pos keys k j) as Hpj.
  { pose proof (WF_bt_keys_bnd _ _ _ (Hc j Hj)) as B. rewrite Forall_forall in B.
    destruct (B k) as [B1 B2]; [rewrite <- Hsk; apply in_elems_in_keys; exact Hin|].
    eapply is_pos_of_bounds; try eassumption. lia. }
  rewrite (is_pos_unique keys k _ _ Hp Hpj). exact Hin.
Qed.

Lemma child_keys_side lo hi keys ch k j s :
  kids_ok lo hi keys ch -> kt_wf k = true -> (j < length ch)%nat ->
  In s (bt_elems (nth j ch dbt)) ->
  ((j < route keys k 0)%nat -> canon_lt (sl_key s) k = true) /\
  ((route keys k 0 < j)%nat -> canon_lt k (sl_key s) = true).
Proof.
  intros (Hlen & Hs & Hw & _ & Hc & _) Hk Hj Hel.
  destruct (route_is_pos keys k Hw Hk) as (P1 & P2 & P3).
  pose proof (WF_bt_keys_bnd _ _ _ (Hc j Hj)) as B. rewrite Forall_forall in B.
  destruct (B (sl_key s) (in_elems_in_keys _ _ Hel)) as [B1 B2]. split; intros Hji.
  - unfold hi_at in B2. destruct (Nat.ltb_spec j (length keys)) as [Hjk|Hjk]; [|lia]. cbn [hi_ok] in B2.
    eapply canon_lt_le_trans; [exact B2|apply P2; exact Hji].
  - destruct j as [|j']; [lia|]. cbn [lo_at lo_ok] in B1.
    eapply canon_lt_le_trans; [|exact B1].
    eapply canon_lt_le_trans; [apply P3; lia|]. apply sorted_nth_le; [exact Hs|lia|lia].
Qed.

Lemma kids_nonempty lo hi keys ch : kids_ok lo hi keys ch -> flat_map bt_elems ch <> [].
Proof.
  intros (Hlen & _ & _ & _ & _ & Hne). destruct ch as [|c ch]; [cbn in Hlen; lia|].
  cbn [flat_map]. specialize (Hne 0%nat ltac:(cbn; lia)). cbn [nth] in Hne.
  destruct (bt_elems c); [contradiction|discriminate].
Qed.

Lemma empty_root_leaf lo hi root : WF_bt lo hi root -> bt_elems root = [] -> exists l, root = BLeaf l.
Proof.
  intros Hwf He. destruct root as [l|id ver keys ch]; [exists l; reflexivity|].
  apply WF_int_iff in Hwf. destruct Hwf as [_ Hkids].
  exfalso. exact (kids_nonempty _ _ _ _ Hkids He).
Qed.

(** ** children of an interior node as a chain: child, separator, child, ..., child, each child
    between its neighbouring separators ([lo] and [hi] at the ends) *)
Fixpoint kids (lo hi : option ktuple) (keys : list ktuple) (ch : list bt) : Prop :=
  match keys, ch with
  | [], [c] => WF_bt lo hi c /\ bt_elems c <> []
  | s :: keys', c :: ch' =>
    WF_bt lo (Some s) c /\ bt_elems c <> [] /\ kt_wf s = true /\ sep_bnd lo hi s /\
    kids (Some s) hi keys' ch'
  | _, _ => False
  end.

Lemma kids_length hi keys : forall lo ch, kids lo hi keys ch -> length ch = S (length keys).
Proof.
  induction keys as [|s keys IH]; intros lo ch K.
  - destruct ch as [|c [|c' ch]]; cbn [kids] in K; try contradiction. reflexivity.
  - destruct ch as [|c ch]; cbn [kids] in K; [contradiction|].
    cbn [length]. f_equal. apply (IH (Some s)). apply K.
Qed.

Lemma kids_ok_iff keys : forall lo hi ch, kids_ok lo hi keys ch <-> kids lo hi keys ch.
Proof.
  induction keys as [|s keys IH]; intros lo hi ch.
  - split.
    + intros (Hlen & _ & _ & _ & Hc & Hne).
      destruct ch as [|c [|c' ch]]; cbn [length] in Hlen; try lia.
      split; [apply (Hc 0%nat)|apply (Hne 0%nat)]; cbn; lia.
    + intros K. destruct ch as [|c [|c' ch]]; cbn [kids] in K; try contradiction.
      destruct K as [K1 K2]. split; [reflexivity|]. split; [constructor|].
      split; [constructor|]. split; [constructor|].
      split; intros [|i] Hi; cbn in Hi; try lia; assumption.
  - split.
    + intros (Hlen & Hs & Hw & Hsb & Hc & Hne).
      destruct ch as [|c ch]; cbn [length] in Hlen; [lia|].
      apply StronglySorted_cons_iff in Hs. destruct Hs as [Hs Hf].
      apply Forall_cons_iff in Hw. destruct Hw as [Hw0 Hw].
      apply Forall_cons_iff in Hsb. destruct Hsb as [Hsb0 Hsb].
      cbn [kids]. split; [apply (Hc 0%nat); cbn; lia|]. split; [apply (Hne 0%nat); cbn; lia|].
      split; [exact Hw0|]. split; [exact Hsb0|].
      apply IH. split; [lia|]. split; [exact Hs|]. split; [exact Hw|]. split.
      { rewrite Forall_forall in *. intros t Ht. split; [apply Hf|apply Hsb]; exact Ht. }
      split; intros i Hi.
      * specialize (Hc (S i) ltac:(cbn [length]; lia)). rewrite lo_at_cons in Hc. exact Hc.
      * apply (Hne (S i)). cbn [length]. lia.
    + intros K. destruct ch as [|c ch]; cbn [kids] in K; [contradiction|].
      destruct K as (Hc0 & Hne0 & Hw0 & Hsb0 & K). apply IH in K.
      destruct K as (Hlen & Hs & Hw & Hsb & Hc & Hne).
      split; [cbn [length]; lia|]. split.
      { apply StronglySorted_cons_iff. split; [exact Hs|].
        eapply Forall_impl; [|exact Hsb]. intros t [T1 _]. exact T1. }
      split; [constructor; assumption|]. split.
      { constructor; [exact Hsb0|]. eapply Forall_impl; [|exact Hsb].
        intros t [T1 T2]. split; [|exact T2]. eapply lo_lt_trans; [apply Hsb0|exact T1]. }
      split; intros [|i] Hi; cbn [length] in Hi.
      * exact Hc0.
      * rewrite lo_at_cons. apply Hc. lia.
      * exact Hne0.
      * apply Hne. lia.
Qed.

Lemma WF_int_kids lo hi id ver keys ch :
  WF_bt lo hi (BInt id ver keys ch) <-> (1 <= length keys <= 15)%nat /\ kids lo hi keys ch.
Proof. rewrite WF_int_iff, kids_ok_iff. reflexivity. Qed.

Lemma kids_app K1 : forall lo hi s K2 C1 C2, length C1 = S (length K1) ->
  (kids lo hi (K1 ++ s :: K2) (C1 ++ C2) <->
   kids lo (Some s) K1 C1 /\ kt_wf s = true /\ sep_bnd lo hi s /\ kids (Some s) hi K2 C2).
Proof.
  induction K1 as [|t K1 IH]; intros lo hi s K2 C1 C2 Hlen.
  - destruct C1 as [|c [|c' C1]]; cbn [length] in Hlen; try lia. cbn [app kids]. tauto.
  - destruct C1 as [|c C1]; cbn [length] in Hlen; [lia|]. cbn [app kids].
    rewrite (IH (Some t) hi s K2 C1 C2) by lia. unfold sep_bnd. cbn [lo_lt hi_ok].
    (* [t < s] carries [lo < t] to [lo < s] one way and [s < hi] to [t < hi] the other *)
    split.
    + intros (H1 & H2 & H3 & [H4 H5] & H6 & H7 & [H8 H9] & H10).
      pose proof (lo_lt_trans lo t s H4 H8). tauto.
    + intros ((H1 & H2 & H3 & [H4 H5] & H6) & H7 & [H8 H9] & H10).
      pose proof (hi_ok_trans hi t s H5 H9). tauto.
Qed.

Lemma kids_split lo hi keys ch m :
  kids lo hi keys ch -> (m < length keys)%nat ->
  kids lo (Some (nth m keys dk)) (firstn m keys) (firstn (S m) ch) /\
  kt_wf (nth m keys dk) = true /\ sep_bnd lo hi (nth m keys dk) /\
  kids (Some (nth m keys dk)) hi (skipn (S m) keys) (skipn (S m) ch).
Proof.
  intros K Hm. pose proof (kids_length _ _ _ _ K) as Hlen.
  rewrite (split_at_nth dk keys m Hm), <- (firstn_skipn (S m) ch) in K.
  apply kids_app in K; [exact K|rewrite !firstn_length; lia].
Qed.

Lemma kids_set keys : forall lo hi ch i c',
  kids lo hi keys ch -> (i < length ch)%nat ->
  WF_bt (lo_at lo keys i) (hi_at hi keys i) c' -> bt_elems c' <> [] ->
  kids lo hi keys (set_nth i c' ch).
Proof.
  induction keys as [|s keys IH]; intros lo hi ch i c' K Hi Hc' Hne'.
  - destruct ch as [|c [|c0 ch]]; cbn [kids] in K; try contradiction.
    destruct i as [|i]; [|cbn in Hi; lia]. split; assumption.
  - destruct ch as [|c ch]; cbn [kids] in K; [contradiction|].
    destruct K as (K1 & K2 & K3 & K4 & K5). destruct i as [|i]; cbn [set_nth kids].
    + split; [exact Hc'|]. split; [exact Hne'|]. split; [exact K3|]. split; assumption.
    + split; [exact K1|]. split; [exact K2|]. split; [exact K3|]. split; [exact K4|].
      rewrite lo_at_cons in Hc'. cbn [length] in Hi. apply IH; [exact K5|lia|exact Hc'|exact Hne'].
Qed.

Lemma kids_insert keys : forall lo hi ch i l sep r,
  kids lo hi keys ch -> (i < length ch)%nat ->
  WF_bt (lo_at lo keys i) (Some sep) l -> WF_bt (Some sep) (hi_at hi keys i) r ->
  kt_wf sep = true -> sep_bnd (lo_at lo keys i) (hi_at hi keys i) sep ->
  bt_elems l <> [] -> bt_elems r <> [] ->
  kids lo hi (insert_at i sep keys) (insert_at (S i) r (set_nth i l ch)).
Proof.
  induction keys as [|s keys IH]; intros lo hi ch i l sep r K Hi Hl Hr Hw Hb Hnl Hnr.
  - destruct ch as [|c [|c0 ch]]; cbn [kids] in K; try contradiction.
    destruct i as [|i]; [|cbn in Hi; lia]. change (kids lo hi [sep] [l; r]). cbn [kids].
    split; [exact Hl|]. split; [exact Hnl|]. split; [exact Hw|]. split; [exact Hb|].
    split; [exact Hr|exact Hnr].
  - destruct ch as [|c ch]; cbn [kids] in K; [contradiction|].
    destruct K as (K1 & K2 & K3 & [K4 K4'] & K5). destruct i as [|i].
    + change (kids lo hi (sep :: s :: keys) (l :: r :: ch)). cbn [kids].
      destruct Hb as [Hb1 Hb2]. change (canon_lt sep s = true) in Hb2.
      split; [exact Hl|]. split; [exact Hnl|]. split; [exact Hw|].
      split; [split; [exact Hb1|eapply hi_ok_trans; eassumption]|].
      split; [exact Hr|]. split; [exact Hnr|]. split; [exact K3|].
      split; [split; [exact Hb2|exact K4']|exact K5].
    + change (kids lo hi (s :: insert_at i sep keys) (c :: insert_at (S i) r (set_nth i l ch))).
      cbn [kids]. cbn [length] in Hi. rewrite lo_at_cons in Hl, Hb.
      split; [exact K1|]. split; [exact K2|]. split; [exact K3|]. split; [split; assumption|].
      apply IH; [exact K5|lia|exact Hl|exact Hr|exact Hw|exact Hb|exact Hnl|exact Hnr].
Qed.

Lemma kids_widen_lo lo lo' hi keys ch : lo_le lo' lo -> kids lo hi keys ch -> kids lo' hi keys ch.
Proof.
  intros Hlo K. destruct keys as [|s keys].
  - destruct ch as [|c [|c' ch]]; cbn [kids] in *; try contradiction.
    split; [|apply K]. eapply WF_bt_widen; [apply K|exact Hlo|apply hi_le_refl].
  - destruct ch as [|c ch]; cbn [kids] in *; [contradiction|].
    destruct K as (K1 & K2 & K3 & [K4 K4'] & K5).
    split; [eapply WF_bt_widen; [exact K1|exact Hlo|apply hi_le_refl]|]. split; [exact K2|].
    split; [exact K3|]. split; [split; [eapply lo_lt_widen; eassumption|exact K4']|exact K5].
Qed.

Lemma kids_remove_after keys : forall lo hi ch j,
  kids lo hi keys ch -> (j < length keys)%nat ->
  kids lo hi (remove_at j keys) (remove_at (S j) ch).
Proof.
  induction keys as [|s keys IH]; intros lo hi ch j K Hj; [cbn in Hj; lia|].
  destruct ch as [|c ch]; cbn [kids] in K; [contradiction|].
  destruct K as (K1 & K2 & K3 & [K4 K4'] & K5). destruct j as [|j].
  - destruct ch as [|c1 ch]; [destruct keys; contradiction|].
    change (kids lo hi keys (c :: ch)). destruct keys as [|s2 keys]; cbn [kids] in K5 |- *.
    + destruct ch; [|contradiction]. split; [|exact K2].
      eapply WF_bt_widen; [exact K1|apply lo_le_refl|apply hi_ok_le; exact K4'].
    + destruct K5 as (_ & _ & L3 & [L4 L4'] & L5). change (canon_lt s s2 = true) in L4.
      split; [eapply WF_bt_widen; [exact K1|apply lo_le_refl|cbn; apply canon_lt_asym; exact L4]|].
      split; [exact K2|]. split; [exact L3|].
      split; [split; [eapply lo_lt_trans; eassumption|exact L4']|exact L5].
  - change (kids lo hi (s :: remove_at j keys) (c :: remove_at (S j) ch)). cbn [kids].
    cbn [length] in Hj.
    split; [exact K1|]. split; [exact K2|]. split; [exact K3|]. split; [split; assumption|].
    apply IH; [exact K5|lia].
Qed.

(** interior_node::delete_of: child [i] goes with the separator before it (the
    first child with the first separator) *)
Lemma kids_remove lo hi keys ch i :
  kids lo hi keys ch -> (1 <= length keys)%nat -> (i < length ch)%nat ->
  kids lo hi (remove_at (i - 1) keys) (remove_at i ch).
Proof.
  intros K H1 Hi. pose proof (kids_length _ _ _ _ K) as Hlen. destruct i as [|j].
  - destruct keys as [|s keys]; [cbn in H1; lia|].
    destruct ch as [|c ch]; cbn [kids] in K; [contradiction|].
    destruct K as (_ & _ & _ & [K4 _] & K5). change (kids lo hi keys ch).
    eapply kids_widen_lo; [apply lo_lt_le; exact K4|exact K5].
  - replace (S j - 1)%nat with j by lia. apply kids_remove_after; [exact K|lia].
Qed.

Lemma kids_elems lo hi keys ch : kids lo hi keys ch -> flat_map bt_elems ch <> [].
Proof. intros K. apply kids_ok_iff in K. exact (kids_nonempty _ _ _ _ K). Qed.

(** ** descent along a key
    Every operation on a layer follows [route] from the root to a leaf, with fuel above the
    height.  The induction along that path: at an interior node the step gets the child [k] is
    routed to, well formed between its neighbouring separators; that an entry with key [k] can
    only lie in that child, so that [k] is a key of the node exactly if it is one of the child;
    and the claim for that child.  [P] takes the fuel, [S f] at the node, so that a claim can mention
    [bt_X fuel t k] and compute one step of it by [cbn]; [i] is a [let] of the statement, which a user
    [fold]s after that step.  This serves a well-formed key in a well-formed tree; what holds of
    [bt_delete] on any tree starts from [bt_delete_leaf_inv] / [bt_delete_int_inv] instead. *)
Lemma descent_ind k (P : nat -> option ktuple -> option ktuple -> bt -> Prop) :
  kt_wf k = true ->
  (forall f lo hi l, WF_bt lo hi (BLeaf l) -> P (S f) lo hi (BLeaf l)) ->
  (forall f lo hi id ver keys ch,
     let i := route keys k 0 in
     WF_bt lo hi (BInt id ver keys ch) -> (i < length ch)%nat ->
     nth_error ch i = Some (nth i ch dbt) ->
     WF_bt (lo_at lo keys i) (hi_at hi keys i) (nth i ch dbt) ->
     (in_bnd lo hi k -> in_bnd (lo_at lo keys i) (hi_at hi keys i) k) ->
     (forall s, In s (flat_map bt_elems ch) -> sl_key s = k -> In s (bt_elems (nth i ch dbt))) ->
     (In k (bt_keys (BInt id ver keys ch)) <-> In k (bt_keys (nth i ch dbt))) ->
     (bt_height (nth i ch dbt) < f)%nat ->
     P f (lo_at lo keys i) (hi_at hi keys i) (nth i ch dbt) ->
     P (S f) lo hi (BInt id ver keys ch)) ->
  forall f t lo hi, WF_bt lo hi t -> (bt_height t < f)%nat -> P f lo hi t.
Proof.
  intros Hk Hleaf Hint. induction f as [|f IH]; intros t lo hi Hwf Hh; [lia|].
  destruct t as [l|id ver keys ch]; [apply Hleaf; exact Hwf|].
  pose proof Hwf as Hkids. apply WF_int_iff in Hkids. destruct Hkids as [_ Hkids].
  destruct (kids_route lo hi keys ch k Hkids Hk) as (Hi & Hbnd & Hroute).
  destruct Hkids as (_ & _ & _ & _ & Hc & _).
  pose proof (height_child id ver keys ch _ Hi) as Hlt.
  apply Hint; [exact Hwf|exact Hi|apply nth_error_child; exact Hi|apply Hc; exact Hi
              |exact Hbnd|exact Hroute| |lia|apply IH; [apply Hc; exact Hi|lia]].
  split; intros X; apply in_keys_in_elems in X; destruct X as (s & Hs1 & <-); apply in_elems_in_keys.
  - apply Hroute; [exact Hs1|reflexivity].
  - cbn [bt_elems]. apply (in_flat_map_nth bt_elems dbt). eexists. split; eassumption.
Qed.

(** ** find_leaf and lookup *)
Lemma bt_find_leaf_spec fuel : forall t lo hi k,
  WF_bt lo hi t -> kt_wf k = true -> (bt_height t < fuel)%nat ->
  exists l, bt_find_leaf fuel t k = Some l /\ WF_leaf l /\ In l (bt_leaves t) /\
            (forall s, In s (bt_elems t) -> sl_key s = k -> In s (leaf_entries l)) /\
            (forall s, In s (leaf_entries l) -> In s (bt_elems t)).
Proof.
  intros t lo hi k Hwf Hk Hh. revert fuel t lo hi Hwf Hh. refine (descent_ind k _ Hk _ _).
  - intros f lo hi l Hwf. apply WF_leaf_iff in Hwf. exists l. split; [reflexivity|].
    split; [apply Hwf|]. split; [left; reflexivity|]. split; auto.
  - intros f lo hi id ver keys ch i _ Hi Hnth _ _ Hroute _ _ (l & E & Hl & Hin & H1 & H2).
    cbn [bt_find_leaf]. fold i. rewrite Hnth.
    exists l. split; [exact E|]. split; [exact Hl|]. split; [|split].
    + cbn [bt_leaves]. apply (in_flat_map_nth bt_leaves dbt). exists i. split; assumption.
    + intros s Hs1 Hs2. apply H1; [|exact Hs2]. apply Hroute; assumption.
    + intros s Hs1. cbn [bt_elems]. apply (in_flat_map_nth bt_elems dbt). exists i.
      split; [exact Hi|apply H2; exact Hs1].
Qed.

Theorem find_leaf_spec root k :
  WF_bt None None root -> kt_wf k = true ->
  exists l, find_leaf root k = Some l /\ WF_leaf l /\ In l (bt_leaves root) /\
            (forall s, In s (bt_elems root) -> sl_key s = k -> In s (leaf_entries l)) /\
            (forall s, In s (leaf_entries l) -> In s (bt_elems root)).
Proof. intros H Hk. unfold find_leaf. eapply bt_find_leaf_spec; try eassumption. lia. Qed.

Lemma find_leaf_leaf l k : find_leaf (BLeaf l) k = Some l.
Proof. reflexivity. Qed.

Lemma bt_find_leaf_in fuel : forall t k lf, bt_find_leaf fuel t k = Some lf -> In lf (bt_leaves t).
Proof.
  induction fuel as [|f IH]; intros t k lf E; [discriminate|].
  destruct t as [l0|id ver keys ch]; cbn [bt_find_leaf] in E.
  - injection E as <-. left. reflexivity.
  - destruct (nth_error ch (route keys k 0)) as [c|] eqn:En; [|discriminate].
    cbn [bt_leaves]. apply in_flat_map. exists c. split; [eapply nth_error_In; exact En|eapply IH; exact E].
Qed.

Lemma find_leaf_in root k lf : find_leaf root k = Some lf -> In lf (bt_leaves root).
Proof. apply bt_find_leaf_in. Qed.

Lemma bt_find_leaf_ext fuel : forall t lo hi d k,
  WF_bt lo hi t -> (forall s, kt_wf s = true -> route_probe d s = route_probe k s) ->
  bt_find_leaf fuel t d = bt_find_leaf fuel t k.
Proof.
  induction fuel as [|fu IH]; intros t lo hi d k Hwf Hext; [reflexivity|].
  destruct t as [lf|id ver keys ch]; [reflexivity|]. cbn [bt_find_leaf].
  apply WF_int_iff in Hwf. destruct Hwf as (_ & _ & _ & Hw & _ & Hc & _).
  rewrite (route_ext keys d k).
  2:{ intros s Hs. apply Hext. rewrite Forall_forall in Hw. apply Hw. exact Hs. }
  destruct (nth_error ch (route keys k 0)) as [c|] eqn:E; [|reflexivity].
  assert (route keys k 0 < length ch)%nat as Hi by (apply nth_error_Some; rewrite E; discriminate).
  apply (nth_error_nth _ _ dbt) in E. subst c. eapply IH; [apply Hc; exact Hi|exact Hext].
Qed.

Lemma find_leaf_ext root d k :
  WF_bt None None root -> (forall s, kt_wf s = true -> route_probe d s = route_probe k s) ->
  find_leaf root d = find_leaf root k.
Proof. apply bt_find_leaf_ext. Qed.

(** [bt_find_leaf_spec] with the place of the border among the borders of the layer: those before it
    hold keys below [k] only, those after it keys above [k] only, and a key not below [k] is found
    in it or after it. *)
Lemma bt_find_leaf_split fuel : forall t lo hi k,
  WF_bt lo hi t -> kt_wf k = true -> (bt_height t < fuel)%nat ->
  exists lf before after,
    bt_find_leaf fuel t k = Some lf /\ bt_leaves t = before ++ lf :: after /\
    (forall s, In s (flat_map leaf_entries before) -> canon_lt (sl_key s) k = true) /\
    (forall s, In s (flat_map leaf_entries after) -> canon_lt k (sl_key s) = true) /\
    (forall k', kt_wf k' = true -> canon_lt k' k = false ->
       exists lk, bt_find_leaf fuel t k' = Some lk /\ In lk (lf :: after)).
Proof.
  (* the height bound stays part of the claim: the last conjunct descends into other children too *)
  intros t lo hi k Hwf Hk Hh. generalize Hh. revert fuel t lo hi Hwf Hh. refine (descent_ind k _ Hk _ _).
  - intros f lo hi lf _ _. exists lf, [], []. split; [reflexivity|]. split; [reflexivity|].
    split; [intros s []|]. split; [intros s []|].
    intros k' _ _. exists lf. split; [reflexivity|left; reflexivity].
  - intros f lo hi id ver keys ch i Hwf Hi Hnth _ _ _ _ Hhi IH Hh.
    destruct (IH Hhi) as (lf & b' & a' & E & EL & Hb' & Ha' & Hm').
    apply WF_int_iff in Hwf. destruct Hwf as [_ Hkids]. pose proof Hkids as (_ & _ & Hw & _ & Hc & _).
    assert (forall j lf0 s, In lf0 (bt_leaves (nth j ch dbt)) -> In s (leaf_entries lf0) ->
              In s (bt_elems (nth j ch dbt))) as Hel.
    { intros j lf0 s H1 H2. rewrite <- bt_leaves_elems. apply in_flat_map. exists lf0. split; assumption. }
    exists lf, (flat_map bt_leaves (firstn i ch) ++ b'), (a' ++ flat_map bt_leaves (skipn (S i) ch)).
    cbn [bt_find_leaf]. fold i. rewrite Hnth.
    split; [exact E|]. split; [|split; [|split]].
    + cbn [bt_leaves]. rewrite (flat_map_split bt_leaves dbt ch i Hi), EL, <- !app_assoc. reflexivity.
    + intros s Hin. rewrite flat_map_app in Hin. apply in_app_or in Hin.
      destruct Hin as [Hin|Hin]; [|apply Hb'; exact Hin].
      apply in_flat_map in Hin. destruct Hin as (lf0 & Hlf0 & Hs0).
      destruct (in_flat_firstn bt_leaves dbt ch i lf0 Hlf0) as (j & Hji & Hj & Hlf).
      apply (child_keys_side lo hi keys ch k j s Hkids Hk Hj (Hel j lf0 s Hlf Hs0)). exact Hji.
    + intros s Hin. rewrite flat_map_app in Hin. apply in_app_or in Hin.
      destruct Hin as [Hin|Hin]; [apply Ha'; exact Hin|].
      apply in_flat_map in Hin. destruct Hin as (lf0 & Hlf0 & Hs0).
      destruct (in_flat_skipn bt_leaves dbt ch (S i) lf0 Hlf0) as (j & Hji & Hj & Hlf).
      apply (child_keys_side lo hi keys ch k j s Hkids Hk Hj (Hel j lf0 s Hlf Hs0)). exact Hji.
    + (* a key not below [k] is routed to the same child, and then the claim for that child
         applies, or to a later one, all of whose borders come after [lf] *)
      intros k' Hk' Hle.
      destruct (kids_route lo hi keys ch k' Hkids Hk') as (Hj & _ & _).
      pose proof (route_mono keys k k' Hw Hk Hk' Hle) as Hij. fold i in Hij.
      set (j := route keys k' 0) in *. rewrite (nth_error_child ch j Hj).
      destruct (Nat.eq_dec i j) as [Eij|Nij].
      * rewrite <- Eij. destruct (Hm' k' Hk' Hle) as (lk & E2 & Hin). exists lk. split; [exact E2|].
        destruct Hin as [Hin|Hin]; [left; exact Hin|right; apply in_or_app; left; exact Hin].
      * destruct (bt_find_leaf_spec f (nth j ch dbt) _ _ k' (Hc j Hj) Hk') as (lk & E2 & _ & Hin & _).
        { pose proof (height_child id ver keys ch j Hj). lia. }
        exists lk. split; [exact E2|]. right. apply in_or_app. right. apply in_flat_map.
        exists (nth j ch dbt). split; [|exact Hin].
        replace j with (S i + (j - S i))%nat by lia. rewrite <- nth_skipn. apply nth_In.
        rewrite skipn_length. lia.
Qed.

Lemma find_leaf_split root k :
  WF_bt None None root -> kt_wf k = true ->
  exists lf before after,
    find_leaf root k = Some lf /\ bt_leaves root = before ++ lf :: after /\
    (forall s, In s (flat_map leaf_entries before) -> canon_lt (sl_key s) k = true) /\
    (forall s, In s (flat_map leaf_entries after) -> canon_lt k (sl_key s) = true) /\
    (forall k', kt_wf k' = true -> canon_lt k' k = false ->
       exists lk, find_leaf root k' = Some lk /\ In lk (lf :: after)).
Proof. intros Hwf Hk. exact (bt_find_leaf_split _ root None None k Hwf Hk (Nat.lt_succ_diag_r _)). Qed.

Lemma bt_find_leaf_fuel fuel fuel' t lo hi k :
  WF_bt lo hi t -> kt_wf k = true -> (bt_height t < fuel)%nat -> (bt_height t < fuel')%nat ->
  bt_find_leaf fuel t k = bt_find_leaf fuel' t k.
Proof.
  intros Hwf Hk Hh. revert fuel'. revert fuel t lo hi Hwf Hh. refine (descent_ind k _ Hk _ _).
  - intros f lo hi l _ [|f'] Hh'; [lia|reflexivity].
  - intros f lo hi id ver keys ch i _ Hi Hnth _ _ _ _ _ IH [|f'] Hh'; [lia|].
    cbn [bt_find_leaf]. fold i. rewrite Hnth. apply IH.
    pose proof (height_child id ver keys ch i Hi). lia.
Qed.

Definition layer_lookup (root : bt) (k : ktuple) : option slot_t :=
  match find_leaf root k with
  | Some l => option_map (fun x => snd x) (leaf_lookup l k)
  | None => None
  end.

Theorem layer_lookup_some root k s :
  WF_bt None None root -> kt_wf k = true ->
  (layer_lookup root k = Some s <-> In s (bt_elems root) /\ sl_key s = k).
Proof.
  intros Hwf Hk. unfold layer_lookup.
  destruct (find_leaf_spec root k Hwf Hk) as (l & -> & Hl & _ & H1 & H2). split.
  - destruct (leaf_lookup l k) as [[[r slot] s']|] eqn:E; [|discriminate].
    cbn. intros H. injection H as ->.
    destruct (leaf_lookup_entry l k r slot s Hl Hk E) as (A & B & _).
    split; [apply H2; exact A|exact B].
  - intros [Hin Hs]. pose proof (H1 s Hin Hs) as Hin'.
    destruct (leaf_lookup_in l k Hl Hk) as (r & slot & s' & E & _ & Hs' & _).
    { rewrite <- Hs. unfold leaf_keys. apply in_map. exact Hin'. }
    rewrite E. cbn. f_equal.
    destruct (leaf_lookup_entry l k r slot s' Hl Hk E) as (A & _).
    eapply (WF_bt_key_inj None None root); [exact Hwf|apply H2; exact A|exact Hin|congruence].
Qed.

Theorem layer_lookup_none root k :
  WF_bt None None root -> kt_wf k = true ->
  (layer_lookup root k = None <-> ~ In k (bt_keys root)).
Proof.
  intros Hwf Hk. split.
  - intros E Hin. apply in_keys_in_elems in Hin. destruct Hin as (s & Hin & Hs).
    assert (layer_lookup root k = Some s) as E' by (apply layer_lookup_some; auto).
    congruence.
  - intros Hn. destruct (layer_lookup root k) as [s|] eqn:E; [|reflexivity].
    apply layer_lookup_some in E; [|exact Hwf|exact Hk]. destruct E as [Hin Hs].
    exfalso. apply Hn. rewrite <- Hs. apply in_elems_in_keys. exact Hin.
Qed.

Lemma find_leaf_lookup root k l :
  WF_bt None None root -> kt_wf k = true -> find_leaf root k = Some l ->
  (leaf_lookup l k = None <-> ~ In k (bt_keys root)) /\
  (forall r slot s, leaf_lookup l k = Some (r, slot, s) ->
     In s (bt_elems root) /\ sl_key s = k /\ nth_error (leaf_entries l) r = Some s).
Proof.
  intros Hwf Hk E. pose proof (layer_lookup_none root k Hwf Hk) as HN.
  destruct (find_leaf_spec root k Hwf Hk) as (l' & E' & Hl & _ & H1 & H2).
  rewrite E in E'. injection E' as <-. unfold layer_lookup in HN. rewrite E in HN. split.
  - rewrite <- HN. destruct (leaf_lookup l k); cbn; split; congruence.
  - intros r slot s Hs. destruct (leaf_lookup_entry l k r slot s Hl Hk Hs) as (A & B & C).
    split; [apply H2; exact A|]. split; assumption.
Qed.

(** ** put *)
Definition ires_ids (r : insres) : list N :=
  match r with IOne t => bt_ids t | ISplit l _ r => bt_ids l ++ bt_ids r end.
Definition ires_elems (r : insres) : list slot_t :=
  match r with IOne t => bt_elems t | ISplit l _ r => bt_elems l ++ bt_elems r end.
Definition ires_ok lo hi (r : insres) : Prop :=
  match r with
  | IOne t => WF_bt lo hi t
  | ISplit l sep r =>
    WF_bt lo (Some sep) l /\ WF_bt (Some sep) hi r /\ kt_wf sep = true /\ sep_bnd lo hi sep /\
    bt_elems l <> [] /\ bt_elems r <> []
  end.

(** [int_absorb] inserts [(sep, r)] after child [i]; a full node is then cut at
    key 8 or 7 of the sixteen, the side that received the pair keeping nine
    children.  ([interior_split] cuts first and inserts into one half: the same
    lists, since the pivot decides the half as the position does.) *)
Lemma int_absorb_shape id ver keys ch i l sep r nid :
  sorted_keys keys -> Forall (fun s => kt_wf s = true) keys -> kt_wf sep = true ->
  is_pos keys sep i -> length ch = S (length keys) ->
  int_absorb id ver keys ch i l sep r nid =
    let keys' := insert_at i sep keys in
    let ch' := insert_at (S i) r (set_nth i l ch) in
    if (length keys =? 15)%nat then
      let m := if (i <=? 7)%nat then 8%nat else 7%nat in
      let v2 := set_splitting (v_lock ver) true in
      let vi := set_inserting_deleting v2 true in
      ISplit (BInt id (unlock (set_root (if (i <=? 7)%nat then vi else v2) false))
                   (firstn m keys') (firstn (S m) ch'))
             (nth m keys' dk)
             (BInt nid (unlock (set_root (if (i <=? 7)%nat then v2 else vi) false))
                   (skipn (S m) keys') (skipn (S m) ch'))
    else IOne (BInt id (unlock (set_inserting_deleting (v_lock ver) true)) keys' ch').
Proof.
  intros Hs Hw Hwsep Hpi Hlen. pose proof Hpi as (Hi & _).
  assert (iins_pos keys sep 0 = i) as Hpos
    by (eapply is_pos_unique; [apply iins_pos_is_pos|]; eassumption).
  unfold int_absorb, int_insert. cbv zeta. fold dk.
  destruct (Nat.eqb_spec (length keys) 15) as [E15|N15]; [|rewrite Hpos; reflexivity].
  assert (kt_wf (nth 7 keys dk) = true) as Hwp by (apply (proj1 (Forall_nth _ _) Hw); lia).
  rewrite (iins_probe_site sep _ Hwsep Hwp).
  pose proof (is_pos_le_iff keys sep i 7 Hs Hpi ltac:(lia)) as Hside. fold dk in Hside.
  destruct (Nat.leb_spec i 7) as [Hi7|Hi7].
  - rewrite (proj1 Hside Hi7).
    assert (iins_pos (firstn 7 keys) sep 0 = i) as ->.
    { eapply is_pos_unique; [|apply is_pos_firstn; [exact Hpi|exact Hi7]].
      apply iins_pos_is_pos; [apply Forall_firstn; exact Hw|exact Hwsep]. }
    cbv beta iota.
    rewrite (firstn_insert_at_le sep i 7), (firstn_insert_at_le r (S i) 8),
      (skipn_insert_at_le sep i 8), (skipn_insert_at_le r (S i) 8) by lia.
    rewrite nth_insert_at by exact Hi.
    destruct (Nat.ltb_spec 8 i); [lia|]. destruct (Nat.eqb_spec 8 i); [lia|]. reflexivity.
  - destruct (canon_lt sep (nth 7 keys dk)); [pose proof (proj2 Hside eq_refl); lia|].
    assert (iins_pos (skipn 8 keys) sep 0 = i - 8)%nat as ->.
    { eapply is_pos_unique; [|apply is_pos_skipn; [exact Hpi|lia]].
      apply iins_pos_is_pos; [apply Forall_skipn; exact Hw|exact Hwsep]. }
    cbv beta iota. replace (S (i - 8)) with (S i - 8)%nat by lia.
    rewrite (firstn_insert_at_ge sep 7 i), (firstn_insert_at_ge r 8 (S i)),
      (skipn_insert_at_ge sep 8 i), (skipn_insert_at_ge r 8 (S i))
      by (rewrite ?set_nth_length; lia).
    rewrite nth_insert_at by exact Hi. destruct (Nat.ltb_spec 7 i); [|lia]. reflexivity.
Qed.

Lemma int_absorb_spec lo hi id ver keys ch i l sep r nid :
  (1 <= length keys <= 15)%nat -> kids lo hi keys ch -> (i < length ch)%nat ->
  WF_bt (lo_at lo keys i) (Some sep) l -> WF_bt (Some sep) (hi_at hi keys i) r ->
  kt_wf sep = true -> sep_bnd (lo_at lo keys i) (hi_at hi keys i) sep ->
  bt_elems l <> [] -> bt_elems r <> [] ->
  ires_ok lo hi (int_absorb id ver keys ch i l sep r nid) /\
  ires_elems (int_absorb id ver keys ch i l sep r nid) =
    flat_map bt_elems (insert_at (S i) r (set_nth i l ch)) /\
  exists nw,
    Permutation (ires_ids (int_absorb id ver keys ch i l sep r nid))
                (nw ++ id :: flat_map bt_ids (insert_at (S i) r (set_nth i l ch))) /\
    (nw = [] \/ nw = [nid]).
Proof.
  intros Hn Hkids Hi Hl Hr Hwsep Hb Hnl Hnr.
  pose proof (kids_insert keys lo hi ch i l sep r Hkids Hi Hl Hr Hwsep Hb Hnl Hnr) as K.
  apply kids_ok_iff in Hkids. destruct Hkids as (Hlen & Hs & Hw & _).
  assert (i <= length keys)%nat as Hi' by lia.
  rewrite (int_absorb_shape id ver keys ch i l sep r nid Hs Hw Hwsep
             (sep_is_pos lo hi keys sep i Hs Hi' Hb) Hlen). cbv zeta.
  set (keys' := insert_at i sep keys) in *. set (ch' := insert_at (S i) r (set_nth i l ch)) in *.
  assert (length keys' = S (length keys)) as Hlk' by (apply insert_at_length; exact Hi').
  destruct (Nat.eqb_spec (length keys) 15) as [E15|N15]; cbn [ires_ok ires_elems ires_ids].
  - set (m := if (i <=? 7)%nat then 8%nat else 7%nat).
    assert (7 <= m <= 8)%nat as Hm by (unfold m; destruct (i <=? 7)%nat; lia).
    destruct (kids_split lo hi keys' ch' m K ltac:(lia)) as (KL & Hwp & Hbp & KR).
    split.
    { split; [apply WF_int_kids; split; [rewrite firstn_length; lia|exact KL]|].
      split; [apply WF_int_kids; split; [rewrite skipn_length; lia|exact KR]|].
      split; [exact Hwp|]. split; [exact Hbp|]. cbn [bt_elems].
      split; eapply kids_elems; eassumption. }
    split; [cbn [bt_elems]; rewrite <- flat_map_app, firstn_skipn; reflexivity|].
    exists [nid]. split; [|right; reflexivity]. cbn [bt_ids].
    rewrite <- (firstn_skipn (S m) ch') at 3. rewrite flat_map_app.
    apply Permutation_sym.
    apply (Permutation_middle (id :: flat_map bt_ids (firstn (S m) ch')) _ nid).
  - split; [apply WF_int_kids; split; [lia|exact K]|]. split; [reflexivity|].
    exists []. split; [apply Permutation_refl|left; reflexivity].
Qed.

Lemma perm_ctx {A} (a : A) P Q X Y N0 :
  Permutation X (N0 ++ Y) -> Permutation (a :: P ++ X ++ Q) (N0 ++ a :: P ++ Y ++ Q).
Proof.
  intros H.
  apply Permutation_trans with ((a :: P) ++ N0 ++ (Y ++ Q)).
  - cbn [app]. apply perm_skip. apply Permutation_app_head.
    rewrite (app_assoc N0 Y Q). apply Permutation_app_tail. exact H.
  - apply (Permutation_app_swap_app (a :: P) N0 (Y ++ Q)).
Qed.

Lemma bt_ids_split id ver keys ch i :
  (i < length ch)%nat ->
  bt_ids (BInt id ver keys ch) =
    id :: flat_map bt_ids (firstn i ch) ++ bt_ids (nth i ch dbt) ++ flat_map bt_ids (skipn (S i) ch).
Proof. intros H. cbn [bt_ids]. f_equal. apply flat_map_split. exact H. Qed.

Lemma bt_elems_split id ver keys ch i :
  (i < length ch)%nat ->
  bt_elems (BInt id ver keys ch) =
    flat_map bt_elems (firstn i ch) ++ bt_elems (nth i ch dbt) ++ flat_map bt_elems (skipn (S i) ch).
Proof. intros H. cbn [bt_elems]. apply flat_map_split. exact H. Qed.

Lemma child_ids_incl id ver keys ch i x :
  (i < length ch)%nat -> In x (bt_ids (nth i ch dbt)) -> In x (bt_ids (BInt id ver keys ch)).
Proof.
  intros Hi H. cbn [bt_ids]. right. apply (in_flat_map_nth bt_ids dbt). exists i. split; assumption.
Qed.

Lemma split_post_ires_ok lo hi l k lv nid L sep R info :
  Forall (in_bnd lo hi) (leaf_keys l) -> in_bnd lo hi k ->
  split_post l k lv nid L sep R info ->
  ires_ok lo hi (ISplit (BLeaf L) sep (BLeaf R)).
Proof.
  intros Hbl Hbk Hpost. pose proof (split_post_keys _ _ _ _ _ _ _ _ Hpost) as Hkeys.
  destruct Hpost as (_ & HwL & HwR & _ & _ & H8 & H7 & _ & Hhd & FL & FR & _).
  assert (Forall (in_bnd lo hi) (leaf_keys L ++ leaf_keys R)) as Hb2.
  { rewrite Hkeys. apply Forall_insert_at; assumption. }
  apply Forall_app in Hb2. destruct Hb2 as [HbL HbR].
  assert (In sep (leaf_keys R)) as HsepR.
  { destruct (leaf_keys R); [discriminate|]. injection Hhd as ->. left. reflexivity. }
  rewrite Forall_forall in HbL, HbR, FL, FR.
  cbn [ires_ok]. split.
  { apply WF_leaf_iff. split; [exact HwL|]. apply Forall_forall. intros t Ht.
    split; [apply HbL; exact Ht|cbn; apply FL; exact Ht]. }
  split.
  { apply WF_leaf_iff. split; [exact HwR|]. apply Forall_forall. intros t Ht.
    split; [cbn; apply FR; exact Ht|apply HbR; exact Ht]. }
  split.
  { pose proof (WF_leaf_keys_wf R HwR) as W. rewrite Forall_forall in W. apply W. exact HsepR. }
  split.
  { split; [|apply HbR; exact HsepR].
    destruct (leaf_keys L) as [|t0 kl0] eqn:EL.
    - exfalso. unfold leaf_keys in EL. apply map_eq_nil in EL. rewrite EL in H8. cbn in H8. lia.
    - apply lo_ok_lt_trans with t0; [apply HbL; left; reflexivity|apply FL; left; reflexivity]. }
  cbn [bt_elems]. split; intros X; rewrite X in *; cbn in *; lia.
Qed.

(** [nw]: the ids of the nodes this put creates, the new sibling of each node that splits, so at most
    one per level; they come from the counter, which moves also when nothing splits. *)
Lemma bt_put_spec k lv fuel : forall t lo hi ctr,
  WF_bt lo hi t -> kt_wf k = true -> in_bnd lo hi k -> ~ In k (bt_keys t) ->
  entry_ok {| sl_key := k; sl_lv := lv |} ->
  (bt_height t < fuel)%nat ->
  exists res info ctr' nw,
    bt_put fuel t k lv ctr = Some (res, info, ctr') /\
    ires_ok lo hi res /\
    (exists A B, bt_elems t = A ++ B /\
                 ires_elems res = A ++ {| sl_key := k; sl_lv := lv |} :: B) /\
    Permutation (ires_ids res) (nw ++ bt_ids t) /\ NoDup nw /\
    (forall i, In i nw -> (ctr <= i < ctr')%N) /\ (ctr < ctr')%N /\
    In (pi_modified info) (bt_ids t) /\
    match pi_created info with
    | Some c => c = ctr /\ In c nw
    | None => nw = [] /\ exists t', res = IOne t'
    end.
Proof.
  intros t lo hi ctr Hwf Hk Hbk Hnin Hok Hh. revert ctr Hbk Hnin. revert fuel t lo hi Hwf Hh.
  refine (descent_ind k _ Hk _ _).
  - (* leaf *)
    intros f lo hi l Hwf ctr Hbk Hnin. cbn [bt_put].
    apply WF_leaf_iff in Hwf. destruct Hwf as [Hl Hbl].
    rewrite bt_keys_leaf in Hnin.
    destruct (N.eq_dec (leaf_cnk l) 15) as [E15|N15].
    + destruct (leaf_put_split l k lv ctr Hl E15 Hk Hnin Hok) as (L & sep & R & info & E & Hpost).
      rewrite E. pose proof (split_post_ires_ok lo hi _ _ _ _ _ _ _ _ Hbl Hbk Hpost) as Hres.
      destruct Hpost as (He & _ & _ & HiL & HiR & _ & _ & _ & _ & _ & _ & Hm & Hcr).
      exists (ISplit (BLeaf L) sep (BLeaf R)), info, (ctr + 1)%N, [ctr].
      split; [reflexivity|]. split; [exact Hres|].
      split.
      { exists (firstn (leaf_rank l k) (leaf_entries l)), (skipn (leaf_rank l k) (leaf_entries l)).
        split; [cbn [bt_elems]; symmetry; apply firstn_skipn|]. cbn [ires_elems bt_elems]. exact He. }
      split.
      { cbn [ires_ids bt_ids app]. rewrite HiL, HiR. apply perm_swap. }
      split; [constructor; [intros []|constructor]|].
      split; [intros i [<-|[]]; lia|]. split; [lia|].
      split; [rewrite Hm; left; reflexivity|]. rewrite Hcr. split; [reflexivity|left; reflexivity].
    + destruct (leaf_put_nosplit l k lv ctr Hl N15 Hk Hnin Hok) as (l' & info & E & He & Hl' & Hid & Hm & Hcr).
      rewrite E. exists (IOne (BLeaf l')), info, (ctr + 1)%N, [].
      split; [reflexivity|]. split.
      { cbn [ires_ok]. apply WF_leaf_iff. split; [exact Hl'|].
        rewrite (leaf_keys_of _ _ He), map_insert_at. apply Forall_insert_at; assumption. }
      split.
      { exists (firstn (leaf_rank l k) (leaf_entries l)), (skipn (leaf_rank l k) (leaf_entries l)).
        split; [cbn [bt_elems]; symmetry; apply firstn_skipn|]. cbn [ires_elems bt_elems]. exact He. }
      split; [cbn [ires_ids bt_ids app]; rewrite Hid; apply Permutation_refl|].
      split; [constructor|]. split; [intros i []|]. split; [lia|].
      split; [rewrite Hm; left; reflexivity|]. rewrite Hcr. split; [reflexivity|eexists; reflexivity].
  - (* interior *)
    intros f lo hi id ver keys ch i Hwf Hi Hnth _ Hbnd _ Hkeys _ IH ctr Hbk Hnin.
    cbn [bt_put]. fold i. rewrite Hnth. set (c := nth i ch dbt) in *. rewrite Hkeys in Hnin.
    destruct (IH ctr (Hbnd Hbk) Hnin) as
        (res & info & ctr' & nw & E & Hres & (A & B & HAB & Hel) & Hperm & Hnd & Hrange & Hctr & Hmod & Hcre).
    apply WF_int_kids in Hwf. destruct Hwf as [Hn Hkids].
    rewrite E.
    set (P := flat_map bt_ids (firstn i ch)) in *. set (Q := flat_map bt_ids (skipn (S i) ch)) in *.
    assert (bt_ids (BInt id ver keys ch) = id :: P ++ bt_ids c ++ Q) as Hids
      by (apply bt_ids_split; exact Hi).
    assert (bt_elems (BInt id ver keys ch) =
            (flat_map bt_elems (firstn i ch) ++ A) ++ B ++ flat_map bt_elems (skipn (S i) ch)) as Hels.
    { rewrite (bt_elems_split id ver keys ch i Hi). fold c. rewrite HAB, <- !app_assoc. reflexivity. }
    assert (In (pi_modified info) (bt_ids (BInt id ver keys ch))) as Hmod'
      by (eapply child_ids_incl; eassumption).
    destruct res as [c'|l sep r].
    + (* child absorbed the insert *)
      exists (IOne (BInt id ver keys (set_nth i c' ch))), info, ctr', nw.
      split; [reflexivity|]. cbn [ires_ok ires_elems ires_ids] in *.
      assert (bt_elems c' <> []) as Hne' by (rewrite Hel; destruct A; discriminate).
      split.
      { apply WF_int_kids. split; [exact Hn|]. apply kids_set; assumption. }
      split.
      { eexists. eexists. split; [exact Hels|]. cbn [bt_elems].
        rewrite flat_map_set_nth by exact Hi. rewrite Hel, <- !app_assoc. reflexivity. }
      split.
      { rewrite Hids.
        change (bt_ids (BInt id ver keys (set_nth i c' ch)))
          with (id :: flat_map bt_ids (set_nth i c' ch)).
        rewrite flat_map_set_nth by exact Hi. apply perm_ctx. exact Hperm. }
      split; [exact Hnd|]. split; [exact Hrange|]. split; [exact Hctr|]. split; [exact Hmod'|].
      destruct (pi_created info); [exact Hcre|]. split; [apply Hcre|eexists; reflexivity].
    + (* child split *)
      cbn [ires_ok ires_elems ires_ids] in *.
      destruct Hres as (Hwl & Hwr & Hwsep & Hbsep & Hnl & Hnr).
      destruct (int_absorb_spec lo hi id ver keys ch i l sep r ctr' Hn Hkids Hi Hwl Hwr Hwsep Hbsep Hnl Hnr)
        as (R1 & R2 & nwa & R3 & R4).
      exists (int_absorb id ver keys ch i l sep r ctr'), info, (ctr' + 1)%N, (nwa ++ nw).
      split; [reflexivity|]. split; [exact R1|]. split.
      { eexists. eexists. split; [exact Hels|]. rewrite R2.
        rewrite flat_map_insert_after_set by exact Hi. rewrite Hel, <- !app_assoc. reflexivity. }
      split.
      { eapply Permutation_trans; [exact R3|]. rewrite <- app_assoc. apply Permutation_app_head.
        rewrite flat_map_insert_after_set by exact Hi. rewrite Hids. apply perm_ctx. exact Hperm. }
      split.
      { destruct R4 as [->| ->]; [exact Hnd|]. cbn [app]. constructor; [|exact Hnd].
        intros X. apply Hrange in X. lia. }
      split.
      { intros j Hj. apply in_app_or in Hj. destruct Hj as [Hj|Hj].
        - destruct R4 as [->| ->]; [destruct Hj|]. destruct Hj as [<-|[]]. lia.
        - apply Hrange in Hj. lia. }
      split; [lia|]. split; [exact Hmod'|].
      destruct (pi_created info).
      * destruct Hcre as [-> Hin]. split; [reflexivity|]. apply in_or_app. right. exact Hin.
      * destruct Hcre as (_ & t' & Ht'). discriminate.
Qed.

Lemma layer_put_inv root k lv ctr root' info ctr' :
  layer_put root k lv ctr = Some (root', info, ctr') ->
  exists res c, bt_put (S (bt_height root)) root k lv ctr = Some (res, info, c) /\
    match res with
    | IOne t => root' = t /\ ctr' = c
    | ISplit l sep r => root' = BInt c v_new_interior_parent [sep] [l; r] /\ ctr' = (c + 1)%N
    end.
Proof.
  unfold layer_put. destruct (bt_put _ root k lv ctr) as [[[res info0] c]|]; [|discriminate].
  intros E. exists res, c. destruct res; injection E as <- <- <-; repeat split.
Qed.

(** What a put does to the ids, as multisets: the old ones and a duplicate-free list of new
    ones drawn from the counter's range.  When the root itself splits, the new root takes one
    more id, after those handed out below. *)
Lemma layer_put_perm root k lv ctr :
  WF_layer root -> kt_wf k = true -> ~ In k (bt_keys root) ->
  entry_ok {| sl_key := k; sl_lv := lv |} ->
  exists root' info ctr' nw,
    layer_put root k lv ctr = Some (root', info, ctr') /\ WF_bt None None root' /\
    (exists A B, bt_elems root = A ++ B /\
                 bt_elems root' = A ++ {| sl_key := k; sl_lv := lv |} :: B) /\
    Permutation (bt_ids root') (nw ++ bt_ids root) /\ NoDup nw /\
    (forall i, In i nw -> (ctr <= i < ctr')%N) /\ (ctr < ctr')%N /\
    In (pi_modified info) (bt_ids root) /\
    match pi_created info with Some c => c = ctr /\ In c nw | None => True end.
Proof.
  intros [Hwf _] Hk Hnin Hok.
  destruct (bt_put_spec k lv (S (bt_height root)) root None None ctr Hwf Hk) as
      (res & info & ctr' & nw & E & Hres & Hel & Hperm & Hndn & Hrange & Hc & Hmod & Hcre);
    [split; exact I|exact Hnin|exact Hok|lia|].
  unfold layer_put. rewrite E. destruct res as [t|l sep r]; cbn [ires_ok ires_elems ires_ids] in *.
  - exists t, info, ctr', nw. split; [reflexivity|]. destruct (pi_created info); tauto.
  - destruct Hres as (Hwl & Hwr & Hwsep & Hbsep & Hnl & Hnr).
    exists (BInt ctr' v_new_interior_parent [sep] [l; r]), info, (ctr' + 1)%N, (ctr' :: nw).
    split; [reflexivity|]. split.
    { apply WF_int_kids. split; [cbn; lia|]. cbn [kids]. tauto. }
    split; [cbn [bt_elems flat_map]; rewrite app_nil_r; exact Hel|]. split.
    { cbn [bt_ids flat_map app]. rewrite app_nil_r. apply perm_skip. exact Hperm. }
    split; [constructor; [intros X; apply Hrange in X; lia|exact Hndn]|].
    split.
    { intros j [<-|Hj]; [lia|]. apply Hrange in Hj. lia. }
    split; [lia|]. split; [exact Hmod|].
    destruct (pi_created info); [|exact I]. destruct Hcre as [-> Hin].
    split; [reflexivity|right; exact Hin].
Qed.

Theorem layer_put_spec root k lv ctr :
  WF_layer root -> kt_wf k = true -> ~ In k (bt_keys root) ->
  entry_ok {| sl_key := k; sl_lv := lv |} ->
  (forall i, In i (bt_ids root) -> (i < ctr)%N) ->
  exists root' info ctr',
    layer_put root k lv ctr = Some (root', info, ctr') /\
    WF_layer root' /\ sorted_keys (bt_keys root') /\
    (exists A B, bt_elems root = A ++ B /\
                 bt_elems root' = A ++ {| sl_key := k; sl_lv := lv |} :: B) /\
    Permutation (bt_elems root') ({| sl_key := k; sl_lv := lv |} :: bt_elems root) /\
    (ctr <= ctr')%N /\
    (forall i, In i (bt_ids root') -> (i < ctr')%N) /\
    (forall i, In i (bt_ids root) -> In i (bt_ids root')) /\
    (forall i, In i (bt_ids root') -> In i (bt_ids root) \/ (ctr <= i < ctr')%N) /\
    In (pi_modified info) (bt_ids root) /\
    match pi_created info with
    | Some c => c = ctr /\ In c (bt_ids root') /\ ~ In c (bt_ids root)
    | None => True
    end.
Proof.
  intros Hwl Hk Hnin Hok Hctr.
  destruct (layer_put_perm root k lv ctr Hwl Hk Hnin Hok) as
      (root' & info & ctr' & nw & E & Hwf' & (A & B & HAB & Hel) & Hp & Hndn & Hr & Hc & Hmod & Hcre).
  destruct Hwl as [_ Hnd].
  exists root', info, ctr'. split; [exact E|].
  assert (forall i, In i (bt_ids root') -> In i nw \/ In i (bt_ids root)) as Hin'.
  { intros j Hj. apply in_app_or. eapply Permutation_in; [exact Hp|exact Hj]. }
  split.
  { split; [exact Hwf'|]. eapply Permutation_NoDup; [apply Permutation_sym; exact Hp|].
    apply NoDup_app. split; [exact Hndn|]. split; [exact Hnd|].
    intros j Hj1 Hj2. apply Hr in Hj1. apply Hctr in Hj2. lia. }
  split; [apply (WF_bt_sorted None None); exact Hwf'|].
  split; [exists A, B; split; [exact HAB|exact Hel]|].
  split; [rewrite Hel, HAB; apply Permutation_sym; apply Permutation_middle|]. split; [lia|]. split.
  { intros j Hj. destruct (Hin' j Hj) as [X|X]; [apply Hr in X; lia|apply Hctr in X; lia]. }
  split.
  { intros j Hj. eapply Permutation_in; [apply Permutation_sym; exact Hp|].
    apply in_or_app. right. exact Hj. }
  split.
  { intros j Hj. destruct (Hin' j Hj) as [X|X]; [right; apply Hr; exact X|left; exact X]. }
  split; [exact Hmod|].
  destruct (pi_created info); [|exact I]. destruct Hcre as [-> Hin]. split; [reflexivity|]. split.
  - eapply Permutation_in; [apply Permutation_sym; exact Hp|]. apply in_or_app. left. exact Hin.
  - intros X. apply Hctr in X. lia.
Qed.

(** ** update of the leaf reached by a key *)
Lemma bt_update_leaf_spec k g fuel : forall t lo hi l,
  WF_bt lo hi t -> kt_wf k = true -> (bt_height t < fuel)%nat ->
  bt_find_leaf fuel t k = Some l ->
  WF_leaf (g l) -> lf_id (g l) = lf_id l -> leaf_keys (g l) = leaf_keys l ->
  WF_bt lo hi (bt_update_leaf fuel t k g) /\
  bt_ids (bt_update_leaf fuel t k g) = bt_ids t /\
  bt_id (bt_update_leaf fuel t k g) = bt_id t /\
  exists A B, bt_elems t = A ++ leaf_entries l ++ B /\
              bt_elems (bt_update_leaf fuel t k g) = A ++ leaf_entries (g l) ++ B.
Proof.
  intros t lo hi l Hwf Hk Hh E Hgl Hgid Hgk. revert E. revert fuel t lo hi Hwf Hh.
  refine (descent_ind k _ Hk _ _).
  - intros f lo hi l0 Hwf E. cbn [bt_find_leaf] in E. injection E as ->. cbn [bt_update_leaf].
    apply WF_leaf_iff in Hwf. destruct Hwf as [Hl Hb]. split.
    { apply WF_leaf_iff. split; [exact Hgl|]. rewrite Hgk. exact Hb. }
    split; [cbn [bt_ids]; rewrite Hgid; reflexivity|]. split; [exact Hgid|].
    exists [], []. cbn [bt_elems app]. rewrite !app_nil_r. split; reflexivity.
  - intros f lo hi id ver keys ch i Hwf Hi Hnth _ _ _ _ _ IH E.
    cbn [bt_find_leaf] in E. cbn [bt_update_leaf]. fold i in E |- *. rewrite Hnth in E |- *.
    destruct (IH E) as (U1 & U2 & _ & A & B & U3 & U4).
    set (c' := bt_update_leaf f (nth i ch dbt) k g) in *.
    assert (bt_elems c' <> []) as Hne'.
    { pose proof Hwf as Hne. apply WF_int_iff in Hne. destruct Hne as (_ & _ & _ & _ & _ & _ & Hne).
      intros X. apply (Hne i Hi). rewrite U4 in X. rewrite U3.
      apply app_eq_nil in X. destruct X as [-> X]. apply app_eq_nil in X. destruct X as [X ->].
      assert (leaf_entries l = []) as ->; [|reflexivity].
      apply (f_equal (map sl_key)) in X. fold (leaf_keys (g l)) in X. rewrite Hgk in X.
      unfold leaf_keys in X. apply map_eq_nil in X. exact X. }
    apply WF_int_kids in Hwf. destruct Hwf as [Hn Hkids].
    split; [apply WF_int_kids; split; [exact Hn|apply kids_set; assumption]|].
    split.
    { cbn [bt_ids]. f_equal. rewrite flat_map_set_nth by exact Hi. rewrite U2.
      symmetry. apply flat_map_split. exact Hi. }
    split; [reflexivity|].
    exists (flat_map bt_elems (firstn i ch) ++ A), (B ++ flat_map bt_elems (skipn (S i) ch)).
    split.
    + rewrite (bt_elems_split id ver keys ch i Hi), U3, <- !app_assoc. reflexivity.
    + cbn [bt_elems]. rewrite flat_map_set_nth by exact Hi. rewrite U4, <- !app_assoc. reflexivity.
Qed.

(** on any tree: a list read off the nodes, which an interior node passes up from its children by
    [flat_map] (the separators, the version words of the borders), is as before if the new border
    gives what the old one gave *)
Lemma bt_update_leaf_flat {X} (g : bt -> list X) k f :
  (forall l, g (BLeaf (f l)) = g (BLeaf l)) ->
  (forall id ver keys ch ch', flat_map g ch' = flat_map g ch ->
     g (BInt id ver keys ch') = g (BInt id ver keys ch)) ->
  forall fuel t, g (bt_update_leaf fuel t k f) = g t.
Proof.
  intros Hleaf Hint. induction fuel as [|fu IH]; intros t; [reflexivity|].
  destruct t as [l|id ver keys ch]; cbn [bt_update_leaf]; [apply Hleaf|].
  cbv zeta. destruct (nth_error ch (route keys k 0)) as [c|] eqn:En; [|reflexivity].
  assert (route keys k 0 < length ch)%nat as Hi by (apply nth_error_Some; congruence).
  apply Hint. rewrite flat_map_set_nth by exact Hi.
  rewrite (flat_map_split g dbt ch _ Hi), (nth_error_nth ch _ dbt En), IH. reflexivity.
Qed.

Lemma map_replace_key (k : ktuple) (x s : slot_t) A B :
  NoDup (map sl_key (A ++ s :: B)) -> sl_key s = k ->
  map (fun e => if kt_eq (sl_key e) k then x else e) (A ++ s :: B) = A ++ x :: B.
Proof.
  intros Hnd Hs. subst k.
  assert (forall e, In e A \/ In e B -> (if kt_eq (sl_key e) (sl_key s) then x else e) = e) as Hid.
  { intros e He. destruct (kt_eq (sl_key e) (sl_key s)) eqn:E; [|reflexivity]. exfalso.
    apply kt_eq_iff in E.
    rewrite map_app in Hnd. cbn [map] in Hnd. apply NoDup_remove_2 in Hnd. apply Hnd.
    rewrite <- E. apply in_or_app. destruct He as [He|He]; [left|right]; apply in_map; exact He. }
  rewrite map_app. cbn [map].
  rewrite kt_eq_refl.
  f_equal; [|f_equal].
  - rewrite <- (map_id A) at 2. apply map_ext_in. intros e He. apply Hid. left. exact He.
  - rewrite <- (map_id B) at 2. apply map_ext_in. intros e He. apply Hid. right. exact He.
Qed.

Theorem layer_update_spec root k l rank slot s v :
  WF_layer root -> kt_wf k = true ->
  find_leaf root k = Some l -> leaf_lookup l k = Some (rank, slot, s) -> (kl k <= 8)%N ->
  let x := {| sl_key := sl_key s; sl_lv := LValue v |} in
  let root' := update_leaf root k (fun l0 =>
                 leaf_with l0 (lf_ver l0) (lf_perm l0)
                           (set_nth (N.to_nat slot) x (lf_slots l0))) in
  sl_key s = k /\ In s (bt_elems root) /\
  WF_layer root' /\ bt_ids root' = bt_ids root /\ bt_id root' = bt_id root /\
  (exists A B, bt_elems root = A ++ s :: B /\ bt_elems root' = A ++ x :: B) /\
  bt_elems root' = map (fun e => if kt_eq (sl_key e) k then x else e) (bt_elems root) /\
  bt_keys root' = bt_keys root.
Proof.
  intros [Hwf Hnd] Hk Hfind Hlook Hkl x root'.
  destruct (find_leaf_spec root k Hwf Hk) as (l' & E & Hl & _ & _ & Hsub).
  rewrite Hfind in E. injection E as <-.
  apply leaf_lookup_some in Hlook as [Hr Hsk]; [|assumption..].
  pose proof (leaf_ranked_entries l rank slot s Hr) as Hre.
  assert (entry_ok x) as Hokx.
  { split; cbn [sl_key sl_lv x]; rewrite Hsk; assumption. }
  destruct (leaf_overwrite_spec l (lf_ver l) rank slot s x Hl Hr eq_refl Hokx) as (O1 & O2 & O3).
  set (f := fun l0 => leaf_with l0 (lf_ver l0) (lf_perm l0) (set_nth (N.to_nat slot) x (lf_slots l0))) in *.
  destruct (bt_update_leaf_spec k f (S (bt_height root)) root None None l Hwf Hk ltac:(lia)
              Hfind O3 eq_refl O2) as (U1 & U2 & U3 & A & B & U4 & U5).
  change (bt_update_leaf (S (bt_height root)) root k f) with root' in *.
  assert (rank < length (leaf_entries l))%nat as Hrl by (apply nth_error_Some; congruence).
  pose proof (split_at_nth_error _ rank s Hre) as HE.
  assert (exists A' B', bt_elems root = A' ++ s :: B' /\ bt_elems root' = A' ++ x :: B')
    as (A' & B' & H1 & H2).
  { exists (A ++ firstn rank (leaf_entries l)), (skipn (S rank) (leaf_entries l) ++ B). split.
    - rewrite U4. rewrite HE at 1. rewrite <- !app_assoc. reflexivity.
    - rewrite U5. change (leaf_entries (f l)) with
        (leaf_entries (leaf_with l (lf_ver l) (lf_perm l) (set_nth (N.to_nat slot) x (lf_slots l)))).
      rewrite O1, set_nth_split by exact Hrl. rewrite <- !app_assoc. reflexivity. }
  split; [exact Hsk|]. split; [apply Hsub; eapply nth_error_In; exact Hre|].
  split; [split; [exact U1|rewrite U2; exact Hnd]|]. split; [exact U2|]. split; [exact U3|].
  split; [exists A', B'; split; assumption|]. split.
  - rewrite H2, H1. symmetry. apply map_replace_key; [|exact Hsk].
    rewrite <- H1. apply (WF_bt_keys_NoDup None None root Hwf).
  - unfold bt_keys. rewrite H2, H1, !map_app. reflexivity.
Qed.

(** ** delete *)
Definition dres_ids (r : delres) : list N := match r with DKept t => bt_ids t | DGone => [] end.

(** [bt_delete] read backwards, with no hypothesis on the tree: what a statement that is not about
    well-formedness (the version words, the separators, which borders remain) starts from. *)
Lemma bt_delete_leaf_inv fu l k res ret :
  bt_delete (S fu) (BLeaf l) k = Some (res, ret) ->
  exists rank slot s, leaf_lookup l k = Some (rank, slot, s) /\
    if (leaf_cnk l =? 1)%N then res = DGone /\ ret = [lf_id l]
    else res = DKept (BLeaf (leaf_delete l rank slot)) /\ ret = [].
Proof.
  cbn [bt_delete]. destruct (leaf_lookup l k) as [[[rank slot] s]|]; [|discriminate].
  intros E. exists rank, slot, s. split; [reflexivity|].
  destruct (leaf_cnk l =? 1)%N; injection E as <- <-; split; reflexivity.
Qed.

Lemma bt_delete_int_inv fu id ver keys ch k res ret :
  bt_delete (S fu) (BInt id ver keys ch) k = Some (res, ret) ->
  let i := route keys k 0 in
  exists c rc ret0,
    (i < length ch)%nat /\ nth_error ch i = Some c /\ bt_delete fu c k = Some (rc, ret0) /\
    match rc with
    | DKept c' => res = DKept (BInt id ver keys (set_nth i c' ch)) /\ ret = ret0
    | DGone =>
      if (length keys =? 1)%nat
      then exists sib, nth_error ch (1 - i) = Some sib /\ res = DKept sib /\ ret = ret0 ++ [id]
      else res = DKept (BInt id (unlock (set_inserting_deleting (v_lock ver) true))
                             (remove_at (i - 1) keys) (remove_at i ch)) /\ ret = ret0
    end.
Proof.
  cbn [bt_delete]. cbv zeta. intros E.
  destruct (nth_error ch (route keys k 0)) as [c|] eqn:En; [|discriminate].
  destruct (bt_delete fu c k) as [[rc ret0]|] eqn:Ed; [|discriminate].
  exists c, rc, ret0. split; [apply nth_error_Some; congruence|]. split; [reflexivity|]. split; [exact Ed|].
  destruct rc as [c'|]; [injection E as <- <-; split; reflexivity|].
  destruct (length keys =? 1)%nat.
  - destruct (nth_error ch (1 - route keys k 0)) as [sib|]; [|discriminate].
    injection E as <- <-. exists sib. repeat split.
  - injection E as <- <-. split; [|reflexivity]. unfold remove_nth.
    destruct (route keys k 0) as [|j]; cbn [Nat.eqb Nat.sub]; [reflexivity|rewrite Nat.sub_0_r; reflexivity].
Qed.

Lemma bt_delete_nonempty k fuel : forall t r, bt_delete fuel t k = Some r -> bt_elems t <> [].
Proof.
  induction fuel as [|fu IH]; intros t [res ret] E; [discriminate|]. destruct t as [l|id ver keys ch].
  - apply bt_delete_leaf_inv in E. destruct E as (rank & slot & s & El & _).
    exact (leaf_lookup_nonempty l k _ El).
  - apply bt_delete_int_inv in E. destruct E as (c & rc & ret0 & _ & En & Ed & _).
    cbn [bt_elems]. intros X. apply (IH c _ Ed). apply nth_error_In in En.
    destruct (bt_elems c) as [|x xs] eqn:Ec; [reflexivity|exfalso].
    assert (In x (flat_map bt_elems ch)) as Hin
      by (apply in_flat_map; exists c; split; [exact En|rewrite Ec; left; reflexivity]).
    rewrite X in Hin. exact Hin.
Qed.

Lemma bt_delete_spec k fuel : forall t lo hi,
  WF_bt lo hi t -> kt_wf k = true -> In k (bt_keys t) -> (bt_height t < fuel)%nat ->
  exists res ret,
    bt_delete fuel t k = Some (res, ret) /\
    Permutation (bt_ids t) (ret ++ dres_ids res) /\
    match res with
    | DGone => exists l s, t = BLeaf l /\ leaf_entries l = [s] /\ sl_key s = k /\ ret = [lf_id l]
    | DKept t' =>
      WF_bt lo hi t' /\ bt_elems t' <> [] /\
      exists A s B, bt_elems t = A ++ s :: B /\ sl_key s = k /\ bt_elems t' = A ++ B
    end.
Proof.
  intros t lo hi Hwf Hk Hin Hh. revert Hin. revert fuel t lo hi Hwf Hh.
  refine (descent_ind k _ Hk _ _).
  - (* leaf *)
    intros f lo hi l Hwf Hin. cbn [bt_delete].
    apply WF_leaf_iff in Hwf. destruct Hwf as [Hl Hb].
    rewrite bt_keys_leaf in Hin.
    destruct (leaf_lookup_in l k Hl Hk Hin) as (r & slot & s & E & Hr & Hsk & _).
    rewrite E. pose proof (leaf_ranked_entries l r slot s Hr) as Hre.
    pose proof (leaf_entries_length l) as Hlen.
    assert (r < length (leaf_entries l))%nat as Hrl by (apply nth_error_Some; congruence).
    destruct (N.eqb_spec (leaf_cnk l) 1) as [E1|N1].
    + exists DGone, [lf_id l]. split; [reflexivity|]. split; [apply Permutation_refl|].
      exists l, s. split; [reflexivity|]. split; [|split; [exact Hsk|reflexivity]].
      rewrite E1 in Hlen. change (N.to_nat 1) with 1%nat in Hlen.
      destruct (leaf_entries l) as [|a [|b e]]; cbn in Hlen; try lia.
      destruct r as [|r]; [|cbn in Hrl; lia]. cbn in Hre. congruence.
    + destruct (leaf_delete_spec l r slot s Hl Hr) as (D1 & D2 & D3).
      exists (DKept (BLeaf (leaf_delete l r slot))), []. split; [reflexivity|].
      split; [cbn [app dres_ids bt_ids]; rewrite D3; apply Permutation_refl|].
      split.
      { apply WF_leaf_iff. split; [exact D2|].
        rewrite (leaf_delete_keys l r slot s Hl Hr). apply Forall_remove_at. exact Hb. }
      cbn [bt_elems]. rewrite D1. split.
      { intros X. apply (f_equal (@length _)) in X. rewrite remove_at_length in X by exact Hrl.
        cbn in X. lia. }
      exists (firstn r (leaf_entries l)), s, (skipn (S r) (leaf_entries l)).
      split; [apply split_at_nth_error; exact Hre|]. split; [exact Hsk|reflexivity].
  - (* interior *)
    intros f lo hi id ver keys ch i Hwf Hi Hnth _ _ _ Hkeys _ IH Hin.
    cbn [bt_delete]. fold i. rewrite Hnth. set (c := nth i ch dbt) in *.
    destruct (IH (proj1 Hkeys Hin)) as (res & ret & E & Hperm & Hres).
    apply WF_int_kids in Hwf. destruct Hwf as [Hn Hkids].
    pose proof (kids_length _ _ _ _ Hkids) as Hlen.
    rewrite E.
    set (P := flat_map bt_ids (firstn i ch)) in *. set (Q := flat_map bt_ids (skipn (S i) ch)) in *.
    assert (bt_ids (BInt id ver keys ch) = id :: P ++ bt_ids c ++ Q) as Hids
      by (apply bt_ids_split; exact Hi).
    pose proof (bt_elems_split id ver keys ch i Hi) as Hels. fold c in Hels.
    destruct res as [c'|].
    + (* the child survives *)
      destruct Hres as (Hwc' & Hnc' & A & s & B & HA & Hsk & HB).
      exists (DKept (BInt id ver keys (set_nth i c' ch))), ret. split; [reflexivity|].
      split.
      { rewrite Hids. cbn [dres_ids bt_ids]. rewrite flat_map_set_nth by exact Hi.
        apply perm_ctx. exact Hperm. }
      pose proof (kids_set keys lo hi ch i c' Hkids Hi Hwc' Hnc') as K.
      split; [apply WF_int_kids; split; [exact Hn|exact K]|].
      split; [cbn [bt_elems]; eapply kids_elems; exact K|].
      exists (flat_map bt_elems (firstn i ch) ++ A), s, (B ++ flat_map bt_elems (skipn (S i) ch)).
      split; [rewrite Hels, HA, <- !app_assoc; reflexivity|]. split; [exact Hsk|].
      cbn [bt_elems]. rewrite flat_map_set_nth by exact Hi. rewrite HB, <- !app_assoc. reflexivity.
    + (* the child (a leaf) is gone *)
      destruct Hres as (l & s & Hcl & Hentries & Hsk & ->).
      assert (bt_elems c = [s]) as Hec by (rewrite Hcl; exact Hentries).
      assert (bt_ids c = [lf_id l]) as Hic by (rewrite Hcl; reflexivity).
      destruct (Nat.eqb_spec (length keys) 1) as [E1|N1].
      * (* promotion of the sibling: with one separator, removing child [i] leaves the
           chain that consists of the other child *)
        pose proof (kids_remove lo hi keys ch i Hkids ltac:(lia) Hi) as K. unfold remove_at in K.
        destruct keys as [|s0 [|s1 keys]]; cbn [length] in E1; try lia.
        destruct ch as [|c0 [|c1 [|c2 ch]]]; cbn [length] in Hlen; try lia.
        assert (i = 0 \/ i = 1)%nat as Hi01 by (cbn [length] in Hi; lia).
        unfold P, Q in Hids. unfold c in *.
        destruct Hi01 as [Ei|Ei]; rewrite Ei in *;
          cbn [Nat.sub nth_error nth firstn skipn flat_map app kids] in *; destruct K as [W N].
        -- exists (DKept c1), ([lf_id l] ++ [id]). split; [reflexivity|]. split.
           { rewrite Hids, Hic, !app_nil_r. cbn [app dres_ids]. apply perm_swap. }
           split; [exact W|]. split; [exact N|].
           exists [], s, (bt_elems c1). rewrite Hels, Hec, app_nil_r. cbn [app].
           split; [reflexivity|]. split; [exact Hsk|reflexivity].
        -- exists (DKept c0), ([lf_id l] ++ [id]). split; [reflexivity|]. split.
           { rewrite Hids, Hic, !app_nil_r. cbn [app dres_ids].
             apply Permutation_trans with (id :: lf_id l :: bt_ids c0).
             - apply perm_skip. apply Permutation_sym. apply Permutation_cons_append.
             - apply perm_swap. }
           split; [exact W|]. split; [exact N|].
           exists (bt_elems c0), s, []. rewrite Hels, Hec, !app_nil_r.
           split; [reflexivity|]. split; [exact Hsk|reflexivity].
      * assert ((if Nat.eqb i 0 then remove_nth 0 keys else remove_nth (i - 1) keys)
                = remove_at (i - 1) keys) as ->.
        { unfold remove_nth. destruct (Nat.eqb_spec i 0) as [->|_]; reflexivity. }
        unfold remove_nth.
        pose proof (kids_remove lo hi keys ch i Hkids ltac:(lia) Hi) as K.
        eexists. eexists. split; [reflexivity|]. split.
        { rewrite Hids, Hic. cbn [dres_ids bt_ids]. rewrite flat_map_remove_at. fold P Q.
          change (P ++ Q) with (P ++ [] ++ Q). apply perm_ctx. apply Permutation_refl. }
        split.
        { apply WF_int_kids. split; [|exact K]. rewrite remove_at_length by lia. lia. }
        split; [cbn [bt_elems]; eapply kids_elems; exact K|].
        exists (flat_map bt_elems (firstn i ch)), s, (flat_map bt_elems (skipn (S i) ch)).
        split; [rewrite Hels, Hec; reflexivity|]. split; [exact Hsk|].
        cbn [bt_elems]. apply flat_map_remove_at.
Qed.

Corollary bt_delete_ids k fuel t lo hi res ret :
  WF_bt lo hi t -> NoDup (bt_ids t) -> kt_wf k = true -> In k (bt_keys t) -> (bt_height t < fuel)%nat ->
  bt_delete fuel t k = Some (res, ret) ->
  NoDup (dres_ids res) /\ NoDup ret /\ incl (dres_ids res) (bt_ids t) /\ incl ret (bt_ids t) /\
  (forall x, In x ret -> ~ In x (dres_ids res)) /\
  (forall x, In x (bt_ids t) -> In x ret \/ In x (dres_ids res)).
Proof.
  intros Hwf Hnd Hk Hin Hh E.
  destruct (bt_delete_spec k fuel t lo hi Hwf Hk Hin Hh) as (res' & ret' & E' & Hperm & _).
  rewrite E in E'. injection E' as <- <-.
  pose proof (Permutation_NoDup Hperm Hnd) as Hnd'.
  assert (forall x, In x (ret ++ dres_ids res) -> In x (bt_ids t)) as Hsub
    by (intros x Hx; eapply Permutation_in; [apply Permutation_sym; exact Hperm|exact Hx]).
  destruct (proj1 (NoDup_app _ _) Hnd') as (N1 & N2 & N3).
  split; [exact N2|]. split; [exact N1|].
  split; [intros x Hx; apply Hsub; apply in_or_app; right; exact Hx|].
  split; [intros x Hx; apply Hsub; apply in_or_app; left; exact Hx|]. split.
  - intros x Hx1 Hx2. exact (N3 x Hx1 Hx2).
  - intros x Hx. apply in_app_or. eapply Permutation_in; [exact Hperm|exact Hx].
Qed.

(** ** layer_remove *)

(** the three ways out of [layer_remove], with no hypothesis on the layer: the root is replaced, a
    layer below the top goes with its last entry, the root border of the top layer stays behind empty *)
Lemma layer_remove_inv ls p t ls' g ret :
  layer_remove ls p t = Some (ls', g, ret) ->
  exists root, layer_get ls p = Some root /\
    ((exists root', bt_delete (S (bt_height root)) root t = Some (DKept root', ret) /\ g = false /\
        ls' = layer_set ls p (if N.eqb (bt_id root') (bt_id root) then root' else set_root_flag root' true))
     \/ (bt_delete (S (bt_height root)) root t = Some (DGone, ret) /\ g = true /\ p <> [] /\ ls' = layer_del ls p)
     \/ (exists l rank slot s, root = BLeaf l /\ p = [] /\ leaf_lookup l t = Some (rank, slot, s) /\
           leaf_cnk l = 1%N /\ g = false /\ ret = [] /\
           ls' = layer_set ls [] (BLeaf (leaf_with (leaf_delete l rank slot)
                                          (set_deleted (lf_ver (leaf_delete l rank slot)) true)
                                          (lf_perm (leaf_delete l rank slot)) (lf_slots (leaf_delete l rank slot)))))).
Proof.
  unfold layer_remove. intros E. destruct (layer_get ls p) as [root|]; [|discriminate].
  exists root. split; [reflexivity|].
  destruct (bt_delete (S (bt_height root)) root t) as [[[root'|] ret0]|] eqn:Ed; [| |discriminate].
  - injection E as <- <- <-. left. exists root'. repeat split.
  - destruct p as [|x p]; [|injection E as <- <- <-; right; left; repeat split; discriminate].
    destruct root as [l|]; [|discriminate]. right. right.
    apply bt_delete_leaf_inv in Ed. destruct Ed as (rank & slot & s & El & Hc).
    rewrite El in E. injection E as <- <- <-. exists l, rank, slot, s.
    destruct (N.eqb_spec (leaf_cnk l) 1) as [E1|_]; [repeat split; assumption|destruct Hc; discriminate].
Qed.

Theorem layer_remove_spec ls p k root :
  layer_get ls p = Some root -> WF_layer root -> kt_wf k = true -> In k (bt_keys root) ->
  exists ls' gone ret,
    layer_remove ls p k = Some (ls', gone, ret) /\
    ((* the layer keeps a non-empty tree *)
     (gone = false /\
      exists root' root'',
        bt_delete (S (bt_height root)) root k = Some (DKept root', ret) /\
        root'' = (if N.eqb (bt_id root') (bt_id root) then root' else set_root_flag root' true) /\
        ls' = layer_set ls p root'' /\ WF_layer root'' /\ bt_elems root'' <> [] /\
        (exists A s B, bt_elems root = A ++ s :: B /\ sl_key s = k /\ bt_elems root'' = A ++ B) /\
        Permutation (bt_ids root) (ret ++ bt_ids root''))
     \/
     (* a lower layer vanishes with its only entry *)
     (gone = true /\ p <> [] /\ ls' = layer_del ls p /\
      exists l s, root = BLeaf l /\ leaf_entries l = [s] /\ sl_key s = k /\ ret = [lf_id l])
     \/
     (* the top layer's root leaf stays, now empty *)
     (gone = false /\ p = [] /\ ret = [] /\
      exists l s l'', root = BLeaf l /\ leaf_entries l = [s] /\ sl_key s = k /\
                      ls' = layer_set ls p (BLeaf l'') /\ WF_layer (BLeaf l'') /\
                      leaf_entries l'' = [] /\ lf_id l'' = lf_id l)).
Proof.
  intros Hget [Hwf Hnd] Hk Hin. unfold layer_remove. rewrite Hget.
  destruct (bt_delete_spec k (S (bt_height root)) root None None Hwf Hk Hin ltac:(lia))
    as (res & ret & E & Hperm & Hres).
  rewrite E. destruct res as [root'|].
  - destruct Hres as (Hwf' & Hne' & Hel).
    eexists. exists false, ret. split; [reflexivity|]. left. split; [reflexivity|].
    exists root'. eexists. split; [reflexivity|]. split; [reflexivity|]. split; [reflexivity|].
    cbn [dres_ids] in Hperm.
    pose proof (Permutation_NoDup Hperm Hnd) as Hnd'. apply NoDup_app in Hnd'.
    destruct Hnd' as (_ & Hnd' & _).
    destruct (N.eqb (bt_id root') (bt_id root)).
    + split; [split; assumption|]. split; [exact Hne'|]. split; [exact Hel|exact Hperm].
    + rewrite set_root_flag_elems, set_root_flag_ids.
      split; [apply set_root_flag_WF_layer; split; assumption|].
      split; [exact Hne'|]. split; [exact Hel|exact Hperm].
  - destruct Hres as (l & s & -> & Hentries & Hsk & ->).
    destruct p as [|x p].
    + apply WF_leaf_iff in Hwf. destruct Hwf as [Hl _].
      rewrite bt_keys_leaf in Hin.
      destruct (leaf_lookup_in l k Hl Hk Hin) as (r & slot & s' & El & Hr & _).
      rewrite El. destruct (leaf_delete_spec l r slot s' Hl Hr) as (D1 & D2 & D3).
      set (l' := leaf_delete l r slot) in *.
      set (l'' := leaf_with l' (set_deleted (lf_ver l') true) (lf_perm l') (lf_slots l')).
      eexists. exists false, []. split; [reflexivity|]. right. right.
      split; [reflexivity|]. split; [reflexivity|]. split; [reflexivity|].
      exists l, s, l''. split; [reflexivity|]. split; [exact Hentries|]. split; [exact Hsk|].
      split; [reflexivity|].
      assert (leaf_entries l'' = []) as He''.
      { change (leaf_entries l'') with (leaf_entries l'). rewrite D1, Hentries.
        pose proof (leaf_ranked_entries l r slot s' Hr) as X. rewrite Hentries in X.
        destruct r as [|r]; [reflexivity|]. destruct r; discriminate. }
      split; [|split; [exact He''|exact D3]].
      split; [|constructor; [intros []|constructor]].
      apply WF_leaf_iff. split; [exact D2|].
      rewrite (leaf_keys_of _ _ He''). constructor.
    + eexists. exists true, [lf_id l]. split; [reflexivity|]. right. left.
      split; [reflexivity|]. split; [discriminate|]. split; [reflexivity|].
      exists l, s. repeat split; assumption.
Qed.

(** ** repeated insertion (to build well-formed layers) *)
Fixpoint put_all (t : bt) (ctr : N) (kvs : list (ktuple * lvw)) : option (bt * N) :=
  match kvs with
  | [] => Some (t, ctr)
  | (k, lv) :: r =>
    match layer_put t k lv ctr with
    | Some (t', _, c') => put_all t' c' r
    | None => None
    end
  end.

Lemma put_all_spec kvs : forall t ctr,
  WF_layer t -> (forall i, In i (bt_ids t) -> (i < ctr)%N) ->
  Forall (fun kv => kt_wf (fst kv) = true /\ entry_ok {| sl_key := fst kv; sl_lv := snd kv |}) kvs ->
  NoDup (map fst kvs) -> (forall k, In k (map fst kvs) -> ~ In k (bt_keys t)) ->
  exists t' ctr',
    put_all t ctr kvs = Some (t', ctr') /\ WF_layer t' /\
    (forall i, In i (bt_ids t') -> (i < ctr')%N) /\
    Permutation (bt_elems t')
                (map (fun kv => {| sl_key := fst kv; sl_lv := snd kv |}) kvs ++ bt_elems t).
Proof.
  induction kvs as [|[k lv] kvs IH]; intros t ctr Hwf Hctr Hall Hnd Hfresh.
  - exists t, ctr. split; [reflexivity|]. split; [exact Hwf|]. split; [exact Hctr|apply Permutation_refl].
  - apply Forall_cons_iff in Hall. destruct Hall as [[Hk Hok] Hall]. cbn [fst snd] in Hk, Hok.
    cbn [map fst] in Hnd, Hfresh. apply NoDup_cons_iff in Hnd. destruct Hnd as [Hkn Hnd].
    destruct (layer_put_spec t k lv ctr Hwf Hk (Hfresh k (or_introl eq_refl)) Hok Hctr)
      as (t1 & info & c1 & E & Hwf1 & _ & _ & Hperm & _ & Hctr1 & _).
    destruct (IH t1 c1 Hwf1 Hctr1 Hall Hnd) as (t' & c' & E' & Hwf' & Hctr' & Hperm').
    { intros k' Hk' X. unfold bt_keys in X.
      apply (Permutation_in _ (Permutation_map sl_key Hperm)) in X. cbn [map sl_key] in X.
      destruct X as [<-|X]; [exact (Hkn Hk')|]. exact (Hfresh k' (or_intror Hk') X). }
    exists t', c'. cbn [put_all]. rewrite E. split; [exact E'|]. split; [exact Hwf'|].
    split; [exact Hctr'|]. cbn [map fst snd app].
    eapply Permutation_trans; [exact Hperm'|].
    eapply Permutation_trans; [apply Permutation_app_head; exact Hperm|].
    apply Permutation_sym. apply Permutation_middle.
Qed.

Lemma single_leaf_WF_layer id k lv :
  entry_ok {| sl_key := k; sl_lv := lv |} ->
  WF_layer (BLeaf (single_leaf id k lv)) /\
  bt_elems (BLeaf (single_leaf id k lv)) = [{| sl_key := k; sl_lv := lv |}] /\
  bt_ids (BLeaf (single_leaf id k lv)) = [id].
Proof.
  intros Hok. destruct (single_leaf_spec id k lv Hok) as (H1 & H2 & H3).
  split; [|split; [exact H2|cbn [bt_ids]; rewrite H3; reflexivity]].
  split.
  - apply WF_leaf_iff. split; [exact H1|]. rewrite (leaf_keys_of _ _ H2).
    constructor; [split; exact I|constructor].
  - cbn [bt_ids]. constructor; [intros []|constructor].
Qed.

Lemma single_leaf_keys id k lv : bt_keys (BLeaf (single_leaf id k lv)) = [k].
Proof. reflexivity. Qed.

Lemma empty_leaf_WF_layer id v :
  WF_layer (BLeaf {| lf_id := id; lf_ver := v; lf_perm := 0; lf_slots := fresh_slots |}) /\
  bt_elems (BLeaf {| lf_id := id; lf_ver := v; lf_perm := 0; lf_slots := fresh_slots |}) = [].
Proof.
  destruct (empty_leaf_WF id v) as [H1 H2]. split; [|exact H2]. split.
  - apply WF_leaf_iff. split; [exact H1|]. rewrite (leaf_keys_of _ _ H2). constructor.
  - cbn [bt_ids]. constructor; [intros []|constructor].
Qed.

(** ** sanity: the hypotheses are satisfiable on a two-level layer, and the
    conclusions are what the executable model computes (an interior node that splits, the
    fifteen-key case of [int_absorb_spec], is met in VersionReportProofs.VersionReportExample) *)
Module LayerExample.
  Local Open Scope N_scope.
  Definition kk (i : N) : ktuple := {| ks := (i * 37 mod 101) * 256; kl := 7 |}.
  Definition vv (i : N) : lvw := LValue {| v_id := i; v_bytes := []; v_align := 8; v_inline := false |}.
  Definition kvs : list (ktuple * lvw) := map (fun i => (kk (N.of_nat i), vv (N.of_nat i))) (seq 1 40).
  Definition root0 : bt := BLeaf (single_leaf 1 (kk 0) (vv 0)).
  Definition t40 : bt := match put_all root0 2 kvs with Some (t, _) => t | None => root0 end.

  Example t40_shape : bt_height t40 = 1%nat /\ length (bt_elems t40) = 41%nat /\
                      length (bt_leaves t40) = 4%nat.
  Proof. vm_compute. repeat split. Qed.

  Fixpoint nodupb (l : list ktuple) : bool :=
    match l with [] => true | a :: r => negb (existsb (kt_eq a) r) && nodupb r end.
  Lemma existsb_kt_eq_false a l : existsb (kt_eq a) l = false -> ~ In a l.
  Proof.
    intros H X. assert (existsb (kt_eq a) l = true) as Y; [|congruence].
    apply existsb_exists. exists a. split; [exact X|apply kt_eq_refl].
  Qed.
  Lemma nodupb_sound l : nodupb l = true -> NoDup l.
  Proof.
    induction l as [|a l IH]; cbn [nodupb]; intros H; [constructor|].
    apply andb_true_iff in H. destruct H as [H1 H2]. apply negb_true_iff in H1.
    constructor; [apply existsb_kt_eq_false; exact H1|apply IH; exact H2].
  Qed.

  Example t40_WF : WF_layer t40.
  Proof.
    assert (entry_ok {| sl_key := kk 0; sl_lv := vv 0 |}) as Hok0
      by (split; [vm_compute; reflexivity|cbn; lia]).
    destruct (single_leaf_WF_layer 1 (kk 0) (vv 0) Hok0) as (H1 & H2 & H3). fold root0 in H1, H2, H3.
    destruct (put_all_spec kvs root0 2 H1) as (t' & c' & E & Hwf & _).
    - rewrite H3. intros i [<-|[]]. lia.
    - let e := eval vm_compute in kvs in change kvs with e.
      repeat (apply Forall_cons; [split; [vm_compute; reflexivity|split; [vm_compute; reflexivity|cbn; lia]]|]).
      apply Forall_nil.
    - apply nodupb_sound. vm_compute. reflexivity.
    - intros k Hk X. unfold root0 in X. rewrite single_leaf_keys in X.
      destruct X as [<-|[]]. revert Hk. apply existsb_kt_eq_false. vm_compute. reflexivity.
    - unfold t40. rewrite E. exact Hwf.
  Qed.

  Example t40_lookup : layer_lookup t40 (kk 5) = Some {| sl_key := kk 5; sl_lv := vv 5 |}.
  Proof. vm_compute. reflexivity. Qed.

  Example t40_has_5 : In (kk 5) (bt_keys t40).
  Proof.
    pose proof t40_WF as [Hwf _].
    pose proof t40_lookup as L.
    apply (layer_lookup_some t40 (kk 5) _ Hwf) in L; [|vm_compute; reflexivity].
    destruct L as [H _]. apply in_elems_in_keys in H. exact H.
  Qed.

  Example t40_remove_applies :
    exists ls' gone ret, layer_remove [([], t40)] [] (kk 5) = Some (ls', gone, ret) /\ gone = false.
  Proof.
    destruct (layer_remove_spec [([], t40)] [] (kk 5) t40 eq_refl t40_WF ltac:(vm_compute; reflexivity) t40_has_5)
      as (ls' & gone & ret & E & [(G & _)|[(G & Hp & _)|(G & _)]]).
    - exists ls', gone, ret. split; assumption.
    - exfalso. apply Hp. reflexivity.
    - exists ls', gone, ret. split; assumption.
  Qed.

  Example t40_remove_computed :
    match layer_remove [([], t40)] [] (kk 5) with
    | Some ([(_, t)], gone, ret) => (length (bt_elems t), gone, ret, existsb (kt_eq (kk 5)) (bt_keys t))
    | _ => (0%nat, true, [], true)
    end = (40%nat, false, [], false).
  Proof. vm_compute. reflexivity. Qed.
End LayerExample.

(** ** axiom audit *)
Print Assumptions bt_elems_sorted.
Print Assumptions sorted_perm_eq.
Print Assumptions WF_bt_widen.
Print Assumptions bt_set_ver_WF.
Print Assumptions find_leaf_spec.
Print Assumptions bt_find_leaf_fuel.
Print Assumptions layer_lookup_some.
Print Assumptions layer_lookup_none.
Print Assumptions find_leaf_lookup.
Print Assumptions bt_put_spec.
Print Assumptions layer_put_spec.
Print Assumptions put_all_spec.
Print Assumptions bt_update_leaf_spec.
Print Assumptions layer_update_spec.
Print Assumptions bt_delete_spec.
Print Assumptions bt_delete_ids.
Print Assumptions layer_remove_spec.
Print Assumptions bt_leaves_elems.
Print Assumptions bt_leaves_WF.
Print Assumptions bt_leaves_nonempty_root.
Print Assumptions LayerExample.t40_WF.
