(** * VersionProofs: getter/setter algebra of the 64-bit node version word,
    exact reading of [unlock], [try_lock], [is_stable]; [decode_version] is
    injective on 64-bit words; what the trace monitor [ver_write_ok] accepts. *)
From Coq Require Import NArith Lia Bool.
From Yk Require Import ListAux Word64 Nibble VersionDefs.
Local Open Scope N_scope.

(** ** Generic bit / field lemmas *)

Lemma testbit_b2n b n : N.testbit (b2n b) n = b && (n =? 0).
Proof.
  destruct b; cbn [b2n andb].
  - destruct (N.eqb_spec n 0) as [->|H]; [reflexivity|].
    apply (testbit_small 1 1); [reflexivity|lia].
  - apply N.bits_0.
Qed.

Lemma testbit_set_bit w pos b n :
  N.testbit (set_bit w pos b) n = if n =? pos then b else N.testbit w n.
Proof.
  unfold set_bit. rewrite testbit_set_field.
  destruct (N.eqb_spec n pos) as [->|Hne].
  - destruct (N.leb_spec pos pos); [|lia].
    destruct (N.ltb_spec pos (pos + 1)); [|lia].
    cbn [andb]. rewrite N.sub_diag, testbit_b2n, N.eqb_refl. apply andb_true_r.
  - destruct (N.leb_spec pos n); destruct (N.ltb_spec n (pos + 1)); try lia; reflexivity.
Qed.

Lemma testbit_mod_pow2 v len n : N.testbit (v mod 2 ^ len) n = N.testbit v n && (n <? len).
Proof. rewrite <- N.land_ones, N.land_spec, testbit_ones. reflexivity. Qed.

Lemma field_div_mod w lo len : field w lo len = (w / 2 ^ lo) mod 2 ^ len.
Proof. unfold field. rewrite N.land_ones, N.shiftr_div_pow2. reflexivity. Qed.

Lemma field_lt w lo len : field w lo len < 2 ^ len.
Proof.
  apply lt_pow2_bits. intros n Hn. rewrite testbit_field.
  destruct (N.ltb_spec n len); [lia|]. apply andb_false_r.
Qed.

Lemma get_set_bit_same w p b : get_bit (set_bit w p b) p = b.
Proof. unfold get_bit. rewrite testbit_set_bit, N.eqb_refl. reflexivity. Qed.

Lemma get_set_bit_other w p q b : p <> q -> get_bit (set_bit w p b) q = get_bit w q.
Proof.
  intros H. unfold get_bit. rewrite testbit_set_bit.
  destruct (N.eqb_spec q p); [congruence|reflexivity].
Qed.

Lemma field_set_bit_out w p b lo len :
  p < lo \/ lo + len <= p -> field (set_bit w p b) lo len = field w lo len.
Proof.
  intros H. apply N.bits_inj. intros n. rewrite !testbit_field, testbit_set_bit.
  destruct (N.ltb_spec n len) as [Hn|Hn]; [|rewrite !andb_false_r; reflexivity].
  destruct (N.eqb_spec (n + lo) p); [lia|reflexivity].
Qed.

Lemma get_bit_set_field_out w lo len v p :
  p < lo \/ lo + len <= p -> get_bit (set_field w lo len v) p = get_bit w p.
Proof.
  intros H. unfold get_bit. rewrite testbit_set_field.
  destruct (N.leb_spec lo p); destruct (N.ltb_spec p (lo + len)); try lia; reflexivity.
Qed.

Lemma field_set_field_same w lo len v : field (set_field w lo len v) lo len = v mod 2 ^ len.
Proof.
  apply N.bits_inj. intros n. rewrite testbit_field, testbit_set_field, testbit_mod_pow2.
  destruct (N.ltb_spec n len); [|rewrite !andb_false_r; reflexivity].
  rewrite !andb_true_r.
  destruct (N.leb_spec lo (n + lo)); [|lia].
  destruct (N.ltb_spec (n + lo) (lo + len)); [|lia].
  cbn [andb]. f_equal. lia.
Qed.

Lemma field_set_field_disj w lo len v lo' len' :
  lo' + len' <= lo \/ lo + len <= lo' ->
  field (set_field w lo len v) lo' len' = field w lo' len'.
Proof.
  intros H. apply N.bits_inj. intros n. rewrite !testbit_field, testbit_set_field.
  destruct (N.ltb_spec n len'); [|rewrite !andb_false_r; reflexivity].
  destruct (N.leb_spec lo (n + lo')); destruct (N.ltb_spec (n + lo') (lo + len));
    try lia; reflexivity.
Qed.

Lemma set_field_lt64 w lo len v : w < w64 -> lo + len <= 64 -> set_field w lo len v < w64.
Proof.
  intros Hw H. change w64 with (2 ^ 64). apply lt_pow2_bits. intros n Hn.
  rewrite testbit_set_field.
  destruct (N.leb_spec lo n); destruct (N.ltb_spec n (lo + len)); try lia; cbn [andb];
    apply (testbit_small w 64); assumption.
Qed.

Lemma set_bit_lt64 w p b : w < w64 -> p < 64 -> set_bit w p b < w64.
Proof. intros Hw H. unfold set_bit. apply set_field_lt64; [exact Hw|lia]. Qed.

Lemma field_bit_eq w w' lo len n :
  field w lo len = field w' lo len -> lo <= n -> n < lo + len ->
  N.testbit w n = N.testbit w' n.
Proof.
  intros E H1 H2.
  assert (N.testbit (field w lo len) (n - lo) = N.testbit (field w' lo len) (n - lo)) as Eb
    by (rewrite E; reflexivity).
  rewrite !testbit_field in Eb.
  replace (n - lo + lo) with n in Eb by lia.
  destruct (N.ltb_spec (n - lo) len); [|lia].
  rewrite !andb_true_r in Eb. exact Eb.
Qed.

Lemma succ_mod_neq x k : 1 <= k -> x < 2 ^ k -> (x + 1) mod 2 ^ k <> x.
Proof.
  intros Hk Hx.
  assert (2 <= 2 ^ k) as H2.
  { change 2 with (2 ^ 1) at 1. apply N.pow_le_mono_r; lia. }
  destruct (N.lt_ge_cases (x + 1) (2 ^ k)) as [Hlt|Hge].
  - rewrite N.mod_small by exact Hlt. lia.
  - assert (x + 1 = 2 ^ k) as -> by lia.
    rewrite N.mod_same by lia. lia.
Qed.

(** ** Tactics

    [vunfold] reduces every named accessor to [get_bit]/[set_bit]/[field]/
    [set_field] at the positions of VersionDefs.v; [vrw] then reads a getter
    of a setter with the generic lemmas above.  The side conditions (two
    positions differ, a bit lies outside a counter field, the two counter fields
    are disjoint) are closed comparisons of numerals, which [vside] decides.
    [vlt]: a chain of setters applied to a 64-bit word is a 64-bit word. *)

Ltac vunfold :=
  unfold get_locked, get_inserting_deleting, get_splitting, get_deleted, get_root, get_border,
         set_locked, set_inserting_deleting, set_splitting, set_deleted, set_root, set_border,
         inc_vinsert_delete, inc_vsplit, get_vinsert_delete, get_vsplit in *.

Ltac vside :=
  unfold locked_bit, insdel_bit, splitting_bit, deleted_bit, root_bit, border_bit,
         vins_lo, vins_len, vsplit_lo, vsplit_len; lia.

Ltac vrw :=
  repeat first
    [ rewrite get_set_bit_same
    | rewrite get_set_bit_other by vside
    | rewrite field_set_bit_out by vside
    | rewrite get_bit_set_field_out by vside
    | rewrite field_set_field_same
    | rewrite field_set_field_disj by vside ].

Ltac vlt :=
  repeat first [ apply set_bit_lt64; [|vside] | apply set_field_lt64; [|vside] ]; assumption.

Ltac vframe := intros; vunfold; vrw; reflexivity.

(** ** Flag setters and counters

    [vframe] proves any fact of the form [get_X (op w) = ...] for a setter or counter [op], so a
    proof that needs one states it and calls [vframe] (Properties_C17.v does so for every setter
    and counter).  Named here: a flag reads back what was written; the two counters as arithmetic
    on the word; and that the setters a border split uses leave the deleted flag alone, which the
    scans' invariant follows through every version word a put installs. *)

Lemma get_inserting_deleting_set_inserting_deleting w b :
  get_inserting_deleting (set_inserting_deleting w b) = b.
Proof. vframe. Qed.
Lemma get_splitting_set_splitting w b : get_splitting (set_splitting w b) = b.
Proof. vframe. Qed.
Lemma get_deleted_set_deleted w b : get_deleted (set_deleted w b) = b.
Proof. vframe. Qed.
Lemma get_root_set_root w b : get_root (set_root w b) = b.
Proof. vframe. Qed.
Lemma get_border_set_border w b : get_border (set_border w b) = b.
Proof. vframe. Qed.

Lemma get_deleted_set_splitting w b : get_deleted (set_splitting w b) = get_deleted w.
Proof. vframe. Qed.
Lemma get_deleted_set_root w b : get_deleted (set_root w b) = get_deleted w.
Proof. vframe. Qed.

Lemma get_vinsert_delete_lt w : get_vinsert_delete w < 2 ^ 29.
Proof. apply field_lt. Qed.

Lemma get_vsplit_lt w : get_vsplit w < 2 ^ 29.
Proof. apply field_lt. Qed.

Lemma get_vinsert_delete_div_mod w : get_vinsert_delete w = w mod 2 ^ 29.
Proof.
  unfold get_vinsert_delete, vins_lo, vins_len. rewrite field_div_mod.
  rewrite N.pow_0_r, N.div_1_r. reflexivity.
Qed.

Lemma get_vsplit_div_mod w : get_vsplit w = (w / 2 ^ 32) mod 2 ^ 29.
Proof. apply field_div_mod. Qed.

Lemma inc_vsplit_frame w :
  get_vsplit (inc_vsplit w) = (get_vsplit w + 1) mod 2 ^ 29 /\
  get_locked (inc_vsplit w) = get_locked w /\
  get_inserting_deleting (inc_vsplit w) = get_inserting_deleting w /\
  get_splitting (inc_vsplit w) = get_splitting w /\
  get_deleted (inc_vsplit w) = get_deleted w /\
  get_root (inc_vsplit w) = get_root w /\
  get_border (inc_vsplit w) = get_border w /\
  get_vinsert_delete (inc_vsplit w) = get_vinsert_delete w.
Proof. repeat split; vframe. Qed.

(** ** [decode_version] loses nothing on 64-bit words *)

Lemma decode_version_inj w w' :
  w < w64 -> w' < w64 -> decode_version w = decode_version w' -> w = w'.
Proof.
  intros Hw Hw' E. unfold decode_version in E.
  injection E as Evi El Ei Es Evs Ed Er Eb.
  vunfold. unfold get_bit in *.
  unfold vins_lo, vins_len, vsplit_lo, vsplit_len,
         locked_bit, insdel_bit, splitting_bit, deleted_bit, root_bit, border_bit in *.
  apply N.bits_inj. intros n.
  destruct (N.lt_ge_cases n 29) as [H29|H29].
  { apply (field_bit_eq w w' 0 29 n Evi); lia. }
  destruct (N.eq_dec n 29) as [->|N29]; [exact El|].
  destruct (N.eq_dec n 30) as [->|N30]; [exact Ei|].
  destruct (N.eq_dec n 31) as [->|N31]; [exact Es|].
  destruct (N.lt_ge_cases n 61) as [H61|H61].
  { apply (field_bit_eq w w' 32 29 n Evs); lia. }
  destruct (N.eq_dec n 61) as [->|N61]; [exact Ed|].
  destruct (N.eq_dec n 62) as [->|N62]; [exact Er|].
  destruct (N.eq_dec n 63) as [->|N63]; [exact Eb|].
  rewrite (testbit_small w 64), (testbit_small w' 64); [reflexivity|..]; try assumption; lia.
Qed.

(** ** unlock *)

Lemma unlock_getters w :
  get_locked (unlock w) = false /\
  get_inserting_deleting (unlock w) = false /\
  get_splitting (unlock w) = false /\
  get_vinsert_delete (unlock w) =
    (if get_inserting_deleting w then (get_vinsert_delete w + 1) mod 2 ^ 29
     else get_vinsert_delete w) /\
  get_vsplit (unlock w) =
    (if get_splitting w then (get_vsplit w + 1) mod 2 ^ 29 else get_vsplit w) /\
  get_deleted (unlock w) = get_deleted w /\
  get_root (unlock w) = get_root w /\
  get_border (unlock w) = get_border w.
Proof.
  unfold unlock. cbv zeta.
  (* the first step does not touch the flag the second step tests *)
  assert (get_splitting (if get_inserting_deleting w
                         then set_inserting_deleting (inc_vinsert_delete w) false else w)
          = get_splitting w) as -> by (destruct (get_inserting_deleting w); vframe).
  destruct (get_inserting_deleting w) eqn:Ei, (get_splitting w) eqn:Es;
    repeat split; vunfold; vrw; rewrite ?Ei, ?Es; reflexivity.
Qed.

Lemma get_locked_unlock w : get_locked (unlock w) = false.
Proof. apply unlock_getters. Qed.

Lemma get_vinsert_delete_unlock w :
  get_vinsert_delete (unlock w) =
    if get_inserting_deleting w then (get_vinsert_delete w + 1) mod 2 ^ 29
    else get_vinsert_delete w.
Proof. apply unlock_getters. Qed.

Lemma get_vsplit_unlock w :
  get_vsplit (unlock w) =
    if get_splitting w then (get_vsplit w + 1) mod 2 ^ 29 else get_vsplit w.
Proof. apply unlock_getters. Qed.

Lemma get_deleted_unlock w : get_deleted (unlock w) = get_deleted w.
Proof. apply unlock_getters. Qed.

Lemma unlock_lt w : w < w64 -> unlock w < w64.
Proof.
  intros Hw. unfold unlock. cbv zeta.
  destruct (get_inserting_deleting w); destruct (get_splitting _); vunfold; vlt.
Qed.

(** ** try_lock *)

Lemma try_lock_some w w' : try_lock w = Some w' <-> get_locked w = false /\ w' = set_locked w true.
Proof.
  unfold try_lock. destruct (get_locked w); split.
  - discriminate.
  - intros [H _]. discriminate.
  - intros [= <-]. split; reflexivity.
  - intros [_ ->]. reflexivity.
Qed.

Lemma try_lock_none w : try_lock w = None <-> get_locked w = true.
Proof.
  unfold try_lock. destruct (get_locked w); split; intros H; try reflexivity; discriminate.
Qed.

(** ** stable *)

Lemma stable_clean w :
  is_stable w = true <->
  get_locked w = false /\ get_inserting_deleting w = false /\ get_splitting w = false.
Proof.
  unfold is_stable.
  destruct (get_inserting_deleting w), (get_locked w), (get_splitting w); cbn [negb andb];
    split; try (intros H; discriminate H); try (intros (H1 & H2 & H3); discriminate);
    intros _; repeat split.
Qed.

(** ** an unlock always changes the word *)

Lemma unlock_changes_word w : get_locked w = true -> unlock w <> w.
Proof. intros Hl E. pose proof (get_locked_unlock w) as H. rewrite E, Hl in H. discriminate. Qed.

Lemma unlock_moves_vinsert_delete w :
  get_inserting_deleting w = true -> get_vinsert_delete (unlock w) <> get_vinsert_delete w.
Proof.
  intros Hi. rewrite get_vinsert_delete_unlock, Hi.
  apply succ_mod_neq; [lia|apply get_vinsert_delete_lt].
Qed.

Lemma unlock_moves_vsplit w :
  get_splitting w = true -> get_vsplit (unlock w) <> get_vsplit w.
Proof.
  intros Hs. rewrite get_vsplit_unlock, Hs.
  apply succ_mod_neq; [lia|apply get_vsplit_lt].
Qed.

(** ** init *)

Lemma version_init_decode :
  decode_version version_init =
  {| f_vins := 0; f_locked := false; f_insdel := false; f_splitting := false;
     f_vsplit := 0; f_deleted := false; f_root := false; f_border := false |}.
Proof. vm_compute. reflexivity. Qed.

Lemma version_init_lt : version_init < w64.
Proof. reflexivity. Qed.

(** ** What the trace monitor [ver_write_ok] guarantees *)

Lemma monitor_lock cur nw : ver_write_ok cur nw true = true ->
  get_locked cur = false /\ nw = set_locked cur true /\ get_locked nw = true.
Proof.
  unfold ver_write_ok. intros H. apply andb_true_iff in H as [H1 H2].
  apply negb_true_iff in H1. apply N.eqb_eq in H2. subst nw.
  repeat split; auto. vframe.
Qed.

Lemma ver_setters_keep_lock cur b nw :
  In nw (ver_setters cur b) -> get_locked nw = get_locked cur.
Proof. intros H. repeat destruct H as [<-|H]; try vframe. destruct H. Qed.

Lemma monitor_nonlock cur nw : ver_write_ok cur nw false = true ->
  nw = unlock cur \/ get_locked nw = get_locked cur.
Proof.
  unfold ver_write_ok. rewrite !orb_true_iff, !existsb_eqb_In, !N.eqb_eq.
  intros [[[->| ->]|H]|H]; [left; reflexivity|right; vframe|right..];
    eapply ver_setters_keep_lock; eassumption.
Qed.

(** so a release always carries the counter increments for the dirty bits set at
    that instant *)
Lemma monitor_release cur nw : ver_write_ok cur nw false = true ->
  get_locked cur = true -> get_locked nw = false -> nw = unlock cur.
Proof. intros H Hc Hn. destruct (monitor_nonlock _ _ H) as [E|E]; [exact E|congruence]. Qed.

Lemma monitor_no_steal cur nw : ver_write_ok cur nw false = true ->
  get_locked cur = false -> get_locked nw = false.
Proof.
  intros H Hc. destruct (monitor_nonlock _ _ H) as [->|E]; [apply get_locked_unlock|congruence].
Qed.
