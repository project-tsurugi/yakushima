(** * ChainLimProofs: the size-limited forward scan and the right-to-left scan (model: ChainLimDefs.v)

    The embedded layer evolves by writer events only ([lw_wtrans]), so [wtrans] of ChainProofs relates the
    projections [cstate_with s sc].  A reachable state is in one of three regimes ([LInv]):
      - F   forward scan not cut by the limit: its projection [cstate_of s] is a state of the unlimited scanner
            of ChainDefs, every step of it is a step of [cstep true], so [CInv] holds verbatim;
      - Cut forward scan ended by the limit after it delivered [d]: a finished scan of the interval up to [d],
            so its projection with the right end [Some d] satisfies [CInv] as well;
      - R   right-to-left scan: one border (the last live one), a small invariant of its own.

    A remove does not change the version word of its border: a validated snapshot is a SUPERSET of the keys its
    border has while the version stays the same.  So the phantom clause is: every current key of the covered part
    of the interval is in the result (forward), resp. not above the delivered key (right-to-left); exact only
    when no remove happened since the invocation. *)
From Coq Require Import NArith List Bool Lia PeanoNat.
From Yk Require Import ListAux ChainDefs ChainProofs ChainLimDefs.
Import ListNotations.
Local Open Scope N_scope.

(** ** Projection to the unlimited scanner's state space *)
Definition cscan_of (sc : lscan) : cscan :=
  {| sc_pc := ls_pc sc; sc_l := ls_l sc; sc_r := ls_r sc; sc_cur := ls_cur sc; sc_v := ls_v sc;
     sc_snap := ls_snap sc; sc_nxt := ls_nxt sc; sc_nv := ls_nv sc; sc_res := ls_res sc;
     sc_nvset := ls_nvset sc; sc_restarts := ls_restarts sc |}.
Definition cstate_with (s : lstate) (sc : cscan) : cstate :=
  {| c_nodes := c_nodes (l_c s); c_fresh := c_fresh (l_c s); c_scan := sc;
     c_stable := l_stable s; c_ever := l_ever s |}.
Definition cstate_of (s : lstate) : cstate := cstate_with s (cscan_of (l_scan s)).

Lemma scanning_cscan_of sc : scanning (cscan_of sc) = lscanning sc.
Proof. reflexivity. Qed.

Lemma lrun_eq s evs :
  lrun s evs = match evs with
               | [] => Some s
               | e :: tl => match lstep s e with Some s' => lrun s' tl | None => None end
               end.
Proof. destruct evs; reflexivity. Qed.

Lemma lw_wtrans s w s' sc :
  lstep s (LW w) = Some s' -> scanning sc = lscanning (l_scan s) ->
  wtrans w (cstate_with s sc) (cstate_with s' sc) /\ l_scan s' = l_scan s.
Proof.
  cbn [lstep]. intros H Hsc. destruct (lwriter w) eqn:Hw; [|discriminate].
  rewrite (cstep_writer true (l_c s) w Hw) in H.
  destruct (wstep (c_nodes (l_c s)) (c_fresh (l_c s)) w) as [[ns' f']|] eqn:E; [|discriminate].
  injection H as <-. split; [|reflexivity].
  constructor; cbn [cstate_with c_nodes c_fresh c_scan c_stable c_ever l_c l_stable l_ever]; auto.
  rewrite Hsc. reflexivity.
Qed.

(** ** The steps of the limited scanner against those of the unlimited one *)

Definition lrestart (l : N) (r : option N) (mx : nat) (rtl : bool) (rs : N) (n : cnode) : lscan :=
  {| ls_pc := CRead; ls_l := l; ls_r := r; ls_max := mx; ls_rtl := rtl; ls_cur := cn_id n; ls_v := cn_ver n;
     ls_snap := []; ls_nxt := None; ls_nv := cver0; ls_res := []; ls_nvset := []; ls_restarts := rs |}.
Definition ls_read (sc : lscan) (n : cnode) : lscan :=
  {| ls_pc := CNextVer; ls_l := ls_l sc; ls_r := ls_r sc; ls_max := ls_max sc; ls_rtl := ls_rtl sc;
     ls_cur := ls_cur sc; ls_v := ls_v sc; ls_snap := cn_keys n; ls_nxt := cn_next n; ls_nv := ls_nv sc;
     ls_res := ls_res sc; ls_nvset := ls_nvset sc; ls_restarts := ls_restarts sc |}.
Definition ls_nextver (sc : lscan) (nv : cver) : lscan :=
  {| ls_pc := CValidate; ls_l := ls_l sc; ls_r := ls_r sc; ls_max := ls_max sc; ls_rtl := ls_rtl sc;
     ls_cur := ls_cur sc; ls_v := ls_v sc; ls_snap := ls_snap sc; ls_nxt := ls_nxt sc; ls_nv := nv;
     ls_res := ls_res sc; ls_nvset := ls_nvset sc; ls_restarts := ls_restarts sc |}.
Definition ls_fin (sc : lscan) (res' : list N) : lscan :=
  {| ls_pc := CDone; ls_l := ls_l sc; ls_r := ls_r sc; ls_max := ls_max sc; ls_rtl := ls_rtl sc;
     ls_cur := ls_cur sc; ls_v := ls_v sc; ls_snap := []; ls_nxt := None; ls_nv := cver0;
     ls_res := res'; ls_nvset := ls_nvset sc ++ [(ls_cur sc, ls_v sc)]; ls_restarts := ls_restarts sc |}.
Definition ls_reread (sc : lscan) (w : cver) : lscan :=
  {| ls_pc := CRead; ls_l := ls_l sc; ls_r := ls_r sc; ls_max := ls_max sc; ls_rtl := ls_rtl sc;
     ls_cur := ls_cur sc; ls_v := w; ls_snap := []; ls_nxt := None; ls_nv := cver0;
     ls_res := ls_res sc; ls_nvset := ls_nvset sc; ls_restarts := ls_restarts sc |}.

(** what a validation delivers: right-to-left the greatest key from [l] on ([gr]); forward, of the keys of the
    snapshot in the interval ([linr]), as many as the limit leaves room for ([ltake]); [lfull]: the limit is reached *)
Definition gr (l : N) (K : list N) : list N :=
  match rev (filter (fun k => l <=? k) K) with [] => [] | k :: _ => [k] end.
Definition linr (sc : lscan) : list N :=
  filter (fun k => le_r k (ls_r sc)) (filter (fun k => ls_l sc <=? k) (ls_snap sc)).
Definition ltake (sc : lscan) : list N :=
  if Nat.eqb (ls_max sc) 0 then linr sc else firstn (ls_max sc - length (ls_res sc)) (linr sc).
Definition lfull (sc : lscan) : bool :=
  negb (Nat.eqb (ls_max sc) 0) && Nat.leb (ls_max sc) (length (ls_res sc ++ ltake sc)).

Lemma lstart_inv ns l r mx rtl rs sc' :
  lstart ns l r mx rtl rs = Some sc' ->
  exists n, (if rtl then last_live None ns else cover l ns) = Some n /\ sc' = lrestart l r mx rtl rs n.
Proof.
  unfold lstart. destruct (if rtl then last_live None ns else cover l ns) as [n|]; [|discriminate].
  intros H. injection H as <-. exists n. split; reflexivity.
Qed.

Lemma lstep_begin s l r mx rtl s' :
  lstep s (LBegin l r mx rtl) = Some s' ->
  ls_pc (l_scan s) = CIdle /\ (rtl = true -> mx = 1%nat /\ r = None) /\
  exists n, (if rtl then last_live None (c_nodes (l_c s)) else cover l (c_nodes (l_c s))) = Some n /\
    s' = {| l_c := l_c s; l_scan := lrestart l r mx rtl 0 n;
            l_stable := all_keys (c_nodes (l_c s)); l_ever := all_keys (c_nodes (l_c s)) |}.
Proof.
  cbn [lstep]. destruct (ls_pc (l_scan s)); try discriminate.
  destruct (rtl && negb (Nat.eqb mx 1 && match r with None => true | Some _ => false end)) eqn:G; [discriminate|].
  destruct (lstart _ _ _ _ _ _) as [sc'|] eqn:E; [|discriminate].
  apply lstart_inv in E as (n&Hn&->). intros H. injection H as <-.
  split; [reflexivity|]. split.
  - intros ->. cbn [andb] in G. apply negb_false_iff in G. apply andb_true_iff in G as [G1 G2].
    apply Nat.eqb_eq in G1. destruct r; [discriminate|]. auto.
  - exists n. auto.
Qed.

Lemma lstep_read s s' :
  lstep s LRead = Some s' ->
  ls_pc (l_scan s) = CRead /\ lscanning (l_scan s) = true /\ cstep true (cstate_of s) ERead = Some (cstate_of s') /\
  exists c, find_node (ls_cur (l_scan s)) (c_nodes (l_c s)) = Some c /\ s' = set_lscan s (ls_read (l_scan s) c).
Proof.
  cbn [lstep cstep cstate_of cstate_with cscan_of c_scan c_nodes sc_pc sc_cur]. unfold lscanning.
  destruct (ls_pc (l_scan s)); try discriminate.
  destruct (find_node _ _) as [c|]; [|discriminate]. intros H. injection H as <-.
  split; [reflexivity|]. split; [reflexivity|]. split; [reflexivity|]. exists c. auto.
Qed.

Lemma lstep_nextver s s' :
  lstep s LNextVer = Some s' ->
  ls_pc (l_scan s) = CNextVer /\ lscanning (l_scan s) = true /\ cstep true (cstate_of s) ENextVer = Some (cstate_of s') /\
  s' = set_lscan s (ls_nextver (l_scan s)
         match ls_nxt (l_scan s) with
         | Some id => match find_node id (c_nodes (l_c s)) with Some n => cn_ver n | None => cver0 end
         | None => cver0 end).
Proof.
  cbn [lstep cstep cstate_of cstate_with cscan_of c_scan c_nodes sc_pc sc_cur]. unfold lscanning.
  destruct (ls_pc (l_scan s)); try discriminate. intros H. injection H as <-. auto.
Qed.

Lemma lbegin_sim s l r mx s' :
  lstep s (LBegin l r mx false) = Some s' -> cstep true (cstate_of s) (EBegin l r) = Some (cstate_of s').
Proof.
  intros H. apply lstep_begin in H as (Hpc&_&n&Hn&->).
  cbn [cstep cstate_of cstate_with cscan_of c_scan c_nodes sc_pc sc_cur]. rewrite Hpc, start_scan_eq, Hn.
  reflexivity.
Qed.

Lemma lvalidate_rtl s s' :
  lstep s LValidate = Some s' -> ls_rtl (l_scan s) = true ->
  let sc := l_scan s in
  ls_pc sc = CValidate /\ lscanning sc = true /\ exists c, find_node (ls_cur sc) (c_nodes (l_c s)) = Some c /\
  ((exists n, last_live None (c_nodes (l_c s)) = Some n /\
      s' = set_lscan s (lrestart (ls_l sc) (ls_r sc) (ls_max sc) true (ls_restarts sc + 1) n)) \/
   (cn_ver c = ls_v sc /\ s' = set_lscan s (ls_fin sc (gr (ls_l sc) (ls_snap sc)))) \/
   (cn_ver c <> ls_v sc /\ cv_del (cn_ver c) = false /\ cv_split (cn_ver c) = cv_split (ls_v sc) /\
    s' = set_lscan s (ls_reread sc (cn_ver c)))).
Proof.
  cbn [lstep]. cbv zeta. unfold lscanning. intros H Hr. destruct (ls_pc (l_scan s)); try discriminate.
  destruct (find_node _ _) as [c|]; [|discriminate]. split; [reflexivity|]. split; [reflexivity|]. exists c.
  split; [reflexivity|]. rewrite Hr in H.
  destruct (cver_eqb_spec (cn_ver c) (ls_v (l_scan s))) as [Ev|Ev].
  - right. left. injection H as <-. split; [exact Ev|].
    unfold ls_fin. rewrite Hr. reflexivity.
  - destruct (negb (cv_split (cn_ver c) =? cv_split (ls_v (l_scan s))) || cv_del (cn_ver c)) eqn:Eo.
    + left. destruct (lstart _ _ _ _ _ _) as [sc'|] eqn:E; [|discriminate].
      apply lstart_inv in E as (n&Hn&->). injection H as <-. exists n. auto.
    + right. right. apply orb_false_iff in Eo as [Eo1 Eo]. injection H as <-.
      apply negb_false_iff, N.eqb_eq in Eo1.
      split; [exact Ev|]. split; [exact Eo|]. split; [exact Eo1|]. unfold ls_reread. rewrite Hr. reflexivity.
Qed.

Lemma lstep_validate_frame s s' : lstep s LValidate = Some s' -> exists sc', s' = set_lscan s sc'.
Proof.
  unfold lstep. cbv zeta. destruct (ls_pc (l_scan s)); try discriminate.
  destruct (find_node _ _) as [c|]; [|discriminate].
  destruct (cver_eqb _ _).
  - destruct (ls_rtl _); [intros H; injection H as <-; eexists; reflexivity|].
    destruct (match last_key _ with Some _ => _ | None => _ end).
    + destruct (lstart _ _ _ _ _ _); [|discriminate]. intros H; injection H as <-; eexists; reflexivity.
    + destruct (if _ || _ then None else ls_nxt (l_scan s)); intros H; injection H as <-; eexists; reflexivity.
  - destruct (_ || _).
    + destruct (lstart _ _ _ _ _ _); [|discriminate]. intros H; injection H as <-; eexists; reflexivity.
    + intros H; injection H as <-; eexists; reflexivity.
Qed.

(** a finished scan takes writer steps only *)
Lemma lstep_done s e s' :
  ls_pc (l_scan s) = CDone -> lstep s e = Some s' -> exists w, e = LW w /\ l_scan s' = l_scan s.
Proof.
  intros Hpc H. destruct e as [w| | | |]; cbn [lstep] in H; rewrite ?Hpc in H; try discriminate.
  exists w. split; [reflexivity|]. destruct (lwriter w); [|discriminate]. destruct (cstep _ _ _); [|discriminate].
  injection H as <-. reflexivity.
Qed.

Lemma in_ltake sc k : In k (ltake sc) -> In k (linr sc).
Proof. unfold ltake. destruct (Nat.eqb (ls_max sc) 0); [auto|apply in_firstn]. Qed.

Lemma lfull_true sc :
  lfull sc = true <-> ls_max sc <> 0%nat /\ (ls_max sc <= length (ls_res sc ++ ltake sc))%nat.
Proof. unfold lfull. rewrite andb_true_iff, negb_true_iff, Nat.eqb_neq, Nat.leb_le. reflexivity. Qed.
Lemma lfull_false sc :
  lfull sc = false <-> ls_max sc = 0%nat \/ (length (ls_res sc ++ ltake sc) < ls_max sc)%nat.
Proof. unfold lfull. rewrite andb_false_iff, negb_false_iff, Nat.eqb_eq, Nat.leb_gt. reflexivity. Qed.

Lemma ltake_notfull sc :
  (ls_max sc <> 0%nat -> (length (ls_res sc) < ls_max sc)%nat) -> lfull sc = false -> ltake sc = linr sc.
Proof.
  intros Hlen H. apply lfull_false in H. unfold ltake in *.
  destruct (Nat.eqb_spec (ls_max sc) 0) as [E|E]; [reflexivity|]. destruct H as [H|H]; [contradiction|].
  rewrite app_length in H. specialize (Hlen E).
  destruct (Nat.le_gt_cases (length (linr sc)) (ls_max sc - length (ls_res sc))) as [Hle|Hgt].
  - apply firstn_all2, Hle.
  - rewrite firstn_length_le in H by lia. lia.
Qed.

(** a validation that reaches the limit delivers, of what the unlimited scanner would deliver here, the first
    [ls_max] keys *)
Lemma lfull_take sc :
  (ls_max sc <> 0%nat -> (length (ls_res sc) < ls_max sc)%nat) -> lfull sc = true ->
  ls_max sc <> 0%nat /\ length (ls_res sc ++ ltake sc) = ls_max sc /\
  ls_res sc ++ ltake sc = firstn (ls_max sc) (deliver_res (cscan_of sc)).
Proof.
  intros Hlt Hfull. apply lfull_true in Hfull as [Hmax Hfull]. specialize (Hlt Hmax).
  assert (Etake : ltake sc = firstn (ls_max sc - length (ls_res sc)) (linr sc)).
  { unfold ltake. destruct (Nat.eqb_spec (ls_max sc) 0); [contradiction|reflexivity]. }
  split; [exact Hmax|]. split.
  - rewrite app_length in *. rewrite Etake in *.
    pose proof (firstn_le_length (ls_max sc - length (ls_res sc)) (linr sc)). lia.
  - change (deliver_res (cscan_of sc)) with (ls_res sc ++ linr sc).
    rewrite firstn_app, Etake. rewrite (firstn_all2 (ls_res sc)) by lia. reflexivity.
Qed.

(** a validation of the forward scan either reaches the limit, or is the step of the unlimited scanner on the
    projection; the result stays below the limit as long as the limit does not end the scan *)
Lemma lvalidate_fwd s s' :
  lstep s LValidate = Some s' -> ls_rtl (l_scan s) = false ->
  (ls_max (l_scan s) <> 0%nat -> (length (ls_res (l_scan s)) < ls_max (l_scan s))%nat) ->
  let sc := l_scan s in
  ls_pc sc = CValidate /\
  ((exists c, find_node (ls_cur sc) (c_nodes (l_c s)) = Some c /\ cn_ver c = ls_v sc /\
      stale (cscan_of sc) = false /\ lfull sc = true /\ s' = set_lscan s (ls_fin sc (ls_res sc ++ ltake sc))) \/
   (cstep true (cstate_of s) EValidate = Some (cstate_of s') /\ ls_rtl (l_scan s') = false /\
    (ls_max (l_scan s') <> 0%nat -> (length (ls_res (l_scan s')) < ls_max (l_scan s'))%nat))).
Proof.
  intros H Hr Hlen. cbv zeta. unfold lstep in H. cbv zeta in H.
  destruct (ls_pc (l_scan s)) eqn:Hpc; try discriminate.
  destruct (find_node (ls_cur (l_scan s)) (c_nodes (l_c s))) as [c|] eqn:Hf; [|discriminate].
  split; [reflexivity|]. rewrite Hr in H.
  fold (linr (l_scan s)) in H. fold (ltake (l_scan s)) in H. fold (lfull (l_scan s)) in H. unfold lstart in H.
  (* the step of the unlimited scanner on the projection branches on the same tests *)
  unfold cstep, start_scan, stale. cbv zeta.
  cbn [cstate_of cstate_with cscan_of c_scan c_nodes sc_pc sc_cur sc_v sc_l sc_r sc_res sc_snap sc_nxt sc_nv sc_nvset
       sc_restarts andb].
  rewrite Hpc, Hf.
  destruct (cver_eqb (cn_ver c) (ls_v (l_scan s))) eqn:Ev.
  - destruct (match last_key _ with Some _ => _ | None => false end) eqn:Est.
    + right. destruct (cover _ _) as [n|]; [|discriminate]. injection H as <-.
      split; [reflexivity|]. split; [reflexivity|]. cbn. lia.
    + destruct (lfull (l_scan s)) eqn:Efull; cbn [orb] in H.
      * left. injection H as <-. exists c. apply cver_eqb_eq in Ev. unfold ls_fin. rewrite Hr. repeat split; auto.
      * right. pose proof (proj1 (lfull_false _) Efull) as Hnf.
        rewrite (ltake_notfull _ Hlen Efull) in H, Hnf. fold (linr (l_scan s)).
        assert (Hlen' : ls_max (l_scan s) <> 0%nat ->
                  (length (ls_res (l_scan s) ++ linr (l_scan s)) < ls_max (l_scan s))%nat)
          by (intros Hm; destruct Hnf as [Hnf|Hnf]; [destruct (Hm Hnf)|exact Hnf]).
        destruct (existsb _ _); [|destruct (ls_nxt (l_scan s))]; injection H as <-;
          (split; [reflexivity|]; split; [reflexivity|exact Hlen']).
  - destruct (negb _ || _) eqn:Eo.
    + right. destruct (cover _ _) as [n|]; [|discriminate]. injection H as <-.
      split; [reflexivity|]. split; [reflexivity|]. cbn. lia.
    + right. injection H as <-. split; [reflexivity|]. split; [reflexivity|exact Hlen].
Qed.

Lemma firstn_all_le {A} n (l : list A) : (length l <= n)%nat -> firstn n l = l.
Proof. apply firstn_all2. Qed.

(** ** Prefixes of sorted lists; the greatest key from [l] on; the last live node *)

Lemma sorted_prefix_le n l k d :
  sorted_strict l = true -> In k l -> last_key (firstn n l) = Some d -> k <= d -> In k (firstn n l).
Proof.
  intros Hs Hk Hl Hle. rewrite <- (firstn_skipn n l) in Hs, Hk. apply sorted_app in Hs as (_&_&Hs).
  apply in_app_or in Hk as [Hk|Hk]; [exact Hk|]. exfalso.
  specialize (Hs d k (last_key_in _ _ Hl) Hk). lia.
Qed.

Lemma filter_le_prefix d l : sorted_strict l = true ->
  filter (fun x => x <=? d) l = firstn (length (filter (fun x => x <=? d) l)) l.
Proof.
  induction l as [|x l IH]; [reflexivity|]. intros Hs. apply sorted_cons in Hs as [H1 H2]. cbn [filter].
  destruct (N.leb_spec x d) as [Hle|Hgt].
  - cbn [length firstn]. f_equal. apply IH, H2.
  - rewrite (proj2 (filter_nil_iff _ l)); [reflexivity|]. intros y Hy. apply N.leb_gt. specialize (H1 y Hy). lia.
Qed.

Lemma sorted_prefix_char R IK :
  sorted_strict R = true -> sorted_strict IK = true -> (forall k, In k R -> In k IK) ->
  (forall k d, last_key R = Some d -> In k IK -> k <= d -> In k R) -> R = firstn (length R) IK.
Proof.
  intros HsR HsI Hsub Hcov. destruct (last_key R) as [d|] eqn:El.
  - assert (E : R = filter (fun x => x <=? d) IK).
    { apply sorted_ext; [exact HsR|apply sorted_filter, HsI|]. intros k. rewrite filter_In, N.leb_le. split.
      - intros Hk. split; [apply Hsub, Hk|exact (sorted_last_le _ _ _ HsR El Hk)].
      - intros [Hk Hle]. apply (Hcov k d); auto. }
    rewrite E. apply filter_le_prefix, HsI.
  - apply last_key_none in El. subst R. reflexivity.
Qed.

Lemma gr_eq l K : gr l K = match last_key (filter (fun k => l <=? k) K) with Some d => [d] | None => [] end.
Proof. unfold gr, last_key. destruct (rev _); reflexivity. Qed.

Lemma gr_length l K : (length (gr l K) <= 1)%nat.
Proof. rewrite gr_eq. destruct (last_key _); cbn; lia. Qed.

Lemma gr_cases l K :
  sorted_strict K = true ->
  (gr l K = [] /\ forall x, In x K -> x < l) \/
  (exists d, gr l K = [d] /\ In d K /\ l <= d /\ forall x, In x K -> x <= d).
Proof.
  intros Hs. rewrite gr_eq. pose proof (sorted_filter (fun k => l <=? k) K Hs) as HsF.
  assert (HF : forall x, In x K -> l <= x -> In x (filter (fun k => l <=? k) K)).
  { intros x Hx Hl. apply filter_In. split; [exact Hx|]. apply N.leb_le. exact Hl. }
  destruct (last_key (filter (fun k => l <=? k) K)) as [d|] eqn:E.
  - right. exists d. pose proof (last_key_in _ _ E) as Hd. apply filter_In in Hd as [Hd1 Hd2]. apply N.leb_le in Hd2.
    split; [reflexivity|]. split; [exact Hd1|]. split; [exact Hd2|].
    intros x Hx. destruct (N.lt_ge_cases x l) as [|Hge]; [lia|]. exact (sorted_last_le _ _ _ HsF E (HF x Hx Hge)).
  - left. split; [reflexivity|]. apply last_key_none in E. intros x Hx.
    destruct (N.lt_ge_cases x l) as [|Hge]; [assumption|]. specialize (HF x Hx Hge). rewrite E in HF. destruct HF.
Qed.

Lemma gr_app l A K :
  (forall a b, In a A -> In b K -> a < b) -> K <> [] -> gr l (A ++ K) = gr l K.
Proof.
  intros Hlt Hne. unfold gr. rewrite filter_app, rev_app_distr.
  destruct (rev (filter (fun k => l <=? k) K)) as [|d t] eqn:E; [|reflexivity].
  apply (f_equal (@rev N)) in E. rewrite rev_involutive in E. cbn in E. cbn [app].
  destruct K as [|b K']; [contradiction|].
  assert (Hb : b < l).
  { destruct (N.lt_ge_cases b l) as [|Hge]; [assumption|]. exfalso.
    assert (In b (filter (fun k => l <=? k) (b :: K'))).
    { apply filter_In. split; [left; reflexivity|]. apply N.leb_le. exact Hge. }
    rewrite E in H. destruct H. }
  rewrite (proj2 (filter_nil_iff _ A)); [reflexivity|]. intros a Ha. apply N.leb_gt.
  specialize (Hlt a b Ha (or_introl eq_refl)). lia.
Qed.

Lemma last_live_dead l : forall best, (forall x, In x l -> live x = false) -> last_live best l = best.
Proof.
  induction l as [|x l IH]; intros best H; [reflexivity|]. cbn [last_live].
  rewrite (H x (or_introl eq_refl)). apply IH. intros y Hy. apply H. right. exact Hy.
Qed.
Lemma last_live_app l1 : forall best n l2,
  live n = true -> (forall x, In x l2 -> live x = false) -> last_live best (l1 ++ n :: l2) = Some n.
Proof.
  induction l1 as [|x l1 IH]; intros best n l2 Ln Hd; cbn [app last_live].
  - rewrite Ln. apply last_live_dead, Hd.
  - destruct (live x); apply IH; assumption.
Qed.
Lemma last_live_spec ns : forall best n,
  last_live best ns = Some n ->
  (best = Some n /\ forall b, In b ns -> live b = false) \/
  (exists l1 l2, ns = l1 ++ n :: l2 /\ live n = true /\ forall b, In b l2 -> live b = false).
Proof.
  induction ns as [|x ns IH]; intros best n; cbn [last_live].
  - intros ->. left. split; [reflexivity|intros ? []].
  - destruct (live x) eqn:Lx; intros H; apply IH in H as [[E Hb]|(l1&l2&->&H1&H2)].
    + injection E as ->. right. exists [], ns. repeat split; auto.
    + right. exists (x :: l1), l2. repeat split; auto.
    + left. split; [exact E|]. intros b [<-|Hin]; auto.
    + right. exists (x :: l1), l2. repeat split; auto.
Qed.

Lemma last_live_iff ns n :
  last_live None ns = Some n <->
  exists l1 l2, ns = l1 ++ n :: l2 /\ live n = true /\ forall b, In b l2 -> live b = false.
Proof.
  split.
  - intros H. apply last_live_spec in H as [[E _]|H]; [discriminate|exact H].
  - intros (l1&l2&->&Ln&Hd). apply last_live_app; assumption.
Qed.

(** ** The invariant: three regimes *)

(** the limit acts as a right end: a scan it ends after the key [d] has scanned the interval up to [d], like a scan
    of the unlimited scanner that has seen a key beyond [r]; this is its projection *)
Definition cutcs (sc : lscan) (d : N) : cscan :=
  {| sc_pc := ls_pc sc; sc_l := ls_l sc; sc_r := Some d; sc_cur := ls_cur sc; sc_v := ls_v sc;
     sc_snap := ls_snap sc; sc_nxt := ls_nxt sc; sc_nv := ls_nv sc; sc_res := ls_res sc; sc_nvset := ls_nvset sc;
     sc_restarts := ls_restarts sc |}.

Record RegF (s : lstate) : Prop := {
  rf_rtl : ls_rtl (l_scan s) = false;
  (* a scan that reaches the limit leaves this regime *)
  rf_len : ls_max (l_scan s) <> 0%nat -> (length (ls_res (l_scan s)) < ls_max (l_scan s))%nat;
  rf_inv : CInv true (cstate_of s) }.

Record RegCut (s : lstate) (d : N) : Prop := {
  rc_rtl : ls_rtl (l_scan s) = false;
  rc_pc : ls_pc (l_scan s) = CDone;
  rc_max : ls_max (l_scan s) <> 0%nat;
  rc_len : length (ls_res (l_scan s)) = ls_max (l_scan s);
  rc_last : last_key (ls_res (l_scan s)) = Some d;
  rc_r : le_r d (ls_r (l_scan s)) = true;
  rc_inv : CInv true (cstate_with s (cutcs (l_scan s) d)) }.

(** the part of the interval that the theorems below call covered is, for a cut scan, the interval up to [d] *)
Lemma cut_narrow s d k :
  RegCut s d -> in_interval (ls_l (l_scan s)) (ls_r (l_scan s)) k = true ->
  (ls_max (l_scan s) = 0%nat \/ (length (ls_res (l_scan s)) < ls_max (l_scan s))%nat \/
   (exists lk, last_key (ls_res (l_scan s)) = Some lk /\ k <= lk)) ->
  in_interval (ls_l (l_scan s)) (Some d) k = true.
Proof.
  intros C Hi [Hm|[Hlt|(lk&Hlk&Hle)]].
  - destruct (rc_max _ _ C Hm).
  - rewrite (rc_len _ _ C) in Hlt. lia.
  - rewrite (rc_last _ _ C) in Hlk. injection Hlk as ->. exact (in_interval_le _ _ _ _ Hi Hle).
Qed.
Lemma cut_widen s d k :
  RegCut s d -> in_interval (ls_l (l_scan s)) (Some d) k = true ->
  in_interval (ls_l (l_scan s)) (ls_r (l_scan s)) k = true.
Proof.
  intros C. apply in_interval_widen, (le_r_below _ _ _ (rc_r _ _ C)).
Qed.

(** [K] is a snapshot of the current border up to removes, within its (possibly grown) range *)
Definition cur_snap (s : lstate) (K : list N) : Prop :=
  forall c, find_node (ls_cur (l_scan s)) (c_nodes (l_c s)) = Some c -> cn_ver c = ls_v (l_scan s) ->
    (forall k, In k (cn_keys c) -> In k K) /\ (forall x, In x K -> cn_lo c <= x).

Record RegR (s : lstate) : Prop := {
  rr_wf : WF (c_nodes (l_c s)) (c_fresh (l_c s));
  rr_rtl : ls_rtl (l_scan s) = true;
  rr_max : ls_max (l_scan s) = 1%nat;
  rr_r : ls_r (l_scan s) = None;
  rr_pc : ls_pc (l_scan s) <> CIdle;
  rr_A : InvA true (cstate_of s);
  rr_cur : exists c, find_node (ls_cur (l_scan s)) (c_nodes (l_c s)) = Some c /\ vle (ls_v (l_scan s)) (cn_ver c);
  rr_live : cv_del (ls_v (l_scan s)) = false;
  (* the scan started in the last live border; a live border stops being the last one only by its own split,
     so while the split counter of the current border is the recorded one it still is *)
  rr_last : forall c, find_node (ls_cur (l_scan s)) (c_nodes (l_c s)) = Some c ->
              cv_split (cn_ver c) = cv_split (ls_v (l_scan s)) ->
              next_ok None (after (ls_cur (l_scan s)) (c_nodes (l_c s)));
  rr_scan : lscanning (l_scan s) = true -> ls_res (l_scan s) = [] /\ ls_nvset (l_scan s) = [];
  rr_snap : ls_pc (l_scan s) = CNextVer \/ ls_pc (l_scan s) = CValidate -> cur_snap s (ls_snap (l_scan s));
  (* [K]: the snapshot that the result was taken from *)
  rr_done : ls_pc (l_scan s) = CDone ->
            ls_nvset (l_scan s) = [(ls_cur (l_scan s), ls_v (l_scan s))] /\
            exists K, ls_res (l_scan s) = gr (ls_l (l_scan s)) K /\ sorted_strict K = true /\
              (forall x, In x K -> In x (l_ever s)) /\ cur_snap s K /\
              (K <> [] -> forall k, In k (l_stable s) -> ls_l (l_scan s) <= k ->
                          exists d, ls_res (l_scan s) = [d] /\ k <= d) }.

Definition LInv (s : lstate) : Prop := RegF s \/ (exists d, RegCut s d) \/ RegR s.

Lemma LInv_init kss : kss_ok kss = true -> LInv (linit kss).
Proof.
  intros Hk. left. constructor; [reflexivity|intros H; destruct (H eq_refl)|apply (CInv_init true kss Hk)].
Qed.

Lemma LInv_wf s : LInv s -> WF (c_nodes (l_c s)) (c_fresh (l_c s)).
Proof. intros [F|[(d&C)|R]]; [apply (rf_inv _ F)|apply (rc_inv _ _ C)|apply (rr_wf _ R)]. Qed.

Lemma RegR_len s : RegR s -> (length (ls_res (l_scan s)) <= 1)%nat.
Proof.
  intros R. destruct (lscanning (l_scan s)) eqn:Hs; [rewrite (proj1 (rr_scan _ R Hs)); cbn; lia|].
  unfold lscanning in Hs. destruct (ls_pc (l_scan s)) eqn:Hpc; try discriminate; [destruct (rr_pc _ R Hpc)|].
  destruct (rr_done _ R Hpc) as (_&K&->&_). apply gr_length.
Qed.

Lemma LInv_len s :
  LInv s -> ls_max (l_scan s) <> 0%nat -> (length (ls_res (l_scan s)) <= ls_max (l_scan s))%nat.
Proof.
  intros [F|[(d&C)|R]] Hm.
  - pose proof (rf_len _ F Hm). lia.
  - rewrite (rc_len _ _ C). lia.
  - rewrite (rr_max _ R). apply RegR_len, R.
Qed.

Lemma cstate_of_scan_eq s s' : l_scan s' = l_scan s -> cstate_of s' = cstate_with s' (cscan_of (l_scan s)).
Proof. unfold cstate_of. intros ->. reflexivity. Qed.

Lemma RegF_writer s w s' : RegF s -> lstep s (LW w) = Some s' -> RegF s'.
Proof.
  intros [F1 F2 F3] H. destruct (lw_wtrans s w s' (cscan_of (l_scan s)) H (scanning_cscan_of _)) as (Wt&Hl).
  constructor; rewrite ?Hl; auto. rewrite (cstate_of_scan_eq _ _ Hl). exact (CInv_wtrans _ _ _ _ F3 Wt).
Qed.

Lemma RegF_cstep s e s' :
  RegF s -> cstep true (cstate_of s) e = Some (cstate_of s') -> ls_rtl (l_scan s') = false ->
  (ls_max (l_scan s') <> 0%nat -> (length (ls_res (l_scan s')) < ls_max (l_scan s'))%nat) ->
  RegF s'.
Proof. intros [F1 F2 F3] H Hr Hd. constructor; auto. exact (CInv_step _ _ _ _ F3 H). Qed.

Lemma RegCut_writer s w s' d : RegCut s d -> lstep s (LW w) = Some s' -> RegCut s' d.
Proof.
  intros [C1 C2 C3 C4 C5 C6 C7] H.
  destruct (lw_wtrans s w s' (cutcs (l_scan s) d) H eq_refl) as (Wt&Hl).
  constructor; rewrite ?Hl; auto. exact (CInv_wtrans _ _ _ _ C7 Wt).
Qed.

(** the validation that reaches the limit: its last key [d] comes from this border, and the three layers of [CInv]
    hold of the finished scan of the interval up to [d] as they do when the unlimited scanner finishes *)
Lemma RegCut_enter s c :
  RegF s -> ls_pc (l_scan s) = CValidate ->
  find_node (ls_cur (l_scan s)) (c_nodes (l_c s)) = Some c -> cn_ver c = ls_v (l_scan s) ->
  stale (cscan_of (l_scan s)) = false -> lfull (l_scan s) = true ->
  exists d, RegCut (set_lscan s (ls_fin (l_scan s) (ls_res (l_scan s) ++ ltake (l_scan s)))) d.
Proof.
  intros [F1 F2 [W F3 F4 F5]] Hpc Hf Hv Hst Hfull. set (sc := l_scan s) in *.
  destruct (lfull_take sc F2 Hfull) as (Hmax&Hlen&Eres).
  destruct (ib_snap _ F4 (or_intror Hpc) c Hf Hv) as (Hsnap&_&Hlo).
  destruct (deliver_ok true (cstate_of s) F3) as [_ HsG]. specialize (HsG eq_refl Hst).
  destruct (last_key_app_in (ls_res sc) (ltake sc)) as (d&Ed&Hd).
  { intros E. rewrite E, app_nil_r in Hlen. specialize (F2 Hmax). lia. }
  apply in_ltake, filter_In in Hd as [Hd Hdr]. apply filter_In in Hd as [Hd _]. destruct (Hlo d Hd) as [Lc Hab].
  set (G := deliver_res (cscan_of sc)) in *.
  assert (HsR : sorted_strict (ls_res sc ++ ltake sc) = true) by (rewrite Eres; apply sorted_firstn, HsG).
  (* the delivered keys are the keys up to [d] of [G], of what the unlimited scanner would deliver here *)
  assert (Hup : forall k, In k G -> le_r k (Some d) = true -> In k (ls_res sc ++ ltake sc)).
  { intros k Hk Hle. rewrite Eres in Ed |- *. apply N.leb_le in Hle. exact (sorted_prefix_le _ _ k d HsG Hk Ed Hle). }
  assert (Hdown : forall k, In k (ls_res sc ++ ltake sc) -> In k G /\ le_r k (Some d) = true).
  { intros k Hk. split; [rewrite Eres in Hk; exact (in_firstn _ _ _ Hk)|apply N.leb_le, (sorted_last_le _ _ _ HsR Ed Hk)]. }
  pose proof (fun k => le_r_below (ls_r sc) d k Hdr) as Hnar.
  assert (Hend : ends_at (Some d) (c_nodes (l_c s)) (ls_cur sc)).
  { left. exists d, c. split; [intros k Hk; apply N.leb_le, Hk|auto]. }
  exists d. constructor; cbn [set_lscan l_scan ls_fin ls_rtl ls_pc ls_max ls_res ls_r];
    [exact F1|reflexivity|exact Hmax|exact Hlen|exact Ed|exact Hdr|].
  constructor.
  - exact W.
  - apply (InvA_deliver true (cstate_of s)); auto. exact (scanning_of_pc (cscan_of sc) (or_intror Hpc)).
  - apply (InvB_finish true (cstate_of s) c); auto.
  - apply (InvC_deliver (cstate_of s) c); auto; discriminate.
Qed.

Lemma RegR_writer s w s' : RegR s -> lstep s (LW w) = Some s' -> RegR s'.
Proof.
  intros [W R1 R2 R3 R4 R5 R6 R7 R8 R9 R10 R11] H.
  destruct (lw_wtrans s w s' (cscan_of (l_scan s)) H (scanning_cscan_of _)) as (Wt&Hl).
  pose proof (InvA_wtrans true w (cstate_of s) (cstate_with s' (cscan_of (l_scan s))) W R5 Wt) as IA'.
  destruct Wt as [Hst _ Hstab Hev]. cbn [cstate_of cstate_with c_nodes c_fresh c_stable c_ever] in Hst, Hstab, Hev.
  destruct (wstep_shape _ _ _ _ _ W Hst) as (g&lost&Wm&Hsh&_).
  pose proof (wshape_find _ _ _ _ _ _ W Wm Hsh) as Hfind.
  destruct R6 as (c&Hf&Hv). pose proof (find_node_in _ _ _ Hf) as Hin.
  pose proof (wm_vle _ _ _ _ Wm c Hin) as Hv2.
  assert (Hsnap : forall K, cur_snap s K -> cur_snap s' K).
  { intros K HK c' Hf' Hv'. rewrite Hl in Hf', Hv'.
    destruct (wshape_current _ _ _ _ _ _ W Wm Hsh _ _ _ _ Hf Hv Hf' Hv') as (->&Ec&Eg&_).
    destruct (HK c Hf Ec) as [Q1 Q2]. split.
    - intros k Hk. apply Q1. exact (wm_same _ _ _ _ Wm c Hin Eg k Hk).
    - intros x Hx. specialize (Q2 x Hx). pose proof (wm_lo _ _ _ _ Wm c Hin). lia. }
  constructor; rewrite ?Hl; auto.
  - exact (WF_wstep _ _ _ _ _ W Hst).
  - rewrite (cstate_of_scan_eq _ _ Hl). exact IA'.
  - exists (g c). split; [apply Hfind, Hf|]. eapply vle_trans; eauto.
  - intros c' Hf' Hs'. rewrite (Hfind _ _ Hf) in Hf'. injection Hf' as <-.
    pose proof (vle_split_squeeze _ _ _ Hv Hv2 Hs') as Es.
    apply (wshape_after _ _ _ _ _ _ W Wm Hsh _ c _ Hf); [congruence|exact (R8 c Hf Es)].
  - intros Hpc. destruct (R11 Hpc) as (Env&K&Er&HsK&HKe&HK&Hst'). split; [exact Env|]. exists K.
    split; [exact Er|]. split; [exact HsK|].
    split; [intros x Hx; rewrite Hev; apply in_ever_after; left; apply HKe, Hx|]. split; [apply Hsnap, HK|].
    intros Hne k Hk. apply (Hst' Hne). rewrite Hstab in Hk. apply in_stable_after in Hk. apply Hk.
Qed.

Lemma RegR_start s' l rs n :
  WF (c_nodes (l_c s')) (c_fresh (l_c s')) -> last_live None (c_nodes (l_c s')) = Some n ->
  l_scan s' = lrestart l None 1 true rs n -> InvA true (cstate_of s') -> RegR s'.
Proof.
  intros W Hn Hsc IA. pose proof (wf_nodup _ _ W) as Hnd.
  apply last_live_iff in Hn as (l1&l2&E&Ln&Hd).
  assert (Hin : In n (c_nodes (l_c s'))) by (rewrite E; apply in_elt).
  assert (Hf : find_node (cn_id n) (c_nodes (l_c s')) = Some n) by (apply nodup_find; assumption).
  constructor; rewrite ?Hsc; cbn [lrestart ls_rtl ls_max ls_r ls_pc ls_cur ls_v ls_res ls_nvset ls_snap ls_l];
    auto; try discriminate; try (intros [|]; discriminate).
  - exists n. split; [exact Hf|apply vle_refl].
  - apply live_true, Ln.
  - intros _ _ _. rewrite E in Hnd |- *. destruct (nodup_mid _ _ _ Hnd) as [N1 _].
    rewrite after_mid by auto. apply next_ok_none, Hd.
Qed.

Lemma InvA_restart s sc' :
  InvA true (cstate_of s) -> lscanning (l_scan s) = true ->
  ls_res sc' = [] -> ls_snap sc' = [] -> InvA true (cstate_of (set_lscan s sc')).
Proof.
  intros [I1 I2 I3 I4 I5] Hs Hres Hsnap. constructor; cbn; rewrite ?Hres, ?Hsnap; auto.
  - intros ? [].
  - split; [reflexivity|intros ? []].
Qed.

(** stable keys are never removed, so they are in the snapshot or in an earlier border *)
Lemma rtl_finish_stable s c :
  RegR s -> ls_pc (l_scan s) = CValidate ->
  find_node (ls_cur (l_scan s)) (c_nodes (l_c s)) = Some c -> cn_ver c = ls_v (l_scan s) ->
  ls_snap (l_scan s) <> [] ->
  forall k, In k (l_stable s) -> ls_l (l_scan s) <= k ->
  exists d, gr (ls_l (l_scan s)) (ls_snap (l_scan s)) = [d] /\ k <= d.
Proof.
  intros [W R1 R2 R3 R4 R5 R6 R7 R8 R9 R10 R11] Hpc Hf Hv Hne k Hk Hlk.
  destruct (R10 (or_intror Hpc) c Hf Hv) as [Q1 Q2].
  assert (HsK : sorted_strict (ls_snap (l_scan s)) = true) by apply (ia_snap _ _ R5).
  assert (Hn : next_ok None (after (ls_cur (l_scan s)) (c_nodes (l_c s)))) by (apply (R8 c Hf); congruence).
  assert (Lc : live c = true) by (eapply live_of_ver; eauto).
  pose proof (ia_stable _ _ R5 k Hk) as Hall. cbn [cstate_of cstate_with c_nodes] in Hall.
  destruct (last_node_keys _ _ _ _ W Hf Lc Hn) as [E Hbef]. rewrite E in Hall.
  destruct (gr_cases (ls_l (l_scan s)) _ HsK) as [[Eg Hlow]|(d&Eg&Hd&Hld&Hmax)].
  - exfalso. apply in_app_or in Hall as [Hall|Hall].
    + destruct (ls_snap (l_scan s)) as [|x0 tl0] eqn:Es; [contradiction|]. specialize (Hbef k Hall).
      specialize (Hlow x0 (or_introl eq_refl)). specialize (Q2 x0 (or_introl eq_refl)). lia.
    + specialize (Hlow k (Q1 k Hall)). lia.
  - exists d. split; [exact Eg|]. apply in_app_or in Hall as [Hall|Hall].
    + specialize (Hbef k Hall). specialize (Q2 d Hd). lia.
    + apply Hmax, Q1, Hall.
Qed.

Lemma RegR_step s e s' : RegR s -> lstep s e = Some s' -> RegR s'.
Proof.
  intros R H. pose proof R as R0. pose proof (rr_wf _ R) as W. destruct e.
  - eapply RegR_writer; eauto.
  - apply lstep_begin in H as (Hpc&_). exfalso. exact (rr_pc _ R Hpc).
  - apply lstep_read in H as (Hpc&Hs&Hc&c&Hf&->).
    destruct R as [_ R1 R2 R3 R4 R5 R6 R7 R8 R9 R10 R11].
    constructor; cbn [set_lscan l_scan l_c l_stable ls_read ls_rtl ls_max ls_r ls_pc ls_cur ls_v ls_res ls_nvset
                       ls_snap ls_l]; auto; try discriminate.
    + exact (InvA_step true (cstate_of s) ERead _ W R5 Hc).
    + intros _ c' Hf' _. cbn [set_lscan l_scan l_c ls_read ls_cur] in Hf'. rewrite Hf in Hf'. injection Hf' as <-.
      split; [auto|]. apply (wf_ok _ _ W c), (find_node_in _ _ _ Hf).
  - apply lstep_nextver in H as (Hpc&Hs&Hc&->).
    destruct R as [_ R1 R2 R3 R4 R5 R6 R7 R8 R9 R10 R11].
    constructor; cbn [set_lscan l_scan l_c l_stable ls_nextver ls_rtl ls_max ls_r ls_pc ls_cur ls_v ls_res ls_nvset
                       ls_snap ls_l]; auto; try discriminate.
    + exact (InvA_step true (cstate_of s) ENextVer _ W R5 Hc).
  - apply lvalidate_rtl in H; [|apply (rr_rtl _ R)]. cbv zeta in H. destruct H as (Hpc&Hs&c&Hf&Hcases).
    destruct R as [_ R1 R2 R3 R4 R5 R6 R7 R8 R9 R10 R11]. destruct (R9 Hs) as [Hres Hnvs].
    destruct Hcases as [(n&Hn&->)|[(Hv&->)|(Hv&Hdel&Hspl&->)]].
    + rewrite R2, R3. eapply RegR_start; cbn [set_lscan l_c l_scan]; eauto.
      apply InvA_restart; auto.
    + (* finish *)
      assert (HsK : sorted_strict (ls_snap (l_scan s)) = true) by apply (ia_snap _ _ R5).
      assert (Hn : next_ok None (after (ls_cur (l_scan s)) (c_nodes (l_c s)))) by (apply (R8 c Hf); congruence).
      assert (Lc : live c = true) by (eapply live_of_ver; eauto).
      constructor; cbn [set_lscan l_scan l_c l_stable ls_fin ls_rtl ls_max ls_r ls_pc ls_cur ls_v ls_res ls_nvset
                         ls_snap ls_l]; auto; try discriminate; try (intros [|]; discriminate).
      * destruct R5 as [I1 I2 I3 I4 I5].
        destruct (gr_cases (ls_l (l_scan s)) _ HsK) as [[Eg _]|(d&Eg&Hd&Hld&_)].
        -- constructor; cbn; rewrite ?Eg; auto; try (intros ? []). split; [reflexivity|intros ? []].
        -- constructor; cbn; rewrite ?Eg; auto; try discriminate.
           ++ intros k [<-|[]]. split; [|apply I5, Hd]. apply in_interval_iff. rewrite R3. split; [exact Hld|reflexivity].
           ++ split; [reflexivity|intros ? []].
      * intros _. rewrite Hnvs. split; [reflexivity|]. exists (ls_snap (l_scan s)).
        split; [reflexivity|]. split; [exact HsK|]. split; [apply (ia_snap _ _ R5)|]. split.
        -- exact (R10 (or_intror Hpc)).
        -- intros Hne k Hk Hlk. exact (rtl_finish_stable s c R0 Hpc Hf Hv Hne k Hk Hlk).
    + (* read the node again *)
      constructor; cbn [set_lscan l_scan l_c l_stable ls_reread ls_rtl ls_max ls_r ls_pc ls_cur ls_v ls_res ls_nvset
                         ls_snap ls_l]; auto; try discriminate; try (intros [|]; discriminate).
      * apply (InvA_restart s (ls_reread (l_scan s) (cn_ver c))); auto.
      * exists c. split; [exact Hf|apply vle_refl].
      * intros c' Hf' Hs'. rewrite Hf in Hf'. injection Hf' as <-. apply (R8 c Hf).
        exact Hspl.
Qed.

(** by regime: a forward scan steps with the unlimited scanner until a validation reaches the limit, a cut scan is
    finished, a right-to-left scan stays one *)
Lemma LInv_step s e s' : LInv s -> lstep s e = Some s' -> LInv s'.
Proof.
  intros [F|[(d&C)|R]] H.
  - destruct e as [w|l r mx rtl| | |].
    + left. exact (RegF_writer s w s' F H).
    + pose proof H as H0. apply lstep_begin in H as (Hpc&Hapi&n&Hn&->). destruct rtl.
      * right. right. destruct (Hapi eq_refl) as [-> ->].
        eapply RegR_start; cbn [l_c l_scan]; eauto; [apply (rf_inv _ F)|].
        constructor; cbn; auto; try (intros ? []). split; [reflexivity|intros ? []].
      * left. apply (RegF_cstep s _ _ F (lbegin_sim _ _ _ _ _ H0)); [reflexivity|cbn; lia].
    + apply lstep_read in H as (Hpc&Hs&Hc&c&Hf&->). left.
      apply (RegF_cstep s _ _ F Hc); [apply (rf_rtl _ F)|apply (rf_len _ F)].
    + apply lstep_nextver in H as (Hpc&Hs&Hc&->). left.
      apply (RegF_cstep s _ _ F Hc); [apply (rf_rtl _ F)|apply (rf_len _ F)].
    + destruct (lvalidate_fwd s s' H (rf_rtl _ F) (rf_len _ F)) as (Hpc&[(c&Hf&Hv&Hst&Hfull&->)|(Hc&Hr&Hlen)]).
      * right. left. exact (RegCut_enter s c F Hpc Hf Hv Hst Hfull).
      * left. exact (RegF_cstep s EValidate s' F Hc Hr Hlen).
  - destruct (lstep_done s e s' (rc_pc _ _ C) H) as (w&->&_). right. left. exists d. exact (RegCut_writer s w s' d C H).
  - right. right. exact (RegR_step s e s' R H).
Qed.

Lemma reach_L kss evs s : kss_ok kss = true -> lrun (linit kss) evs = Some s -> LInv s.
Proof.
  intros Hk. apply (run_inv _ _ lrun_eq LInv); [apply LInv_step|apply LInv_init, Hk].
Qed.

Lemma reach_fwd kss evs s :
  kss_ok kss = true -> lrun (linit kss) evs = Some s -> ls_rtl (l_scan s) = false -> RegF s \/ exists d, RegCut s d.
Proof.
  intros Hk H Hr. destruct (reach_L _ _ _ Hk H) as [F|[C|R]]; auto.
  rewrite (rr_rtl _ R) in Hr. discriminate.
Qed.
Lemma reach_rtl kss evs s :
  kss_ok kss = true -> lrun (linit kss) evs = Some s -> ls_rtl (l_scan s) = true -> RegR s.
Proof.
  intros Hk H Hr. destruct (reach_L _ _ _ Hk H) as [F|[(d&C)|R]]; auto.
  - rewrite (rf_rtl _ F) in Hr. discriminate.
  - rewrite (rc_rtl _ _ C) in Hr. discriminate.
Qed.

(** ** Ascending, bounded, sound *)
Theorem lim_scan_ascending : forall kss evs s,
  kss_ok kss = true -> lrun (linit kss) evs = Some s ->
  sorted_strict (ls_res (l_scan s)) = true /\
  (ls_max (l_scan s) <> 0%nat -> (length (ls_res (l_scan s)) <= ls_max (l_scan s))%nat).
Proof.
  intros kss evs s Hk H. pose proof (reach_L _ _ _ Hk H) as I. split; [|exact (LInv_len s I)].
  destruct I as [F|[(d&C)|R]].
  - apply (ia_sorted _ _ (inv_A _ _ (rf_inv _ F)) eq_refl).
  - apply (ia_sorted _ _ (inv_A _ _ (rc_inv _ _ C)) eq_refl).
  - apply (ia_sorted _ _ (rr_A _ R) eq_refl).
Qed.

Theorem lim_scan_sound : forall kss evs s k,
  kss_ok kss = true -> lrun (linit kss) evs = Some s ->
  In k (ls_res (l_scan s)) ->
  in_interval (ls_l (l_scan s)) (ls_r (l_scan s)) k = true /\ In k (l_ever s).
Proof.
  intros kss evs s k Hk H Hin. destruct (reach_L _ _ _ Hk H) as [F|[(d&C)|R]].
  - apply (ia_res _ _ (inv_A _ _ (rf_inv _ F)) k Hin).
  - destruct (ia_res _ _ (inv_A _ _ (rc_inv _ _ C)) k Hin) as [Hi He]. split; [exact (cut_widen s d k C Hi)|exact He].
  - apply (ia_res _ _ (rr_A _ R) k Hin).
Qed.

(** the limit of a right-to-left scan is 1 *)
Theorem rtl_scan_at_most_one : forall kss evs s,
  kss_ok kss = true -> lrun (linit kss) evs = Some s -> ls_rtl (l_scan s) = true ->
  (length (ls_res (l_scan s)) <= 1)%nat.
Proof.
  intros kss evs s Hk H Hr. exact (RegR_len s (reach_rtl _ _ _ Hk H Hr)).
Qed.

(** ** No stable key of the covered part of the interval is lost *)
Theorem lim_scan_no_lost_stable_key : forall kss evs s k,
  kss_ok kss = true -> lrun (linit kss) evs = Some s ->
  ls_pc (l_scan s) = CDone -> ls_rtl (l_scan s) = false -> In k (l_stable s) ->
  in_interval (ls_l (l_scan s)) (ls_r (l_scan s)) k = true ->
  (ls_max (l_scan s) = 0%nat \/ (length (ls_res (l_scan s)) < ls_max (l_scan s))%nat \/
   (exists lk, last_key (ls_res (l_scan s)) = Some lk /\ k <= lk)) ->
  In k (ls_res (l_scan s)).
Proof.
  intros kss evs s k Hk H Hpc Hr Hin Hi Hcov. destruct (reach_fwd _ _ _ Hk H Hr) as [F|(d&C)].
  - apply (ib_done _ (inv_B _ _ (rf_inv _ F)) Hpc k Hin Hi).
  - exact (ib_done _ (inv_B _ _ (rc_inv _ _ C)) Hpc k Hin (cut_narrow s d k C Hi Hcov)).
Qed.

(** ** The forward scan: no undetected insert into the covered part of the interval *)

(** the covered part of the interval is described as in [lim_scan_no_lost_stable_key]: the whole interval if the
    scan was not cut by the limit, the keys up to the last delivered one if it was *)
Theorem lim_scan_no_phantom_insert_fwd : forall kss evs s k,
  kss_ok kss = true -> lrun (linit kss) evs = Some s ->
  ls_pc (l_scan s) = CDone -> ls_rtl (l_scan s) = false ->
  (forall id v, In (id, v) (ls_nvset (l_scan s)) ->
     exists n, find_node id (c_nodes (l_c s)) = Some n /\ cn_ver n = v) ->
  In k (all_keys (c_nodes (l_c s))) -> in_interval (ls_l (l_scan s)) (ls_r (l_scan s)) k = true ->
  (ls_max (l_scan s) = 0%nat \/ (length (ls_res (l_scan s)) < ls_max (l_scan s))%nat \/
   (exists lk, last_key (ls_res (l_scan s)) = Some lk /\ k <= lk)) ->
  In k (ls_res (l_scan s)).
Proof.
  intros kss evs s k Hk H Hpc Hr HC Hin Hi Hcov. destruct (reach_fwd _ _ _ Hk H Hr) as [[_ _ [W _ _ IC]]|(d&C)].
  - exact (InvC_no_phantom_insert (cstate_of s) k W IC Hpc HC Hin Hi).
  - destruct (rc_inv _ _ C) as [W _ _ IC].
    exact (InvC_no_phantom_insert (cstate_with s (cutcs (l_scan s) d)) k W IC Hpc HC Hin (cut_narrow s d k C Hi Hcov)).
Qed.

Lemma expected_fwd sc ns :
  ls_rtl sc = false ->
  expected_result sc ns =
  if Nat.eqb (ls_max sc) 0 then filter (in_interval (ls_l sc) (ls_r sc)) (all_keys ns)
  else firstn (ls_max sc) (filter (in_interval (ls_l sc) (ls_r sc)) (all_keys ns)).
Proof. unfold expected_result, interval_keys. intros ->. reflexivity. Qed.

(** ** No remove since the invocation: the expected result exactly *)
Definition NoRemL (s : lstate) : Prop := forall k, In k (l_ever s) -> In k (all_keys (c_nodes (l_c s))).

Lemma NoRemL_step s e s' :
  WF (c_nodes (l_c s)) (c_fresh (l_c s)) -> (forall k, e <> LW (ERem k)) -> NoRemL s -> lstep s e = Some s' -> NoRemL s'.
Proof.
  intros W Hnr HN H. destruct e as [w|l r mx rtl| | |].
  - destruct (lw_wtrans s w s' (cscan_of (l_scan s)) H (scanning_cscan_of _)) as (Wt&_).
    assert (Hq : no_rem w) by (intros k ->; exact (Hnr k eq_refl)).
    exact (NoRem_wtrans w (cstate_of s) (cstate_with s' (cscan_of (l_scan s))) W Hq HN Wt).
  - apply lstep_begin in H as (_&_&n&_&->). intros k. cbn. auto.
  - apply lstep_read in H as (_&_&_&c&_&->). exact HN.
  - apply lstep_nextver in H as (_&_&_&->). exact HN.
  - apply lstep_validate_frame in H as (sc'&->). exact HN.
Qed.

Lemma NoRemL_run evs s s' :
  LInv s -> NoRemL s -> (forall k, ~ In (LW (ERem k)) evs) -> lrun s evs = Some s' -> NoRemL s'.
Proof.
  intros I HN Hnr H. assert (HP : LInv s' /\ NoRemL s'); [|apply HP].
  apply (run_inv_ev _ _ lrun_eq (fun e => forall k, e <> LW (ERem k)) (fun s => LInv s /\ NoRemL s))
    with (evs := evs) (s := s); auto.
  - intros s0 e s1 He [I0 N0] Hs. split; [eapply LInv_step; eauto|]. apply (NoRemL_step s0 e s1); auto.
    apply LInv_wf, I0.
  - intros e He k ->. exact (Hnr k He).
Qed.

Lemma NoRemL_since_begin kss pre l r mx rtl post s :
  kss_ok kss = true -> lrun (linit kss) (pre ++ LBegin l r mx rtl :: post) = Some s ->
  (forall k, ~ In (LW (ERem k)) post) -> NoRemL s.
Proof.
  intros Hk H Hnr. rewrite (run_app _ _ lrun_eq) in H. destruct (lrun (linit kss) pre) as [s0|] eqn:E0; [|discriminate].
  cbn [lrun] in H. destruct (lstep s0 (LBegin l r mx rtl)) as [s1|] eqn:E1; [|discriminate].
  pose proof (reach_L _ _ _ Hk E0) as I0. pose proof (LInv_step _ _ _ I0 E1) as I1.
  apply (NoRemL_run post s1 s I1); auto.
  apply lstep_begin in E1 as (_&_&n&_&->). intros k. cbn. auto.
Qed.

Lemma lim_cut_exact s d :
  RegCut s d -> recs_current (cstate_with s (cutcs (l_scan s) d)) -> NoRemL s ->
  ls_res (l_scan s) =
  firstn (ls_max (l_scan s)) (filter (in_interval (ls_l (l_scan s)) (ls_r (l_scan s))) (all_keys (c_nodes (l_c s)))).
Proof.
  intros C HC HN. destruct (rc_inv _ _ C) as [W IA _ IC]. rewrite <- (rc_len _ _ C). apply sorted_prefix_char.
  - apply (ia_sorted _ _ IA eq_refl).
  - apply sorted_filter, (WF_sorted _ _ W).
  - intros k Hk. destruct (ia_res _ _ IA k Hk) as [Hi He]. apply filter_In.
    split; [apply HN, He|exact (cut_widen s d k C Hi)].
  - intros k lk Hlk Hk Hle. apply filter_In in Hk as [Hk Hi].
    apply (InvC_no_phantom_insert (cstate_with s (cutcs (l_scan s) d)) k W IC (rc_pc _ _ C) HC Hk).
    apply (cut_narrow s d k C Hi). right. right. exists lk. split; assumption.
Qed.

Theorem lim_scan_phantom_free_fwd_no_removes : forall kss pre l r mx rtl post s,
  kss_ok kss = true -> lrun (linit kss) (pre ++ LBegin l r mx rtl :: post) = Some s ->
  (forall k, ~ In (LW (ERem k)) post) ->
  ls_pc (l_scan s) = CDone -> ls_rtl (l_scan s) = false ->
  (forall id v, In (id, v) (ls_nvset (l_scan s)) ->
     exists n, find_node id (c_nodes (l_c s)) = Some n /\ cn_ver n = v) ->
  ls_res (l_scan s) = expected_result (l_scan s) (c_nodes (l_c s)).
Proof.
  intros kss pre l r mx rtl post s Hk H Hnr Hpc Hr HC.
  pose proof (NoRemL_since_begin _ _ _ _ _ _ _ _ Hk H Hnr) as HN.
  destruct (reach_fwd _ _ _ Hk H Hr) as [[_ Hlen [W IA _ IC]]|(d&C)].
  - rewrite (expected_fwd _ _ Hr).
    assert (E : ls_res (l_scan s) =
                filter (in_interval (ls_l (l_scan s)) (ls_r (l_scan s))) (all_keys (c_nodes (l_c s)))).
    { apply (phantom_free_core (cstate_of s) W IA HN). intros k Hin Hi.
      exact (InvC_no_phantom_insert (cstate_of s) k W IC Hpc HC Hin Hi). }
    rewrite <- E. destruct (Nat.eqb_spec (ls_max (l_scan s)) 0) as [|Hm]; [reflexivity|].
    symmetry. apply firstn_all2. specialize (Hlen Hm). lia.
  - rewrite (expected_fwd _ _ Hr).
    destruct (Nat.eqb_spec (ls_max (l_scan s)) 0) as [E0|_]; [destruct (rc_max _ _ C E0)|].
    exact (lim_cut_exact s d C HC HN).
Qed.

(** ** The right-to-left scan
    In this model a remove that empties a border and the unlink of that border are two events, so the LAST live border
    can be empty while earlier borders hold keys.  A right-to-left scan that validates such a border returns nothing:
    the clauses "greatest stable key" and "phantom protection" are FALSE as stated for the whole layer
    ([rtl_empty_last_border_counterexample]).  What holds: the scan returns the greatest key >= l of the last live
    border; this is the greatest key >= l of the layer whenever that border is non-empty.  (In the C++ code remove and
    unlink happen under one lock, so a reader never validates an empty non-root border.) *)
Definition rtl_cex : list lev := [LW (ERem 20); LBegin 0 None 1 true; LRead; LNextVer; LValidate].

Theorem rtl_empty_last_border_counterexample :
  exists s, kss_ok [[10; 12]; [20]] = true /\ lrun (linit [[10; 12]; [20]]) rtl_cex = Some s /\
    ls_pc (l_scan s) = CDone /\ ls_rtl (l_scan s) = true /\
    (forall id v, In (id, v) (ls_nvset (l_scan s)) ->
       exists n, find_node id (c_nodes (l_c s)) = Some n /\ cn_ver n = v) /\
    ls_res (l_scan s) = [] /\ expected_result (l_scan s) (c_nodes (l_c s)) = [12] /\
    In 12 (l_stable s) /\ ls_l (l_scan s) <= 12.
Proof.
  eexists. split; [reflexivity|]. split; [vm_compute; reflexivity|].
  cbn [l_scan l_c l_stable ls_pc ls_rtl ls_nvset ls_res ls_l c_nodes].
  split; [reflexivity|]. split; [reflexivity|]. split.
  - intros id v [Hin|[]]. injection Hin as <- <-. eexists. split; reflexivity.
  - split; [reflexivity|]. split; [reflexivity|]. split; [right; left; reflexivity|discriminate].
Qed.

(** what a finished right-to-left scan whose recorded version is current knows of its border [n]: it is the last
    live border, all keys of the layer outside it lie below its range, and the result is the greatest key from [l]
    on of a snapshot [K] of it that can only have lost keys since *)
Record rtl_done (s : lstate) (n : cnode) (K : list N) : Prop := {
  rd_ok : node_ok n;
  rd_find : find_node (cn_id n) (c_nodes (l_c s)) = Some n;
  rd_last : last_live None (c_nodes (l_c s)) = Some n;
  rd_nvset : ls_nvset (l_scan s) = [(cn_id n, cn_ver n)];
  rd_res : ls_res (l_scan s) = gr (ls_l (l_scan s)) K;
  rd_sorted : sorted_strict K = true;
  rd_super : forall k, In k (cn_keys n) -> In k K;
  rd_lo : forall x, In x K -> cn_lo n <= x;
  rd_ever : forall x, In x K -> In x (l_ever s);
  rd_keys : all_keys (c_nodes (l_c s)) = all_keys (before (cn_id n) (c_nodes (l_c s))) ++ cn_keys n;
  rd_before : forall a, In a (all_keys (before (cn_id n) (c_nodes (l_c s)))) -> a < cn_lo n }.

Lemma rtl_current kss evs s :
  kss_ok kss = true -> lrun (linit kss) evs = Some s -> ls_pc (l_scan s) = CDone -> ls_rtl (l_scan s) = true ->
  (forall id v, In (id, v) (ls_nvset (l_scan s)) ->
     exists n, find_node id (c_nodes (l_c s)) = Some n /\ cn_ver n = v) ->
  exists n K, rtl_done s n K.
Proof.
  intros Hk H Hpc Hr HC. pose proof (reach_rtl _ _ _ Hk H Hr) as R. pose proof (rr_wf _ R) as W.
  destruct (rr_done _ R Hpc) as (Env&K&Er&HsK&HKe&HK&_).
  destruct (HC (ls_cur (l_scan s)) (ls_v (l_scan s))) as (n&Hf&Hv); [rewrite Env; left; reflexivity|].
  destruct (HK n Hf Hv) as [Q1 Q2]. pose proof (find_node_id _ _ _ Hf) as Hid.
  assert (Ln : live n = true) by (eapply live_of_ver; [exact Hv|apply (rr_live _ R)]).
  assert (Hn : next_ok None (after (ls_cur (l_scan s)) (c_nodes (l_c s)))).
  { apply (rr_last _ R n Hf). rewrite Hv. reflexivity. }
  destruct (last_node_keys _ _ _ _ W Hf Ln Hn) as [H3 H4]. rewrite <- Hid in H3, H4, Hf, Hn.
  exists n, K. constructor; auto.
  - apply (wf_ok _ _ W n), (find_node_in _ _ _ Hf).
  - apply last_live_iff. exists (before (cn_id n) (c_nodes (l_c s))), (after (cn_id n) (c_nodes (l_c s))).
    split; [exact (before_after_split _ _ _ Hf)|]. split; [exact Ln|apply next_ok_none, Hn].
  - rewrite Env, Hv, Hid. reflexivity.
Qed.

Lemma expected_rtl sc ns : ls_rtl sc = true -> expected_result sc ns = gr (ls_l sc) (all_keys ns).
Proof. unfold expected_result, gr. intros ->. reflexivity. Qed.

(** right-to-left: the recorded border is the current LAST live border, and no key >= l of it is above the
    delivered key *)
Theorem rtl_scan_no_phantom_insert_partial : forall kss evs s,
  kss_ok kss = true -> lrun (linit kss) evs = Some s ->
  ls_pc (l_scan s) = CDone -> ls_rtl (l_scan s) = true ->
  (forall id v, In (id, v) (ls_nvset (l_scan s)) ->
     exists n, find_node id (c_nodes (l_c s)) = Some n /\ cn_ver n = v) ->
  exists n, last_live None (c_nodes (l_c s)) = Some n /\
    ls_nvset (l_scan s) = [(cn_id n, cn_ver n)] /\
    (forall k, In k (cn_keys n) -> ls_l (l_scan s) <= k -> exists d, ls_res (l_scan s) = [d] /\ k <= d).
Proof.
  intros kss evs s Hk H Hpc Hr HC.
  destruct (rtl_current _ _ _ Hk H Hpc Hr HC) as (n&K&D). exists n.
  split; [exact (rd_last _ _ _ D)|]. split; [exact (rd_nvset _ _ _ D)|].
  intros k Hkn Hlk. rewrite (rd_res _ _ _ D).
  destruct (gr_cases (ls_l (l_scan s)) K (rd_sorted _ _ _ D)) as [[_ Hlow]|(d&Eg&_&_&Hmax)].
  - specialize (Hlow k (rd_super _ _ _ D k Hkn)). lia.
  - exists d. split; [exact Eg|apply Hmax, (rd_super _ _ _ D), Hkn].
Qed.

Lemma rtl_current_exact kss pre l r mx rtl post s :
  kss_ok kss = true -> lrun (linit kss) (pre ++ LBegin l r mx rtl :: post) = Some s ->
  (forall k, ~ In (LW (ERem k)) post) ->
  ls_pc (l_scan s) = CDone -> ls_rtl (l_scan s) = true ->
  (forall id v, In (id, v) (ls_nvset (l_scan s)) ->
     exists n, find_node id (c_nodes (l_c s)) = Some n /\ cn_ver n = v) ->
  exists n, rtl_done s n (cn_keys n).
Proof.
  intros Hk H Hnr Hpc Hr HC. pose proof (NoRemL_since_begin _ _ _ _ _ _ _ _ Hk H Hnr) as HN.
  destruct (rtl_current _ _ _ Hk H Hpc Hr HC) as (n&K&D). exists n.
  (* without removes the snapshot has lost nothing: a key of it is still in the layer, and not before [n] *)
  assert (EK : K = cn_keys n); [|subst K; exact D].
  apply sorted_ext; [exact (rd_sorted _ _ _ D)|apply (rd_ok _ _ _ D)|].
  intros x. split; [|apply (rd_super _ _ _ D)]. intros Hx.
  pose proof (HN x (rd_ever _ _ _ D x Hx)) as Hall. rewrite (rd_keys _ _ _ D) in Hall.
  apply in_app_or in Hall as [Hall|Hall]; [|exact Hall].
  pose proof (rd_before _ _ _ D x Hall). pose proof (rd_lo _ _ _ D x Hx). lia.
Qed.

Theorem rtl_scan_phantom_free_partial_no_removes : forall kss pre l r mx rtl post s,
  kss_ok kss = true -> lrun (linit kss) (pre ++ LBegin l r mx rtl :: post) = Some s ->
  (forall k, ~ In (LW (ERem k)) post) ->
  ls_pc (l_scan s) = CDone -> ls_rtl (l_scan s) = true ->
  (forall id v, In (id, v) (ls_nvset (l_scan s)) ->
     exists n, find_node id (c_nodes (l_c s)) = Some n /\ cn_ver n = v) ->
  exists n, last_live None (c_nodes (l_c s)) = Some n /\
    ls_nvset (l_scan s) = [(cn_id n, cn_ver n)] /\
    ls_res (l_scan s) = match rev (filter (fun k => ls_l (l_scan s) <=? k) (cn_keys n)) with
                        | [] => [] | k :: _ => [k] end.
Proof.
  intros kss pre l r mx rtl post s Hk H Hnr Hpc Hr HC.
  destruct (rtl_current_exact _ _ _ _ _ _ _ _ Hk H Hnr Hpc Hr HC) as (n&D). exists n.
  split; [exact (rd_last _ _ _ D)|]. split; [exact (rd_nvset _ _ _ D)|exact (rd_res _ _ _ D)].
Qed.

(** both directions; right-to-left under the hypothesis that the recorded border is not empty *)
Theorem lim_scan_no_phantom_insert : forall kss evs s k,
  kss_ok kss = true -> lrun (linit kss) evs = Some s ->
  ls_pc (l_scan s) = CDone ->
  (forall id v, In (id, v) (ls_nvset (l_scan s)) ->
     exists n, find_node id (c_nodes (l_c s)) = Some n /\ cn_ver n = v) ->
  (ls_rtl (l_scan s) = true ->
     forall id v n, In (id, v) (ls_nvset (l_scan s)) -> find_node id (c_nodes (l_c s)) = Some n -> cn_keys n <> []) ->
  In k (all_keys (c_nodes (l_c s))) -> in_interval (ls_l (l_scan s)) (ls_r (l_scan s)) k = true ->
  (ls_rtl (l_scan s) = false ->
     ls_max (l_scan s) = 0%nat \/ (length (ls_res (l_scan s)) < ls_max (l_scan s))%nat \/
     (exists lk, last_key (ls_res (l_scan s)) = Some lk /\ k <= lk)) ->
  if ls_rtl (l_scan s) then exists d, ls_res (l_scan s) = [d] /\ k <= d else In k (ls_res (l_scan s)).
Proof.
  intros kss evs s k Hk H Hpc HC Hne Hin Hi Hcov. destruct (ls_rtl (l_scan s)) eqn:Hr.
  - destruct (rtl_current _ _ _ Hk H Hpc Hr HC) as (n&K&D). pose proof (rd_super _ _ _ D) as Q1.
    assert (Hrec : In (cn_id n, cn_ver n) (ls_nvset (l_scan s))) by (rewrite (rd_nvset _ _ _ D); left; reflexivity).
    pose proof (in_interval_l _ _ _ Hi) as Hlk.
    (* [k] is in the border, or below its range and so below any key of it *)
    assert (Hx : exists x, In x K /\ k <= x).
    { rewrite (rd_keys _ _ _ D) in Hin. apply in_app_or in Hin as [Hb|Hn]; [|exists k; split; [apply Q1, Hn|lia]].
      assert (Hnn : cn_keys n <> []) by (apply (Hne eq_refl _ _ n Hrec (rd_find _ _ _ D))).
      destruct (cn_keys n) as [|x0 tl0] eqn:Ekn; [contradiction|].
      exists x0. specialize (Q1 x0 (or_introl eq_refl)). split; [exact Q1|].
      pose proof (rd_before _ _ _ D k Hb). pose proof (rd_lo _ _ _ D x0 Q1). lia. }
    destruct Hx as (x&HxK&Hkx). rewrite (rd_res _ _ _ D).
    destruct (gr_cases (ls_l (l_scan s)) K (rd_sorted _ _ _ D)) as [[_ Hlow]|(d&Eg&_&_&Hmax)].
    + specialize (Hlow x HxK). lia.
    + exists d. split; [exact Eg|]. specialize (Hmax x HxK). lia.
  - exact (lim_scan_no_phantom_insert_fwd kss evs s k Hk H Hpc Hr HC Hin Hi (Hcov eq_refl)).
Qed.

Theorem lim_scan_phantom_free_no_removes : forall kss pre l r mx rtl post s,
  kss_ok kss = true -> lrun (linit kss) (pre ++ LBegin l r mx rtl :: post) = Some s ->
  (forall k, ~ In (LW (ERem k)) post) ->
  ls_pc (l_scan s) = CDone ->
  (forall id v, In (id, v) (ls_nvset (l_scan s)) ->
     exists n, find_node id (c_nodes (l_c s)) = Some n /\ cn_ver n = v) ->
  (ls_rtl (l_scan s) = true ->
     forall id v n, In (id, v) (ls_nvset (l_scan s)) -> find_node id (c_nodes (l_c s)) = Some n -> cn_keys n <> []) ->
  ls_res (l_scan s) = expected_result (l_scan s) (c_nodes (l_c s)).
Proof.
  intros kss pre l r mx rtl post s Hk H Hnr Hpc HC Hne. destruct (ls_rtl (l_scan s)) eqn:Hr.
  - destruct (rtl_current_exact _ _ _ _ _ _ _ _ Hk H Hnr Hpc Hr HC) as (n&D).
    rewrite (expected_rtl _ _ Hr), (rd_keys _ _ _ D), (rd_res _ _ _ D). rewrite (rd_nvset _ _ _ D) in Hne.
    symmetry. apply gr_app; [|apply (Hne eq_refl _ _ n (or_introl eq_refl) (rd_find _ _ _ D))].
    intros a b Ha Hb. pose proof (rd_before _ _ _ D a Ha). pose proof (proj2 (rd_ok _ _ _ D) b Hb). lia.
  - exact (lim_scan_phantom_free_fwd_no_removes kss pre l r mx rtl post s Hk H Hnr Hpc Hr HC).
Qed.

(** the exact form without the no-remove hypothesis is false in both directions: the scan completes, a key it has
    delivered is removed; every recorded version is still current *)
Theorem lim_phantom_free_with_remove_refuted :
  exists evs s, lrun (linit [[10]; [20; 30]]) evs = Some s /\ ls_pc (l_scan s) = CDone /\ ls_rtl (l_scan s) = false /\
    (forall id v, In (id, v) (ls_nvset (l_scan s)) ->
       exists n, find_node id (c_nodes (l_c s)) = Some n /\ cn_ver n = v) /\
    ls_res (l_scan s) = [10; 20] /\ expected_result (l_scan s) (c_nodes (l_c s)) = [10; 30].
Proof.
  exists [LBegin 0 None 2 false; LRead; LNextVer; LValidate; LRead; LNextVer; LValidate; LW (ERem 20)].
  eexists. split; [vm_compute; reflexivity|]. cbn [l_scan l_c ls_pc ls_rtl ls_nvset ls_res c_nodes].
  split; [reflexivity|]. split; [reflexivity|]. split.
  { intros id v [Hin|[Hin|[]]]; injection Hin as <- <-; eexists; split; reflexivity. }
  split; reflexivity.
Qed.

Theorem rtl_phantom_free_with_remove_refuted :
  exists evs s, lrun (linit [[10]; [20; 30]]) evs = Some s /\ ls_pc (l_scan s) = CDone /\ ls_rtl (l_scan s) = true /\
    (forall id v, In (id, v) (ls_nvset (l_scan s)) ->
       exists n, find_node id (c_nodes (l_c s)) = Some n /\ cn_ver n = v /\ cn_keys n <> []) /\
    ls_res (l_scan s) = [30] /\ expected_result (l_scan s) (c_nodes (l_c s)) = [20].
Proof.
  exists [LBegin 0 None 1 true; LRead; LNextVer; LValidate; LW (ERem 30)].
  eexists. split; [vm_compute; reflexivity|]. cbn [l_scan l_c ls_pc ls_rtl ls_nvset ls_res c_nodes].
  split; [reflexivity|]. split; [reflexivity|]. split.
  { intros id v [Hin|[]]; injection Hin as <- <-; eexists. split; [reflexivity|]. split; [reflexivity|discriminate]. }
  split; reflexivity.
Qed.

Theorem rtl_scan_greatest_stable_partial : forall kss evs s k,
  kss_ok kss = true -> lrun (linit kss) evs = Some s ->
  ls_pc (l_scan s) = CDone -> ls_rtl (l_scan s) = true -> In k (l_stable s) -> ls_l (l_scan s) <= k ->
  ls_res (l_scan s) <> [] ->
  exists d, ls_res (l_scan s) = [d] /\ k <= d.
Proof.
  intros kss evs s k Hk H Hpc Hr Hin Hl Hne. pose proof (reach_rtl _ _ _ Hk H Hr) as R.
  destruct (rr_done _ R Hpc) as (_&K&Er&_&_&_&Hst). apply Hst; auto.
  intros ->. rewrite Er in Hne. apply Hne. reflexivity.
Qed.

Lemma done_persist evs s s' :
  lrun s evs = Some s' -> ls_pc (l_scan s) = CDone ->
  l_scan s' = l_scan s /\ forall k, In k (l_stable s') -> In k (l_stable s).
Proof.
  intros H Hpc.
  apply (run_inv _ _ lrun_eq (fun s1 => l_scan s1 = l_scan s /\ forall k, In k (l_stable s1) -> In k (l_stable s)))
    with (evs := evs) (s := s); auto.
  intros s1 e s2 [E1 E2] Hs. rewrite <- E1 in Hpc. destruct (lstep_done _ _ _ Hpc Hs) as (w&->&El).
  split; [congruence|]. intros k Hk. apply E2.
  destruct (lw_wtrans s1 w s2 (cscan_of (l_scan s1)) Hs (scanning_cscan_of _)) as ([_ _ Hst _]&_).
  cbn [cstate_with c_stable] in Hst. rewrite Hst in Hk. apply in_stable_after in Hk. apply Hk.
Qed.

(** from a border not empty at the validated instant: in particular the scan returns something if there is a
    stable key >= l *)
Theorem rtl_scan_greatest_stable_validated : forall kss evs1 s1 s2 evs2 s k,
  kss_ok kss = true -> lrun (linit kss) evs1 = Some s1 ->
  lstep s1 LValidate = Some s2 -> ls_rtl (l_scan s1) = true -> ls_pc (l_scan s2) = CDone ->
  ls_snap (l_scan s1) <> [] ->
  lrun s2 evs2 = Some s ->
  In k (l_stable s) -> ls_l (l_scan s) <= k ->
  exists d, ls_res (l_scan s) = [d] /\ k <= d.
Proof.
  intros kss evs1 s1 s2 evs2 s k Hk H1 Hst Hr Hpc Hsn H2 Hin Hl.
  pose proof (reach_rtl _ _ _ Hk H1 Hr) as R.
  destruct (done_persist _ _ _ H2 Hpc) as [Esc Estab]. rewrite Esc in *.
  pose proof (lvalidate_rtl s1 s2 Hst Hr) as Hv. cbv zeta in Hv. destruct Hv as (Hpc1&_&c&Hf&Hcases).
  destruct Hcases as [(n&Hn&->)|[(Hv&->)|(Hv&Hdel&Hspl&->)]]; try discriminate.
  cbn [set_lscan l_scan l_stable ls_fin ls_res ls_l] in *.
  apply (rtl_finish_stable s1 c R Hpc1 Hf Hv Hsn k); [apply Estab, Hin|exact Hl].
Qed.

(** ** Examples *)

Example lim_nonvacuous :
  lres [[10; 12]; [20; 30; 40]] lim_trace =
  Some (CDone, [10; 12; 20], 0,
        [(0, {| cv_ins := 0; cv_split := 0; cv_del := false |});
         (1, {| cv_ins := 1; cv_split := 0; cv_del := false |})]).
Proof. vm_compute. reflexivity. Qed.

Example rtl_nonvacuous :
  lres [[10; 12]; [20; 30; 40]] rtl_trace =
  Some (CDone, [50], 1, [(2, {| cv_ins := 1; cv_split := 0; cv_del := false |})]).
Proof. vm_compute. reflexivity. Qed.

(** the hypotheses of the two right-to-left theorems are satisfiable: the run [rtl_trace] *)
Example rtl_validated_nonvacuous :
  exists evs1 s1 s2, lrun (linit [[10; 12]; [20; 30; 40]]) evs1 = Some s1 /\ lstep s1 LValidate = Some s2 /\
    ls_rtl (l_scan s1) = true /\ ls_pc (l_scan s2) = CDone /\ ls_snap (l_scan s1) <> [] /\
    ls_res (l_scan s2) = [50] /\ In 40 (l_stable s2).
Proof.
  exists (removelast rtl_trace). eexists. eexists. split; [vm_compute; reflexivity|].
  split; [vm_compute; reflexivity|]. cbn [l_scan l_stable ls_rtl ls_pc ls_snap ls_res].
  split; [reflexivity|]. split; [reflexivity|]. split; [discriminate|]. split; [reflexivity|].
  right. right. right. right. left. reflexivity.
Qed.

Print Assumptions lim_scan_ascending.
Print Assumptions lim_scan_sound.
Print Assumptions rtl_scan_at_most_one.
Print Assumptions lim_scan_no_lost_stable_key.
Print Assumptions lim_scan_no_phantom_insert_fwd.
Print Assumptions lim_scan_phantom_free_fwd_no_removes.
Print Assumptions rtl_scan_no_phantom_insert_partial.
Print Assumptions rtl_scan_phantom_free_partial_no_removes.
Print Assumptions lim_scan_no_phantom_insert.
Print Assumptions lim_scan_phantom_free_no_removes.
Print Assumptions lim_phantom_free_with_remove_refuted.
Print Assumptions rtl_phantom_free_with_remove_refuted.
Print Assumptions rtl_scan_greatest_stable_partial.
Print Assumptions rtl_scan_greatest_stable_validated.
Print Assumptions rtl_empty_last_border_counterexample.
Print Assumptions lim_nonvacuous.
Print Assumptions rtl_nonvacuous.
Print Assumptions rtl_validated_nonvacuous.
