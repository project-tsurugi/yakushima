(** * VersionProtoProofs: the version word as used by the border protocol --
    two equal stable versions taken at different times prove that no insert
    completed in between (C17, second half; that the lock bit is a mutex is
    [inv_mutex] in BorderProofs.v). *)
From Coq Require Import NArith List Lia.
From Yk Require Import BorderDefs BorderProofs.
Local Open Scope N_scope.

(** an insert completes at its unlock, which bumps the counter *)
Definition completes_insert (s : bstate) (e : bev) : bool :=
  match e with
  | BStep t => match t_op (b_thr s t), t_pc (b_thr s t) with
               | Some _, PUnlockIns => true
               | _, _ => false
               end
  | _ => false
  end.

Lemma bstep_completes fixed s e s' :
  bstep fixed s e = Some s' -> b_vins s' = if completes_insert s e then b_vins s + 1 else b_vins s.
Proof.
  intros H. rewrite (bstep_vins _ _ _ _ H). destruct e as [|t|]; try reflexivity.
  apply bstep_step in H as (o & Ho & _). cbn [completes_insert]. rewrite Ho.
  destruct (t_pc (b_thr s t)); reflexivity.
Qed.

Fixpoint completes_in_run (fixed : bool) (s : bstate) (tr : list bev) : bool :=
  match tr with
  | [] => false
  | e :: r => completes_insert s e ||
              match bstep fixed s e with Some s' => completes_in_run fixed s' r | None => false end
  end.

Theorem equal_counter_no_completed_insert fixed tr : forall s s',
  brun fixed s tr = Some s' -> b_vins s' = b_vins s -> completes_in_run fixed s tr = false.
Proof.
  induction tr as [|e r IH]; intros s s' Hr Heq; [reflexivity|].
  cbn [brun] in Hr. cbn [completes_in_run].
  destruct (bstep fixed s e) as [s1|] eqn:E; [|discriminate].
  pose proof (brun_vins_mono _ _ _ _ Hr) as Hm. pose proof (bstep_completes _ _ _ _ E) as H1.
  destruct (completes_insert s e); [lia|]. apply (IH s1 s' Hr). lia.
Qed.
