(** * LifecycleProofs: with the repaired init, in every init/fin cycle the
    epoch and gc loops stay alive while the system runs; with the original init
    the epoch thread of the second cycle exits at once. *)
From Yk Require Import ListAux LifecycleDefs.

Definition LInv (s : lc) : Prop :=
  running s = true -> ep_flag s = false /\ gc_flag s = false /\ ep_alive s = true /\ gc_alive s = true.

Lemma linv_init : LInv lc_init.
Proof. unfold LInv, lc_init. cbn. discriminate. Qed.

Lemma linv_step s e s' : LInv s -> lstep true s e = Some s' -> LInv s'.
Proof.
  unfold LInv. intros H Hs. destruct e; cbn in Hs.
  - destruct (running s); [discriminate|]. injection Hs as <-. cbn. auto.
  - destruct (running s); cbn in Hs; [|discriminate]. injection Hs as <-. cbn. discriminate.
  - injection Hs as <-. cbn. exact H.
  - destruct (ep_alive s) eqn:Ea; cbn in Hs; [|discriminate]. injection Hs as <-. cbn.
    intros Hr. destruct (H Hr) as (A & B & C & D). rewrite A. cbn. auto.
  - destruct (gc_alive s) eqn:Ea; cbn in Hs; [|discriminate]. injection Hs as <-. cbn.
    intros Hr. destruct (H Hr) as (A & B & C & D). rewrite B. cbn. auto.
  - injection Hs as <-. cbn. exact H.
  - injection Hs as <-. cbn. exact H.
  - injection Hs as <-. cbn. exact H.
Qed.

Lemma linv_run tr : forall s s', LInv s -> lrun true s tr = Some s' -> LInv s'.
Proof.
  apply (run_inv (lstep true) (lrun true)); [intros s evs; destruct evs; reflexivity|apply linv_step].
Qed.

Lemma reachable_LInv tr s : lrun true lc_init tr = Some s -> LInv s.
Proof. apply linv_run, linv_init. Qed.

(** whatever happened in the cycle, sessions left open included *)
Lemma fresh_after_fin s s1 s2 :
  lstep true s LFin = Some s1 -> lstep true s1 LInit = Some s2 ->
  storages s2 = 0 /\ slots_busy s2 = 0 /\ running s2 = true /\ ep_iters s2 = 0.
Proof.
  intros H1 H2. cbn in H1. destruct (running s); cbn in H1; [|discriminate]. injection H1 as <-.
  cbn in H2. injection H2 as <-. cbn. auto.
Qed.

Lemma destroy_leaves_usable s s1 :
  lstep true s LDestroy = Some s1 ->
  storages s1 = 0 /\ running s1 = running s /\ ep_alive s1 = ep_alive s /\ gc_alive s1 = gc_alive s.
Proof. intros H. cbn in H. injection H as <-. cbn. auto. Qed.

Theorem original_init_refuted :
  exists tr s, lrun false lc_init tr = Some s /\ running s = true /\ ep_alive s = false /\ ep_iters s = 1.
Proof.
  exists [LInit; LFin; LInit; LEpochIter]. eexists. split; [vm_compute; reflexivity|].
  cbn. auto.
Qed.
