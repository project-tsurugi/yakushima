(** * KeyProofs: every hand-written key comparison site agrees with the
    canonical (slice, length) order on well-formed tuples; the bytewise
    lexicographic order [lex_lt] of the keys is a strict total order, and
    the order of the tuples is that order. *)
From Coq Require Import NArith PeanoNat Lia ZifyBool Bool List.
From Yk Require Import KeyDefs.
Local Open Scope N_scope.

(** ** [canon_lt] is a strict total order (no well-formedness needed) *)

Lemma canon_lt_irrefl a : canon_lt a a = false.
Proof. unfold canon_lt. lia. Qed.

Lemma canon_lt_trans a b c :
  canon_lt a b = true -> canon_lt b c = true -> canon_lt a c = true.
Proof. unfold canon_lt. lia. Qed.

Lemma canon_lt_asym a b : canon_lt a b = true -> canon_lt b a = false.
Proof. unfold canon_lt. lia. Qed.

Lemma canon_lt_trich a b : canon_lt a b = false -> canon_lt b a = false -> a = b.
Proof.
  destruct a as [sa la], b as [sb lb]. unfold canon_lt. cbn [ks kl].
  intros H1 H2. f_equal; lia.
Qed.

(** [canon_lt b a = false] read as [a <= b] *)
Lemma canon_le_lt_trans a b c : canon_lt b a = false -> canon_lt b c = true -> canon_lt a c = true.
Proof. unfold canon_lt. lia. Qed.
Lemma canon_lt_le_trans a b c : canon_lt a b = true -> canon_lt c b = false -> canon_lt a c = true.
Proof. unfold canon_lt. lia. Qed.
Lemma canon_le_trans a b c : canon_lt b a = false -> canon_lt c b = false -> canon_lt c a = false.
Proof. unfold canon_lt. lia. Qed.

Lemma canon_lt_min k : canon_lt k {| ks := 0; kl := 0 |} = false.
Proof. unfold canon_lt. cbn [ks kl]. lia. Qed.

(** ** well-formedness unpacked *)

Lemma kt_wf_spec t :
  kt_wf t = true <->
  kl t <= 9 /\ ks t < 2 ^ 64 /\ (kl t < 8 -> ks t mod 2 ^ (8 * (8 - kl t)) = 0).
Proof.
  unfold kt_wf. rewrite !andb_true_iff, orb_true_iff, !N.leb_le, N.ltb_lt, N.eqb_eq.
  split.
  - intros [[H1 H2] H3]. repeat split; auto. intros H. destruct H3 as [H3|H3]; [lia|exact H3].
  - intros (H1 & H2 & H3). split; [split; assumption|].
    destruct (N.le_gt_cases 8 (kl t)) as [H|H]; [left; exact H|right; apply H3; exact H].
Qed.

Lemma wf_len_le t : kt_wf t = true -> kl t <= 9.
Proof. intros H. apply kt_wf_spec in H. apply H. Qed.

Lemma wf_len0 t : kt_wf t = true -> kl t = 0 -> ks t = 0.
Proof.
  intros Hw H0. apply kt_wf_spec in Hw. destruct Hw as (_ & Hs & Hp).
  specialize (Hp ltac:(lia)). rewrite H0 in Hp.
  change (2 ^ (8 * (8 - 0))) with (2 ^ 64) in Hp.
  rewrite N.mod_small in Hp by exact Hs. exact Hp.
Qed.

Lemma wf_pad t : kt_wf t = true -> ks t mod 2 ^ (8 * (8 - N.min (kl t) 8)) = 0.
Proof.
  intros Hw. apply kt_wf_spec in Hw. destruct Hw as (_ & _ & Hp).
  destruct (N.lt_ge_cases (kl t) 8) as [H|H].
  - rewrite N.min_l by (apply N.lt_le_incl; exact H). apply Hp. exact H.
  - rewrite N.min_r by exact H. change (2 ^ (8 * (8 - 8))) with 1. apply N.mod_1_r.
Qed.

(** the link tuple over the slice of all 0xff bytes is the greatest well-formed tuple *)
Lemma canon_lt_max k : kt_wf k = true -> canon_lt {| ks := 18446744073709551615; kl := 9 |} k = false.
Proof.
  intros H. apply kt_wf_spec in H. destruct H as (H1 & H2 & _). unfold canon_lt. cbn [ks kl].
  change (2 ^ 64) with 18446744073709551616 in H2. lia.
Qed.

(** ** memcmp over a prefix of a slice *)

Lemma cmpN_spec a b :
  match cmpN a b with Lt3 => a < b | Eq3 => a = b | Gt3 => b < a end.
Proof. unfold cmpN. destruct (N.compare_spec a b); assumption. Qed.

Lemma shiftr_lt_inv a b n : N.shiftr a n < N.shiftr b n -> a < b.
Proof.
  rewrite !N.shiftr_div_pow2. intros H. apply N.nle_gt. intros Hle.
  apply N.nle_gt in H. apply H. apply N.div_le_mono; [|exact Hle].
  apply N.pow_nonzero. discriminate.
Qed.

Lemma shiftr_eq_le a b n : a mod 2 ^ n = 0 -> N.shiftr a n = N.shiftr b n -> a <= b.
Proof.
  rewrite !N.shiftr_div_pow2. intros Hm He.
  assert (P : 2 ^ n <> 0) by (apply N.pow_nonzero; discriminate).
  pose proof (N.div_mod a (2 ^ n) P) as E.
  rewrite Hm, N.add_0_r, He in E. rewrite E. apply N.mul_div_le. exact P.
Qed.

Lemma memcmp_slice_spec a b n :
  match memcmp_slice a b n with
  | Lt3 => a < b
  | Gt3 => b < a
  | Eq3 => (a mod 2 ^ (8 * (8 - n)) = 0 -> a <= b) /\ (b mod 2 ^ (8 * (8 - n)) = 0 -> b <= a)
  end.
Proof.
  unfold memcmp_slice. cbv zeta.
  pose proof (cmpN_spec (N.shiftr a (8 * (8 - n))) (N.shiftr b (8 * (8 - n)))) as H.
  destruct (cmpN _ _).
  - exact (shiftr_lt_inv _ _ _ H).
  - split; intros Hm; [|symmetry in H]; exact (shiftr_eq_le _ _ _ Hm H).
  - exact (shiftr_lt_inv _ _ _ H).
Qed.

(** 18446744073709551615: the slice of all 0xff bytes *)
Lemma memcmp_max_l s n : s < 2 ^ 64 -> memcmp_slice 18446744073709551615 s n <> Lt3.
Proof.
  intros H E. pose proof (memcmp_slice_spec 18446744073709551615 s n) as X. rewrite E in X.
  change (2 ^ 64) with 18446744073709551616 in H. lia.
Qed.

Lemma memcmp_max_r s n : s < 2 ^ 64 -> memcmp_slice s 18446744073709551615 n <> Gt3.
Proof.
  intros H E. pose proof (memcmp_slice_spec s 18446744073709551615 n) as X. rewrite E in X.
  change (2 ^ 64) with 18446744073709551616 in H. lia.
Qed.

Lemma memcmp8 a b : memcmp_slice a b 8 = cmpN a b.
Proof.
  unfold memcmp_slice. cbv zeta. change (8 * (8 - 8)) with 0.
  rewrite !N.shiftr_0_r. reflexivity.
Qed.

(** memcmp over the common prefix, then the lengths, is the canonical order
    because the shorter tuple is zero padded *)
Lemma min_probe_canon a b m :
  kt_wf a = true -> kt_wf b = true -> m = N.min (N.min (kl a) (kl b)) 8 ->
  match memcmp_slice (ks a) (ks b) m with
  | Lt3 => true
  | Eq3 => kl a <? kl b
  | Gt3 => false
  end = canon_lt a b.
Proof.
  intros Ha Hb Hm.
  assert (kl a <= kl b -> m = N.min (kl a) 8) as Ma by lia.
  assert (kl b <= kl a -> m = N.min (kl b) 8) as Mb by lia.
  pose proof (wf_pad a Ha) as Pa. pose proof (wf_pad b Hb) as Pb.
  pose proof (memcmp_slice_spec (ks a) (ks b) m) as H. unfold canon_lt.
  destruct (memcmp_slice (ks a) (ks b) m).
  - clear Pa Pb. lia.
  - destruct H as [H1 H2].
    assert (kl a <= kl b -> ks a <= ks b) as L1.
    { intros Hl. apply H1. rewrite (Ma Hl). exact Pa. }
    assert (kl b <= kl a -> ks b <= ks a) as L2.
    { intros Hl. apply H2. rewrite (Mb Hl). exact Pb. }
    clear H1 H2 Pa Pb. lia.
  - clear Pa Pb. lia.
Qed.

(** ** key_tuple::operator< and friends
    The site theorems need [kt_wf] of both operands.  The sentinels of the scans (IScanDefs.kt_sup of
    length 10, ScanDefs.scan_descent_tuple with a length byte up to 255) are outside it; they are
    compared where they are defined, through [memcmp_max_l] / [memcmp_max_r]. *)

Theorem kt_lt_canon a b : kt_wf a = true -> kt_wf b = true -> kt_lt a b = canon_lt a b.
Proof.
  intros Ha Hb. unfold kt_lt.
  pose proof (wf_len_le a Ha) as La. pose proof (wf_len_le b Hb) as Lb.
  destruct (N.eqb_spec (kl b) 0) as [Eb|Eb].
  - pose proof (wf_len0 b Hb Eb). unfold canon_lt. lia.
  - destruct (N.eqb_spec (kl a) 0) as [Ea|Ea].
    + pose proof (wf_len0 a Ha Ea). unfold canon_lt. lia.
    + unfold memcmp_tuple. destruct (N.leb_spec (N.min (kl a) (kl b)) 8) as [H|H].
      * rewrite <- (min_probe_canon a b _ Ha Hb eq_refl).
        replace (N.min (N.min (kl a) (kl b)) 8) with (N.min (kl a) (kl b)) by lia.
        reflexivity.
      * assert (kl a = 9) as E1 by lia. assert (kl b = 9) as E2 by lia.
        rewrite <- (min_probe_canon a b 8 Ha Hb) by lia.
        destruct (memcmp_slice (ks a) (ks b) 8); try reflexivity.
        rewrite E1, E2. reflexivity.
Qed.

Theorem kt_gt_canon a b : kt_wf a = true -> kt_wf b = true -> kt_gt a b = canon_lt b a.
Proof. intros. unfold kt_gt. apply kt_lt_canon; assumption. Qed.

Theorem kt_ge_canon a b : kt_wf a = true -> kt_wf b = true -> kt_ge a b = negb (canon_lt a b).
Proof. intros. unfold kt_ge. rewrite kt_lt_canon by assumption. reflexivity. Qed.

Theorem kt_le_canon a b : kt_wf a = true -> kt_wf b = true -> kt_le a b = negb (canon_lt b a).
Proof. intros. unfold kt_le. rewrite kt_gt_canon by assumption. reflexivity. Qed.

Lemma ktuple_eq a b : a = b <-> ks a = ks b /\ kl a = kl b.
Proof.
  split; [intros ->; split; reflexivity|].
  destruct a as [sa la], b as [sb lb]. cbn [ks kl]. intros [-> ->]. reflexivity.
Qed.

Theorem kt_eq_canon a b :
  (kt_eq a b = true <-> a = b) /\
  kt_eq a b = negb (canon_lt a b) && negb (canon_lt b a).
Proof.
  split.
  - rewrite ktuple_eq. unfold kt_eq. lia.
  - unfold kt_eq, canon_lt. lia.
Qed.

Lemma kt_eq_sym a b : kt_eq a b = kt_eq b a.
Proof. unfold kt_eq. rewrite (N.eqb_sym (ks a)), (N.eqb_sym (kl a)). reflexivity. Qed.

Lemma kt_eq_iff a b : kt_eq a b = true <-> a = b.
Proof. apply (proj1 (kt_eq_canon a b)). Qed.

Lemma kt_eq_refl a : kt_eq a a = true.
Proof. apply kt_eq_iff. reflexivity. Qed.

Lemma kt_neq a b : a <> b -> kt_eq a b = false.
Proof. intros H. destruct (kt_eq a b) eqn:E; [|reflexivity]. apply kt_eq_iff in E. contradiction. Qed.

(** ** the other comparison sites *)

Lemma lookup_probe_char k t :
  kt_wf k = true -> kt_wf t = true ->
  lookup_probe k t = if kt_eq k t then Hit else if canon_lt k t then Stop else Next.
Proof.
  intros Hk Ht. pose proof (wf_len_le k Hk) as Lk. pose proof (wf_len_le t Ht) as Lt.
  pose proof (wf_len0 k Hk) as Zk. pose proof (wf_len0 t Ht) as Zt.
  unfold lookup_probe, kt_eq, canon_lt. rewrite memcmp8.
  pose proof (cmpN_spec (ks k) (ks t)) as H.
  destruct ((kl k =? 0) && (kl t =? 0)) eqn:E0.
  - assert ((ks k =? ks t) && (kl k =? kl t) = true) as -> by lia. reflexivity.
  - destruct (cmpN (ks k) (ks t)).
    + assert ((ks k =? ks t) && (kl k =? kl t) = false) as -> by lia.
      assert ((ks k <? ks t) || (ks k =? ks t) && (kl k <? kl t) = true) as -> by lia.
      reflexivity.
    + destruct ((8 <? kl k) && (8 <? kl t) || (kl k =? kl t)) eqn:E1.
      * assert ((ks k =? ks t) && (kl k =? kl t) = true) as -> by lia. reflexivity.
      * assert ((ks k =? ks t) && (kl k =? kl t) = false) as -> by lia.
        destruct (N.ltb_spec (kl k) (kl t)) as [H1|H1].
        -- assert ((ks k <? ks t) || (ks k =? ks t) && true = true) as -> by lia. reflexivity.
        -- assert ((ks k <? ks t) || (ks k =? ks t) && false = false) as -> by lia. reflexivity.
    + assert ((ks k =? ks t) && (kl k =? kl t) = false) as -> by lia.
      assert ((ks k <? ks t) || (ks k =? ks t) && (kl k <? kl t) = false) as -> by lia.
      reflexivity.
Qed.

Theorem lookup_probe_site k t :
  kt_wf k = true -> kt_wf t = true ->
  (lookup_probe k t = Hit <-> k = t \/ (8 < kl k /\ 8 < kl t /\ ks k = ks t)) /\
  (lookup_probe k t = Hit <-> ks k = ks t /\ kl k = kl t) /\
  (lookup_probe k t = Stop <-> canon_lt k t = true) /\
  (lookup_probe k t = Next <-> canon_lt t k = true).
Proof.
  intros Hk Ht. rewrite (lookup_probe_char k t Hk Ht), ktuple_eq.
  pose proof (wf_len_le k Hk). pose proof (wf_len_le t Ht).
  unfold kt_eq, canon_lt.
  destruct ((ks k =? ks t) && (kl k =? kl t)) eqn:E;
    [|destruct ((ks k <? ks t) || (ks k =? ks t) && (kl k <? kl t)) eqn:E2];
    repeat split; intros; try discriminate; try reflexivity; lia.
Qed.

Lemma lookup_probe_cases k t :
  kt_wf k = true -> kt_wf t = true ->
  match lookup_probe k t with
  | Hit => k = t
  | Stop => canon_lt k t = true
  | Next => canon_lt t k = true
  end.
Proof.
  intros Hk Ht. destruct (lookup_probe_site k t Hk Ht) as (_ & H1 & H2 & H3).
  destruct (lookup_probe k t).
  - apply ktuple_eq. apply H1. reflexivity.
  - apply H2. reflexivity.
  - apply H3. reflexivity.
Qed.

Theorem rank_probe_site k t : rank_probe k t = canon_lt k t.
Proof.
  unfold rank_probe, canon_lt. rewrite memcmp8.
  pose proof (cmpN_spec (ks k) (ks t)). destruct (cmpN _ _); lia.
Qed.

Theorem route_probe_site k sep :
  kt_wf k = true -> kt_wf sep = true -> route_probe k sep = canon_lt k sep.
Proof.
  intros Hk Hs. unfold route_probe. cbv zeta. apply min_probe_canon; auto.
Qed.

Theorem iins_probe_site k sep :
  kt_wf k = true -> kt_wf sep = true -> iins_probe k sep = canon_lt k sep.
Proof.
  intros Hk Hs. unfold iins_probe. cbv zeta. apply min_probe_canon; auto.
  pose proof (wf_len_le k Hk). pose proof (wf_len_le sep Hs).
  destruct ((8 <? kl k) && (8 <? kl sep)) eqn:E; lia.
Qed.

(** [rank] is the position of [k] among the old entries and [first] is the entry
    at position [remaining]; the caller's invariant is that a smaller rank means
    a smaller key. *)
Theorem bsplit_left_site k first rank remaining :
  kt_wf k = true -> kt_wf first = true ->
  (ks k <> ks first \/ kl k <> kl first) ->
  ((rank <? remaining) = true -> canon_lt k first = true) ->
  bsplit_left k first rank remaining = canon_lt k first.
Proof.
  intros Hk Hf Hne Hinv. pose proof (wf_len0 k Hk) as Zk.
  unfold bsplit_left. cbv zeta.
  pose proof (min_probe_canon k first _ Hk Hf eq_refl) as H.
  destruct (memcmp_slice (ks k) (ks first) (N.min (N.min (kl k) (kl first)) 8));
    unfold canon_lt in *; lia.
Qed.

Theorem delete_match_site k t :
  kt_wf k = true -> kt_wf t = true ->
  (delete_match k t = true <-> ks k = ks t /\ kl k = kl t).
Proof.
  intros Hk Ht. pose proof (wf_len0 k Hk) as Zk. pose proof (wf_len0 t Ht) as Zt.
  unfold delete_match. rewrite memcmp8.
  pose proof (cmpN_spec (ks k) (ks t)). destruct (cmpN _ _); lia.
Qed.

(** ** the bytewise lexicographic order is a strict total order *)
Lemma lex_lt_irrefl a : lex_lt a a = false.
Proof. induction a as [|x a IH]; [reflexivity|]. cbn [lex_lt]. rewrite IH. lia. Qed.

Lemma lex_lt_trans : forall a b c, lex_lt a b = true -> lex_lt b c = true -> lex_lt a c = true.
Proof.
  induction a as [|x a IH]; intros [|y b] [|z c]; cbn [lex_lt]; try discriminate; try reflexivity.
  intros H1 H2.
  destruct (lex_lt a b) eqn:E1; destruct (lex_lt b c) eqn:E2.
  - rewrite (IH b c E1 E2). lia.
  - lia.
  - lia.
  - lia.
Qed.

Lemma lex_lt_trich : forall a b, lex_lt a b = false -> lex_lt b a = false -> a = b.
Proof.
  induction a as [|x a IH]; intros [|y b]; cbn [lex_lt]; try discriminate; try reflexivity.
  intros H1 H2.
  destruct (lex_lt a b) eqn:E1; destruct (lex_lt b a) eqn:E2; try lia.
  assert (x = y) as -> by lia. f_equal. apply IH; assumption.
Qed.

Lemma lex_lt_asym a b : lex_lt a b = true -> lex_lt b a = false.
Proof.
  intros H. destruct (lex_lt b a) eqn:E; [|reflexivity].
  pose proof (lex_lt_trans _ _ _ H E) as X. rewrite lex_lt_irrefl in X. discriminate.
Qed.

Lemma lex_lt_app p a b : lex_lt (p ++ a) (p ++ b) = lex_lt a b.
Proof.
  induction p as [|x p IH]; [reflexivity|]. cbn [app lex_lt]. rewrite IH.
  destruct (lex_lt a b); lia.
Qed.

Lemma lex_le_lt_trans a b c : lex_lt b a = false -> lex_lt b c = true -> lex_lt a c = true.
Proof.
  intros H1 H2. destruct (lex_lt a b) eqn:E; [eapply lex_lt_trans; eassumption|].
  rewrite (lex_lt_trich a b E H1). exact H2.
Qed.

Lemma lex_lt_le_trans a b c : lex_lt a b = true -> lex_lt c b = false -> lex_lt a c = true.
Proof.
  intros H1 H2. destruct (lex_lt b c) eqn:E; [eapply lex_lt_trans; eassumption|].
  rewrite <- (lex_lt_trich b c E H2). exact H1.
Qed.

Lemma lex_lt_nil_r a : lex_lt a [] = false.
Proof. destruct a; reflexivity. Qed.

Lemma lex_lt_nil_l a : a <> [] -> lex_lt [] a = true.
Proof. destruct a; [contradiction|reflexivity]. Qed.

Lemma lex_lt_prefix a x : x <> [] -> lex_lt a (a ++ x) = true.
Proof.
  intros H. rewrite <- (app_nil_r a) at 1. rewrite lex_lt_app. apply lex_lt_nil_l. exact H.
Qed.

Lemma lex_lt_prefix_le a x : lex_lt (a ++ x) a = false.
Proof.
  rewrite <- (app_nil_r a) at 2. rewrite lex_lt_app. apply lex_lt_nil_r.
Qed.

(** ** the tuple order is the bytewise lexicographic order of the keys *)

Definition bytes (k : key) : Prop := Forall (fun b => b < 256) k.

(** [bytes] as a test: the examples establish it for their closed keys by evaluation *)
Definition bytesb (k : key) : bool := forallb (fun b => b <? 256) k.

Lemma bytesb_sound k : bytesb k = true -> bytes k.
Proof.
  unfold bytesb. rewrite forallb_forall. intros H. apply Forall_forall. intros b Hb. apply N.ltb_lt, H, Hb.
Qed.

Lemma keys_bytes ks : forallb bytesb ks = true -> Forall bytes ks.
Proof. rewrite forallb_forall. intros H. apply Forall_forall. intros k Hk. apply bytesb_sound, H, Hk. Qed.

(** [n+1] marks "continues" *)
Definition klen (n : nat) (a : key) : N :=
  if N.of_nat n <? N.of_nat (length a) then N.of_nat n + 1 else N.of_nat (length a).

Lemma tuple_of_key_klen k :
  tuple_of_key k = {| ks := slice_of_bytes k 8; kl := klen 8 k |}.
Proof.
  unfold tuple_of_key, klen. change (N.of_nat 8) with 8. change (8 + 1) with 9.
  destruct (8 <? N.of_nat (length k)); reflexivity.
Qed.

Lemma klen_nil n : klen n [] = 0.
Proof. unfold klen. cbn [length]. destruct (N.ltb_spec (N.of_nat n) (N.of_nat 0)); lia. Qed.

Lemma klen0_cons x r : klen 0 (x :: r) = 1.
Proof.
  unfold klen. cbn [length]. rewrite Nat2N.inj_succ.
  destruct (N.ltb_spec (N.of_nat 0) (N.succ (N.of_nat (length r)))); lia.
Qed.

Lemma klen_cons m x r : klen (S m) (x :: r) = klen m r + 1.
Proof.
  unfold klen. cbn [length]. rewrite !Nat2N.inj_succ.
  destruct (N.ltb_spec (N.succ (N.of_nat m)) (N.succ (N.of_nat (length r))));
    destruct (N.ltb_spec (N.of_nat m) (N.of_nat (length r))); lia.
Qed.

Lemma pow256_pos m : 0 < 256 ^ m.
Proof. apply N.neq_0_lt_0. apply N.pow_nonzero. discriminate. Qed.

Lemma slice_0 bs : slice_of_bytes bs 0 = 0.
Proof. destruct bs; reflexivity. Qed.

Lemma slice_lt n : forall bs, bytes bs -> slice_of_bytes bs n < 256 ^ N.of_nat n.
Proof.
  induction n as [|m IH]; intros bs Hb.
  - rewrite slice_0. apply pow256_pos.
  - rewrite Nat2N.inj_succ, N.pow_succ_r'. pose proof (pow256_pos (N.of_nat m)) as HP.
    destruct bs as [|b r]; cbn [slice_of_bytes].
    + lia.
    + inversion Hb as [|? ? Hb1 Hb2]; subst. specialize (IH r Hb2).
      set (P := 256 ^ N.of_nat m) in *.
      assert (b * P <= 255 * P) by (apply N.mul_le_mono_r; lia). lia.
Qed.

(** The first [n] bytes decide, as a number and then by [klen], unless both keys agree on them and
    both go on (equal slices, [klen] = [n + 1] on both sides): then what follows decides. *)
Lemma lex_slice n : forall a b, bytes a -> bytes b ->
  lex_lt a b =
    ((slice_of_bytes a n <? slice_of_bytes b n) ||
     ((slice_of_bytes a n =? slice_of_bytes b n) && (klen n a <? klen n b))) ||
    ((slice_of_bytes a n =? slice_of_bytes b n) && (klen n a =? klen n b) &&
     (klen n a =? N.of_nat n + 1) && lex_lt (skipn n a) (skipn n b)).
Proof.
  induction n as [|m IH]; intros a b Ha Hb.
  - rewrite !slice_0. cbn [skipn]. change (N.of_nat 0 + 1) with 1.
    destruct a as [|x a'], b as [|y b']; rewrite ?klen_nil, ?klen0_cons.
    + reflexivity.
    + reflexivity.
    + reflexivity.
    + destruct (lex_lt (x :: a') (y :: b')); reflexivity.
  - destruct a as [|x a'], b as [|y b']; cbn [lex_lt slice_of_bytes skipn];
      rewrite ?klen_nil, ?klen_cons.
    + lia.
    + lia.
    + lia.
    + inversion Ha as [|? ? Ha1 Ha2]; subst. inversion Hb as [|? ? Hb1 Hb2]; subst.
      rewrite (IH a' b' Ha2 Hb2). rewrite Nat2N.inj_succ.
      pose proof (slice_lt m a' Ha2) as Sa. pose proof (slice_lt m b' Hb2) as Sb.
      set (P := 256 ^ N.of_nat m) in *.
      set (sa := slice_of_bytes a' m) in *. set (sb := slice_of_bytes b' m) in *.
      set (la := klen m a'). set (lb := klen m b').
      set (rest := lex_lt (skipn m a') (skipn m b')).
      set (M := N.of_nat m). clearbody P sa sb la lb rest M.
      destruct (N.lt_trichotomy x y) as [H|[H|H]].
      * assert ((x + 1) * P <= y * P) by (apply N.mul_le_mono_r; lia).
        assert (x * P + sa < y * P + sb) by lia. lia.
      * subst y. lia.
      * assert ((y + 1) * P <= x * P) by (apply N.mul_le_mono_r; lia).
        assert (y * P + sb < x * P + sa) by lia. lia.
Qed.

Theorem lex_tuple a b :
  bytes a -> bytes b ->
  lex_lt a b =
    canon_lt (tuple_of_key a) (tuple_of_key b) ||
    (kt_eq (tuple_of_key a) (tuple_of_key b) && (kl (tuple_of_key a) =? 9) &&
     lex_lt (skipn 8 a) (skipn 8 b)).
Proof.
  intros Ha Hb. rewrite (lex_slice 8 a b Ha Hb), !tuple_of_key_klen. reflexivity.
Qed.

Theorem lex_tuple_short a b :
  bytes a -> bytes b -> (length a <= 8 \/ length b <= 8)%nat ->
  lex_lt a b = canon_lt (tuple_of_key a) (tuple_of_key b).
Proof.
  intros Ha Hb Hl. rewrite (lex_tuple a b Ha Hb).
  set (r := lex_lt (skipn 8 a) (skipn 8 b)). clearbody r.
  rewrite !tuple_of_key_klen. unfold kt_eq, canon_lt, klen. cbn [ks kl].
  change (N.of_nat 8) with 8. change (8 + 1) with 9.
  destruct (N.ltb_spec 8 (N.of_nat (length a))); destruct (N.ltb_spec 8 (N.of_nat (length b))); lia.
Qed.

Lemma lex_tuple_neq a b :
  bytes a -> bytes b -> tuple_of_key a <> tuple_of_key b -> lex_lt a b = canon_lt (tuple_of_key a) (tuple_of_key b).
Proof. intros Ha Hb Hne. rewrite (lex_tuple a b Ha Hb), (kt_neq _ _ Hne). apply orb_false_r. Qed.

Lemma slice_pad n : forall bs, (length bs <= n)%nat ->
  slice_of_bytes bs n mod 256 ^ N.of_nat (n - length bs) = 0.
Proof.
  induction n as [|m IH]; intros bs Hl.
  - rewrite slice_0. apply N.mod_0_l. apply N.pow_nonzero. discriminate.
  - destruct bs as [|b r]; cbn [slice_of_bytes].
    + apply N.mod_0_l. apply N.pow_nonzero. discriminate.
    + cbn [length] in Hl. cbn [length Nat.sub].
      assert (NZ : 256 ^ N.of_nat (m - length r) <> 0) by (apply N.pow_nonzero; discriminate).
      apply N.mod_divide; [exact NZ|]. apply N.divide_add_r.
      * apply N.divide_mul_r. exists (256 ^ N.of_nat (length r)).
        rewrite <- N.pow_add_r. f_equal. lia.
      * apply N.mod_divide; [exact NZ|]. apply IH. lia.
Qed.

Theorem tuple_of_key_wf k : bytes k -> kt_wf (tuple_of_key k) = true.
Proof.
  intros Hb. apply kt_wf_spec. rewrite tuple_of_key_klen. cbn [ks kl].
  split; [|split].
  - unfold klen. change (N.of_nat 8) with 8.
    destruct (N.ltb_spec 8 (N.of_nat (length k))); lia.
  - change (2 ^ 64) with (256 ^ N.of_nat 8). apply slice_lt. exact Hb.
  - intros H.
    assert (klen 8 k = N.of_nat (length k) /\ (length k <= 8)%nat) as [E L].
    { revert H. unfold klen. change (N.of_nat 8) with 8.
      destruct (N.ltb_spec 8 (N.of_nat (length k))); lia. }
    rewrite E. clear H E.
    rewrite N.pow_mul_r. change (2 ^ 8) with 256.
    replace (8 - N.of_nat (length k)) with (N.of_nat (8 - length k)) by lia.
    apply slice_pad. exact L.
Qed.
