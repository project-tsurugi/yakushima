(** * C11 -- everything allocated is released: no leak through any operation history.

    Model-level accounting.  One layer (the theorems named _partial: node ids of one
    B+-tree only, no values, no other layers): an insert never loses a
    node and creates only nodes with fresh ids; a delete hands every node that leaves
    the tree to the garbage collector exactly once (every id of the old tree is retired
    or an id of the new tree, never both, and neither list has duplicates).
    Store and system level (AccountingProofs): the balance over every history of
    the model, incl. delete_storage, destroy and failed unique inserts.
    The balance over whole init..fin histories of the code -- incl. delete_storage,
    destroy, failed create_storage, overwritten values -- is tied to the real allocator
    (operator new/delete interposition) on every run: per-operation allocation and
    release counts predicted by the model, zero balance after fin(). *)
From Coq Require Import NArith List Permutation.
From Yk Require Import ListAux KeyDefs KeyProofs TreeDefs LeafProofs LayerProofs
     StoreProofs SysDefs SysProofs AccountingProofs.
Import ListNotations.
Local Open Scope N_scope.

Theorem C11_insert_loses_nothing_partial : forall k lv fuel t lo hi ctr,
  WF_bt lo hi t -> kt_wf k = true -> in_bnd lo hi k -> ~ In k (bt_keys t) ->
  entry_ok {| sl_key := k; sl_lv := lv |} -> (bt_height t < fuel)%nat ->
  exists res info ctr' nw,
    bt_put fuel t k lv ctr = Some (res, info, ctr') /\
    ires_ok lo hi res /\
    (exists A B, bt_elems t = A ++ B /\ ires_elems res = A ++ {| sl_key := k; sl_lv := lv |} :: B) /\
    Permutation (ires_ids res) (nw ++ bt_ids t) /\ NoDup nw /\
    (forall i, In i nw -> ctr <= i /\ i < ctr') /\ ctr < ctr' /\
    In (pi_modified info) (bt_ids t) /\
    match pi_created info with
    | Some c => c = ctr /\ In c nw
    | None => nw = [] /\ exists t', res = IOne t'
    end.
Proof. exact bt_put_spec. Qed.
Print Assumptions C11_insert_loses_nothing_partial.

Theorem C11_delete_retires_exactly_once_partial : forall k fuel t lo hi res ret,
  WF_bt lo hi t -> NoDup (bt_ids t) -> kt_wf k = true -> In k (bt_keys t) -> (bt_height t < fuel)%nat ->
  bt_delete fuel t k = Some (res, ret) ->
  NoDup (dres_ids res) /\ NoDup ret /\ incl (dres_ids res) (bt_ids t) /\ incl ret (bt_ids t) /\
  (forall x, In x ret -> ~ In x (dres_ids res)) /\
  (forall x, In x (bt_ids t) -> In x ret \/ In x (dres_ids res)).
Proof. exact bt_delete_ids. Qed.
Print Assumptions C11_delete_retires_exactly_once_partial.

(** ** Store and system level (AccountingProofs): after every history, what is reachable together with everything
    released is a duplicate-free list of ids below the counter: nothing is released twice, nothing released is still
    reachable; after destroy nothing is reachable.  [sys_allocs] = node ids and out-of-line value ids reachable from
    the outer tree and all user trees; [released_all] = everything handed to the gc or released at once
    (delete_storage, destroy), in order.  (That every counter value is exactly one of reachable, retired or never an
    object is [AccountingProofs.history_accounting], for the histories of one tree.) *)

Theorem C11_no_leak_no_double_release : forall ops, Forall op_bytes ops ->
  let s' := fst (exec_all sys_init ops) in
  SAcc s' /\ NoDup (sys_allocs s' ++ released_all sys_init ops) /\
  (forall i, In i (sys_allocs s' ++ released_all sys_init ops) -> 1 <= i < sy_ctr s').
Proof. exact sys_history_accounting. Qed.
Print Assumptions C11_no_leak_no_double_release.

(** one step: what is reachable afterwards together with what the operation released is exactly what was reachable
    before plus fresh ids from the counter *)
Theorem C11_step_accounting : forall s o, SAcc s -> op_bytes o -> exec_post s o.
Proof. exact exec_accounting. Qed.
Print Assumptions C11_step_accounting.

Theorem C11_destroy_zero_balance : forall ops, Forall op_bytes ops ->
  sys_allocs (fst (exec_all sys_init (ops ++ [ODestroy]))) = [].
Proof. exact sys_destroy_zero_balance. Qed.
Print Assumptions C11_destroy_zero_balance.

(** the value id [c] taken before the put: reachable afterwards when an out-of-line value was stored; neither
    reachable nor retired when the value is inline or the put failed (unique restriction), and a failed put changes
    nothing else.  No release appears in the statement, nor in the model: [c] is then a counter value that never
    became an object. *)
Theorem C11_failed_put_releases : forall c tr k bs al u il tr' po c',
  WF_store c tr -> alloc_ok c tr -> bytes k ->
  put tr k (mk_value c bs al il) u (c + 1) = Some (tr', po, c') ->
  (il = false /\ po_status po = St_OK -> In c (store_allocs tr')) /\
  (il = true \/ po_status po <> St_OK -> ~ In c (store_allocs tr' ++ po_retired po)) /\
  (po_status po <> St_OK -> tr' = tr /\ po_retired po = [] /\ c' = c + 1).
Proof. exact put_value_fate. Qed.
Print Assumptions C11_failed_put_releases.
