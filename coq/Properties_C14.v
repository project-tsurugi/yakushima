(** * C14 -- the session-slot table: distinct tokens, at most [n] sessions,
    every live session is counted by the reclamation protocol (slot running,
    begin epoch non-zero), WARN_MAX_SESSIONS only when the table was
    seen full, quiescent behaviour, slot reuse.  For every capacity [n], any
    number of threads, any interleaving (one shared access per event).
    Property theorems only; the invariant is in SessionProofs.v. *)
From Coq Require Import NArith List PeanoNat.
From Yk Require Import SessionDefs SessionProofs.

(** the inductive invariant holds in every reachable state *)
Theorem C14_invariant : forall n s, reachable n s ->
  (forall i, running s i = true <-> exists t, owns (pc s t) = Some i) /\
  (forall t1 t2 i, owns (pc s t1) = Some i -> owns (pc s t2) = Some i -> t1 = t2) /\
  (forall t i, pc s t = TProbe i \/ pc s t = TCas i \/ owns (pc s t) = Some i -> i < n) /\
  (forall t i, pc s t = THold i \/ pc s t = TLeaving i \/ pc s t = TClaimed i true ->
               begin_ s i <> 0%N) /\
  (forall t i, pc s t = TProbe i \/ pc s t = TCas i -> forall j, j < i -> In j (obs s t)) /\
  (forall t, pc s t = TFull -> forall j, j < n -> In j (obs s t)).
Proof. exact reachable_core. Qed.
Print Assumptions C14_invariant.

(** two threads never hold the same token *)
Theorem C14_distinct_tokens : forall n s t1 t2 i, reachable n s ->
  holds (pc s t1) = Some i -> holds (pc s t2) = Some i -> t1 = t2.
Proof.
  intros n s t1 t2 i HR H1 H2. destruct (reachable_core n s HR) as (_ & B & _).
  apply (B t1 t2 i); apply holds_owns; assumption.
Qed.
Print Assumptions C14_distinct_tokens.

(** at most [n] tokens are held at any moment *)
Theorem C14_capacity : forall n s ts, reachable n s ->
  NoDup ts -> (forall t, In t ts -> holds (pc s t) <> None) -> length ts <= n.
Proof. exact capacity. Qed.
Print Assumptions C14_capacity.

(** the same for slot owners (from the successful CAS to the clearing store) *)
Theorem C14_capacity_owners : forall n s ts, reachable n s ->
  NoDup ts -> (forall t, In t ts -> owns (pc s t) <> None) -> length ts <= n.
Proof. exact capacity_owns. Qed.
Print Assumptions C14_capacity_owners.

(** a held token's slot is marked running with a non-zero begin epoch *)
Theorem C14_counted : forall n s t i, reachable n s ->
  holds (pc s t) = Some i -> begin_ s i <> 0%N /\ running s i = true.
Proof. exact counted. Qed.
Print Assumptions C14_counted.

(** a slot enters [obs t] only by [t] really finding it occupied *)
Theorem C14_obs_sound : forall n s e s' t i,
  sstep n s e = Some s' -> In i (obs s' t) ->
  In i (obs s t) \/ (observes e t i = true /\ running s i = true).
Proof. exact obs_sound. Qed.
Print Assumptions C14_obs_sound.

Theorem C14_enter_resets_obs : forall n s t s',
  sstep n s (EnterCall t) = Some s' -> obs s' t = [].
Proof. exact enter_resets_obs. Qed.
Print Assumptions C14_enter_resets_obs.

(** when thread [t] is about to return WARN_MAX_SESSIONS, then for every slot
    [j < n] the trace contains an event [e] of [t] (a load returning true or a
    failed CAS) executed in a state where slot [j] was occupied, and [t] has
    not begun another enter since *)
Theorem C14_max_sessions_saw_all_full : forall n tr s t,
  srun n sinit tr = Some s -> pc s t = TFull ->
  forall j, j < n ->
  exists tr1 e tr2 s1,
    tr = tr1 ++ e :: tr2 /\ srun n sinit tr1 = Some s1 /\
    running s1 j = true /\ observes e t j = true /\ ~ In (EnterCall t) tr2.
Proof.
  intros n tr s t H Hpc j Hj. apply (obs_saw n tr s t j H).
  destruct (reachable_core n s (ex_intro _ tr H)) as (_ & _ & _ & _ & _ & F).
  exact (F t Hpc j Hj).
Qed.
Print Assumptions C14_max_sessions_saw_all_full.

(** from any state in which [t] is idle, [t]'s enter run alone terminates; it
    returns WARN_MAX_SESSIONS iff every slot is occupied, i.e. succeeds iff
    fewer than [n] slots are occupied, and then returns the lowest free slot *)
Theorem C14_quiescent_enter_iff_free : forall n s t, pc s t = TIdle ->
  (exists tr s',
     Forall (fun e => ev_thread e = t) tr /\
     (exists tr0, tr = tr0 ++ [EnterRet t (solo_enter n s t)]) /\
     srun n s tr = Some s' /\
     pc s' t = match solo_enter n s t with Some i => THold i | None => TIdle end /\
     (forall u, u <> t -> pc s' u = pc s u)) /\
  (solo_enter n s t = None <-> forall i, i < n -> running s i = true) /\
  ((exists i, solo_enter n s t = Some i) <-> occupied n s < n) /\
  (forall i, solo_enter n s t = Some i ->
     i < n /\ running s i = false /\ forall j, j < i -> running s j = true).
Proof.
  intros n s t Hpc. split; [|split; [|split]].
  - exact (quiescent_enter n s t Hpc).
  - apply solo_enter_none_iff.
  - apply solo_enter_succeeds_iff.
  - apply solo_enter_some.
Qed.
Print Assumptions C14_quiescent_enter_iff_free.

(** leave's last store frees the slot: a following solo enter succeeds with a
    slot no higher than the freed one *)
Theorem C14_slot_reuse : forall n s t i s', reachable n s ->
  sstep n s (ClearRunning t i) = Some s' ->
  running s' i = false /\ pc s' t = TIdle /\
  exists j, solo_enter n s' t = Some j /\ j <= i.
Proof. exact reuse. Qed.
Print Assumptions C14_slot_reuse.

(** non-vacuity: n = 2, three threads.  Threads 0 and 1 both load slot 0 as
    free; 0 wins the CAS, 1's CAS fails and it takes slot 1; thread 2 sees both
    slots occupied and gets WARN_MAX_SESSIONS; 0 leaves; 2 enters again and
    gets slot 0. *)
Definition c14_race : list sev :=
  [ EnterCall 0; EnterCall 1;
    LoadRunning 0 0 false; LoadRunning 1 0 false;
    CasRunning 0 0 true; CasRunning 1 0 false;
    LoadRunning 1 1 false; CasRunning 1 1 true;
    StoreBegin 0 0 5%N; StoreBegin 1 1 5%N;
    EnterRet 0 (Some 0); EnterRet 1 (Some 1) ].

Definition c14_full : list sev :=
  [ EnterCall 2; LoadRunning 2 0 true; LoadRunning 2 1 true ].

Definition c14_retry : list sev :=
  [ EnterRet 2 None;
    LeaveCall 0 0; ClearBegin 0 0; ClearRunning 0 0;
    EnterCall 2; LoadRunning 2 0 false; CasRunning 2 0 true;
    StoreBegin 2 0 7%N; EnterRet 2 (Some 0) ].

Definition c14_view (s : sst) :=
  (pc s 0, pc s 1, pc s 2, (running s 0, running s 1), (begin_ s 0, begin_ s 1), obs s 2).

Example C14_nonvacuous :
  option_map c14_view (srun 2 sinit c14_race) =
    Some (THold 0, THold 1, TIdle, (true, true), (5%N, 5%N), []) /\
  option_map c14_view (srun 2 sinit (c14_race ++ c14_full)) =
    Some (THold 0, THold 1, TFull, (true, true), (5%N, 5%N), [1; 0]) /\
  option_map c14_view (srun 2 sinit (c14_race ++ c14_full ++ c14_retry)) =
    Some (TIdle, THold 1, THold 0, (true, true), (7%N, 5%N), []) /\
  (* the loser of the race: its CAS on slot 0 failed because slot 0 was taken *)
  option_map (fun s => (pc s 1, obs s 1)) (srun 2 sinit (firstn 6 c14_race)) =
    Some (TProbe 1, [0]).
Proof. repeat split; vm_compute; reflexivity. Qed.
