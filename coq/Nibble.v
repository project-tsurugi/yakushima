(** * Nibble: bit-level lemmas for Word64: testbit characterisations of the bitwise
    operations, the nibble reading of shifts by multiples of 4, and [add64] / [sub64]
    where nothing wraps. *)
From Coq Require Import NArith Lia Bool.
From Yk Require Import Word64.
Local Open Scope N_scope.

Lemma testbit_ones k n : N.testbit (N.ones k) n = (n <? k).
Proof.
  destruct (N.ltb_spec n k) as [H|H].
  - apply N.ones_spec_low; exact H.
  - apply N.ones_spec_high; exact H.
Qed.

Lemma mask64_ones : mask64 = N.ones 64.
Proof. reflexivity. Qed.

Lemma fifteen_ones : 15 = N.ones 4.
Proof. reflexivity. Qed.

Lemma testbit_mask64 n : N.testbit mask64 n = (n <? 64).
Proof. rewrite mask64_ones. apply testbit_ones. Qed.

Lemma testbit_15 n : N.testbit 15 n = (n <? 4).
Proof. rewrite fifteen_ones. apply testbit_ones. Qed.

Lemma testbit_trunc64 w n : N.testbit (trunc64 w) n = N.testbit w n && (n <? 64).
Proof. unfold trunc64. rewrite N.land_spec, testbit_mask64. reflexivity. Qed.

Lemma testbit_shr w k n : N.testbit (shr w k) n = N.testbit w (n + k).
Proof. unfold shr. apply N.shiftr_spec'. Qed.

Lemma testbit_shl w k n :
  N.testbit (shl w k) n = (k <=? n) && N.testbit w (n - k) && (n <? 64).
Proof.
  unfold shl. rewrite testbit_trunc64.
  destruct (N.leb_spec k n) as [H|H].
  - rewrite N.shiftl_spec_high' by exact H. reflexivity.
  - rewrite N.shiftl_spec_low by exact H. reflexivity.
Qed.

Lemma testbit_not64 w n : N.testbit (not64 w) n = negb (N.testbit w n) && (n <? 64).
Proof.
  unfold not64. rewrite N.lxor_spec, testbit_trunc64, testbit_mask64.
  destruct (N.testbit w n), (n <? 64); reflexivity.
Qed.

Lemma testbit_nib w i n : N.testbit (nib w i) n = N.testbit w (n + 4 * i) && (n <? 4).
Proof. unfold nib. rewrite N.land_spec, N.shiftr_spec', testbit_15. reflexivity. Qed.

Lemma testbit_field w lo len n :
  N.testbit (field w lo len) n = N.testbit w (n + lo) && (n <? len).
Proof. unfold field. rewrite N.land_spec, N.shiftr_spec', testbit_ones. reflexivity. Qed.

Lemma testbit_set_field w lo len v n :
  N.testbit (set_field w lo len v) n =
  if (lo <=? n) && (n <? lo + len) then N.testbit v (n - lo) else N.testbit w n.
Proof.
  unfold set_field.
  rewrite N.lor_spec, N.ldiff_spec.
  destruct (N.leb_spec lo n) as [H|H].
  - rewrite !N.shiftl_spec_high' by exact H.
    rewrite N.land_spec, !testbit_ones.
    destruct (N.ltb_spec (n - lo) len) as [H1|H1];
      destruct (N.ltb_spec n (lo + len)) as [H2|H2]; try lia; cbn [andb negb orb].
    + rewrite andb_false_r, andb_true_r. reflexivity.
    + rewrite andb_true_r, andb_false_r, orb_false_r. reflexivity.
  - rewrite !N.shiftl_spec_low by exact H. cbn [andb negb orb].
    rewrite andb_true_r, orb_false_r. reflexivity.
Qed.

Lemma testbit_small w k n : w < 2 ^ k -> k <= n -> N.testbit w n = false.
Proof.
  intros Hw Hn.
  destruct (N.eq_dec w 0) as [->|Hz]; [apply N.bits_0|].
  apply N.bits_above_log2.
  apply N.log2_lt_pow2 in Hw; [lia|lia].
Qed.

Lemma lt_pow2_bits w k : (forall n, k <= n -> N.testbit w n = false) -> w < 2 ^ k.
Proof.
  intros H.
  destruct (N.eq_dec w 0) as [->|Hz]; [apply N.neq_0_lt_0, N.pow_nonzero; lia|].
  apply N.log2_lt_pow2; [lia|].
  destruct (N.lt_ge_cases (N.log2 w) k) as [Hl|Hl]; [exact Hl|].
  specialize (H _ Hl). rewrite N.bit_log2 in H by exact Hz. discriminate.
Qed.

Lemma shl_lt64 w k : shl w k < w64.
Proof.
  change w64 with (2 ^ 64). apply lt_pow2_bits. intros n Hn. rewrite testbit_shl.
  destruct (N.ltb_spec n 64); [lia|]. apply andb_false_r.
Qed.

Lemma lor_lt64 a b : a < w64 -> b < w64 -> N.lor a b < w64.
Proof.
  intros Ha Hb. change w64 with (2 ^ 64). apply lt_pow2_bits. intros n Hn.
  rewrite N.lor_spec, (testbit_small a 64), (testbit_small b 64) by assumption. reflexivity.
Qed.

Lemma nib_lt16 w i : nib w i < 16.
Proof.
  change 16 with (2 ^ 4). apply lt_pow2_bits. intros n Hn.
  rewrite testbit_nib. destruct (N.ltb_spec n 4); [lia|]. apply andb_false_r.
Qed.

Lemma nib_small c : c < 16 -> nib c 0 = c.
Proof.
  intros Hc. apply N.bits_inj. intros n. rewrite testbit_nib.
  replace (n + 4 * 0) with n by lia.
  destruct (N.ltb_spec n 4) as [H|H]; [apply andb_true_r|].
  rewrite andb_false_r. symmetry. apply (testbit_small c 4); [exact Hc|exact H].
Qed.

(** ** Nibble algebra *)

Lemma nib_0 j : nib 0 j = 0.
Proof. unfold nib. rewrite N.shiftr_0_l. reflexivity. Qed.

Lemma nib_lor a b j : nib (N.lor a b) j = N.lor (nib a j) (nib b j).
Proof. unfold nib. rewrite N.shiftr_lor. apply N.land_lor_distr_l. Qed.

Lemma nib_shr w k j : nib (shr w (4 * k)) j = nib w (j + k).
Proof. unfold nib, shr. rewrite N.shiftr_shiftr. do 2 f_equal. lia. Qed.

Lemma nib_shl_low w k j : j < k -> nib (shl w (4 * k)) j = 0.
Proof.
  intros H. apply N.bits_inj. intros n. rewrite testbit_nib, testbit_shl, N.bits_0.
  destruct (N.ltb_spec n 4); [|apply andb_false_r].
  destruct (N.leb_spec (4 * k) (n + 4 * j)); [lia|reflexivity].
Qed.

Lemma nib_shl_high w k j : k <= j -> j < 16 -> nib (shl w (4 * k)) j = nib w (j - k).
Proof.
  intros Hk Hj. apply N.bits_inj. intros n. rewrite !testbit_nib, testbit_shl.
  destruct (N.ltb_spec n 4); [|rewrite !andb_false_r; reflexivity].
  destruct (N.leb_spec (4 * k) (n + 4 * j)); [|lia].
  destruct (N.ltb_spec (n + 4 * j) 64); [|lia].
  cbn [andb]. rewrite !andb_true_r. f_equal. lia.
Qed.

Lemma nib_high w j : w < w64 -> 16 <= j -> nib w j = 0.
Proof.
  intros Hw Hj. apply N.bits_inj. intros n. rewrite testbit_nib, N.bits_0.
  rewrite (testbit_small w 64) by (assumption || lia). reflexivity.
Qed.

Lemma nib_small_high c j : c < 16 -> 1 <= j -> nib c j = 0.
Proof.
  intros Hc Hj. apply N.bits_inj. intros n. rewrite testbit_nib, N.bits_0.
  rewrite (testbit_small c 4) by (assumption || lia). reflexivity.
Qed.

Lemma nib_shl_small c k j : c < 16 -> j < 16 -> nib (shl c (4 * k)) j = if j =? k then c else 0.
Proof.
  intros Hc Hj. destruct (N.lt_ge_cases j k) as [H|H].
  - rewrite nib_shl_low by exact H. destruct (N.eqb_spec j k); [lia|reflexivity].
  - rewrite nib_shl_high by assumption. destruct (N.eqb_spec j k) as [->|Hne].
    + rewrite N.sub_diag. apply nib_small. exact Hc.
    + apply nib_small_high; [exact Hc|lia].
Qed.

Lemma nib_ext a b :
  a < w64 -> b < w64 -> (forall i, i < 16 -> nib a i = nib b i) -> a = b.
Proof.
  intros Ha Hb H. apply N.bits_inj. intros n.
  destruct (N.lt_ge_cases n 64) as [Hn|Hn].
  - pose proof (H (n / 4)) as Hi.
    assert (n / 4 < 16) as Hlt by (apply N.div_lt_upper_bound; lia).
    specialize (Hi Hlt).
    assert (N.testbit (nib a (n / 4)) (n mod 4) = N.testbit (nib b (n / 4)) (n mod 4)) as E
      by (rewrite Hi; reflexivity).
    rewrite !testbit_nib in E.
    assert (n mod 4 < 4) as Hm by (apply N.mod_lt; lia).
    replace (n mod 4 + 4 * (n / 4)) with n in E by (pose proof (N.div_mod' n 4); lia).
    destruct (N.ltb_spec (n mod 4) 4); [|lia].
    rewrite !andb_true_r in E. exact E.
  - rewrite (testbit_small a 64), (testbit_small b 64); auto.
Qed.

(** ** [add64] / [sub64] where nothing wraps *)

Lemma add64_small a b : a + b < w64 -> add64 a b = a + b.
Proof. intros. unfold add64. apply N.mod_small. assumption. Qed.

Lemma sub64_small a b : b <= a -> a < w64 -> sub64 a b = a - b.
Proof.
  intros Hb Ha. unfold sub64. rewrite (N.mod_small b) by lia.
  replace (a + w64 - b) with (a - b + 1 * w64) by lia.
  rewrite N.mod_add by (unfold w64; lia). apply N.mod_small. lia.
Qed.
