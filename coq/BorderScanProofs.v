(** * BorderScanProofs: scanner threads (BorderScanDefs.v) running against the
    point operations of BorderDefs.v (repaired reader), any number of threads
    and scanners, any interleaving.

    One inductive invariant [SInv] over [sstep2]:
    - (B)  the base invariant [Inv] of BorderProofs holds in every reachable state;
    - (S0) the ghost lists of an active scanner contain the current binding of
           every key, and only grow;
    - (S1) a completed scan of the node ([SDone v res]) is per-key consistent:
           [res] is strictly increasing in the key, every returned pair was the
           (non-null) binding of its key at some instant of the scan, every key
           that is not returned was unbound at some instant of the scan;
    - (S2) while the node's insert counter equals the recorded one and the
           dirty bit is clear, every key bound now is in [res].  So a key that
           is bound now but missing from [res] was inserted after the validated
           snapshot: the counter differs OR the dirty bit is set (the insert
           has stored its permutation but not yet unlocked); once the lock is
           free the counter differs ([scan_done_covers]).  The naive form "the
           counter differs" is FALSE in the transient state
           ([transient_trace]).  Properties_C06.v states both. *)
From Coq Require Import NArith List Lia Sorted.
From Yk Require Import ListAux BorderDefs BorderProofs BorderScanDefs.
Import ListNotations.
Local Open Scope N_scope.

(** ** The scanner invariant *)

Definition pairs_ok (seen : N -> list (option N)) (acc : list (N * N)) : Prop :=
  forall k w, In (k, w) acc -> w <> 0 /\ In (Some w) (seen k).

Section ScanInv.
  Variables (ins : bool) (vi : N) (pm : list nat) (ks : nat -> N) (seen : N -> list (option N)).

  (** in the middle of a pass over the snapshot: the keys accepted ([acc]), the
      key of the slot being examined ([cur]) and the keys of the slots not yet
      visited ([rest]), in this order *)
  Definition keyline (cur : option N) (rest : list nat) (acc : list (N * N)) : list N :=
    map fst acc ++ match cur with Some k => [k] | None => [] end ++ map ks rest.

  Definition Mid (cur : option N) (rest : list nat) (acc : list (N * N)) : Prop :=
    StronglySorted N.lt (keyline cur rest acc) /\ pairs_ok seen acc /\
    (forall sl, In sl pm -> In (ks sl) (keyline cur rest acc)) /\
    (forall k, In k (keyline cur rest acc) \/ In None (seen k)).

  Definition SP (pc : spc) : Prop :=
    match pc with
    | SIdle | SStable0 => True
    | SPerm v => v <= vi
    | SKey v rest acc => v <= vi /\ (Cnd ins vi v -> Mid None rest acc)
    | SLv v sl k rest acc => v <= vi /\ (Cnd ins vi v -> ks sl = k /\ Mid (Some k) rest acc)
    | SCheck v k w rest acc =>
      v <= vi /\ (Cnd ins vi v -> (w = 0 \/ In (Some w) (seen k)) /\ Mid (Some k) rest acc)
    | SFinal v acc => v <= vi /\ (Cnd ins vi v -> Mid None [] acc)
    | SDone v res =>
      (v <= vi /\ (Cnd ins vi v -> forall sl, In sl pm -> In (ks sl) (map fst res))) /\
      (StronglySorted N.lt (map fst res) /\ pairs_ok seen res) /\
      (forall k, In k (map fst res) \/ In None (seen k))
    end.
End ScanInv.

Lemma pairs_ok_incl seen seen' acc :
  (forall k, incl (seen k) (seen' k)) -> pairs_ok seen acc -> pairs_ok seen' acc.
Proof. intros Hs A k w Hin. destruct (A k w Hin) as [H1 H2]. split; [exact H1|]. apply Hs, H2. Qed.

Lemma Mid_frame pm ks seen pm' ks' seen' cur rest acc :
  Mid pm ks seen cur rest acc ->
  (forall sl, ks' sl = ks sl) -> incl pm' pm -> (forall k, incl (seen k) (seen' k)) ->
  Mid pm' ks' seen' cur rest acc.
Proof.
  intros (M1 & M2 & M3 & M4) Hk Hp Hs. unfold Mid, keyline in *. rewrite (map_ext ks' ks Hk).
  split; [exact M1|]. split; [eapply pairs_ok_incl; eauto|]. split.
  - intros sl Hsl. rewrite Hk. apply M3, Hp, Hsl.
  - intros k. destruct (M4 k) as [H|H]; [left; exact H|right; apply Hs; exact H].
Qed.

Lemma SP_frame b b' seen seen' pc :
  SP (b_insdel b) (b_vins b) (b_perm b) (b_keys b) seen pc ->
  bframe b b' -> (forall k, incl (seen k) (seen' k)) ->
  SP (b_insdel b') (b_vins b') (b_perm b') (b_keys b') seen' pc.
Proof.
  intros HP F Hs. destruct pc; cbn [SP] in *; auto.
  - destruct F. lia.
  - apply (since_frame b b' v _ _ F HP). intros Ck Ip HC. eapply Mid_frame; eauto.
  - apply (since_frame b b' v _ _ F HP). intros Ck Ip [H1 H2].
    split; [rewrite Ck; exact H1|]. eapply Mid_frame; eauto.
  - apply (since_frame b b' v _ _ F HP). intros Ck Ip [H1 H2].
    split; [|eapply Mid_frame; eauto].
    destruct H1 as [H1|H1]; [left; exact H1|right; apply Hs; exact H1].
  - apply (since_frame b b' v _ _ F HP). intros Ck Ip HC. eapply Mid_frame; eauto.
  - destruct HP as (HC & [A0 A1] & A2). split; [|split; [split; [exact A0|eapply pairs_ok_incl; eauto]|]].
    + apply (since_frame b b' v _ _ F HC). intros Ck Ip H sl Hsl. rewrite Ck. apply H, Ip, Hsl.
    + intros k. destruct (A2 k) as [H|H]; [left; exact H|right; apply Hs; exact H].
Qed.

Definition ScI (b : bstate) (sc : scanner) : Prop :=
  (sc_pc sc <> SIdle -> sc_active sc = true) /\
  (sc_active sc = true -> forall k, In (bm b k) (sc_seen sc k)) /\
  SP (b_insdel b) (b_vins b) (b_perm b) (b_keys b) (sc_seen sc) (sc_pc sc).

Record SInv (s : sstate) : Prop := {
  SI_base : Inv (base s);
  SI_scn : forall t, ScI (base s) (scn s t)
}.

Lemma ScI_idle b : ScI b idle_scanner.
Proof.
  unfold ScI, idle_scanner. cbn [sc_pc sc_active sc_seen SP].
  split; [intros H; exfalso; apply H; reflexivity|]. split; [discriminate|exact I].
Qed.

Lemma sinv_init : SInv sinit2.
Proof. constructor; [exact inv_init|intros t; apply ScI_idle]. Qed.

Lemma opt_eqb_true a b : opt_eqb a b = true -> a = b.
Proof.
  destruct a as [x|], b as [y|]; cbn [opt_eqb]; try discriminate; [|reflexivity].
  intros H. apply N.eqb_eq in H. congruence.
Qed.

Lemma note_changes_ScI b b' sc : bframe b b' -> ScI b sc -> ScI b' (note_changes b b' sc).
Proof.
  intros F (A & B & C). unfold note_changes. destruct (sc_active sc) eqn:Ha.
  - unfold ScI. cbn [sc_pc sc_active sc_seen]. split; [reflexivity|]. split.
    + intros _ k. destruct (opt_eqb (bm b' k) (bm b k)) eqn:E.
      * apply opt_eqb_true in E. rewrite E. apply B. reflexivity.
      * cbn [In]. auto.
    + eapply SP_frame; [exact C|exact F|].
      intros k. destruct (opt_eqb (bm b' k) (bm b k)); [apply incl_refl|apply incl_tl, incl_refl].
  - unfold ScI. rewrite Ha. split; [exact A|]. split; [discriminate|].
    destruct (sc_pc sc) eqn:Hpc; try exact I; exfalso;
      (assert (Hf : false = true) by (apply A; discriminate)); discriminate Hf.
Qed.

Lemma sinv_set_scn s t sc :
  SInv s -> ScI (base s) sc -> SInv {| base := base s; scn := updf (scn s) t sc |}.
Proof.
  intros HS Hsc. constructor; cbn [base scn]; [apply (SI_base s HS)|].
  apply (updf_forall (fun _ => ScI (base s))); [intros j _; apply (SI_scn s HS)|exact Hsc].
Qed.

Lemma sinv_set_spc s t p :
  SInv s -> sc_pc (scn s t) <> SIdle ->
  SP (b_insdel (base s)) (b_vins (base s)) (b_perm (base s)) (b_keys (base s)) (sc_seen (scn s t)) p ->
  SInv (set_spc s t p).
Proof.
  intros HS Hne HP. apply sinv_set_scn; [exact HS|].
  destruct (SI_scn s HS t) as (A & B & C). unfold ScI. cbn [sc_pc sc_active sc_seen].
  split; [intros _; apply A; exact Hne|]. split; [exact B|exact HP].
Qed.

Lemma sc_facts s t :
  SInv s -> sc_pc (scn s t) <> SIdle ->
  (forall k, In (bm (base s) k) (sc_seen (scn s t) k)) /\
  SP (b_insdel (base s)) (b_vins (base s)) (b_perm (base s)) (b_keys (base s))
     (sc_seen (scn s t)) (sc_pc (scn s t)).
Proof.
  intros HS Hne. destruct (SI_scn s HS t) as (A & B & C). split; [|exact C].
  apply B. apply A. exact Hne.
Qed.

Lemma Mid_snapshot s seen :
  Inv s -> (forall k, In (bm s k) (seen k)) ->
  Mid (b_perm s) (b_keys s) seen None (b_perm s) [].
Proof.
  intros HI S0. unfold Mid, keyline. cbn [map app].
  split; [apply ksorted_map, (I_sorted s HI)|]. split; [intros k w []|].
  split; [intros sl Hsl; apply in_map; exact Hsl|].
  intros k. destruct (perm_key_dec (b_keys s) (b_perm s) k) as [(sl & Hsl & <-)|E].
  - left. apply in_map. exact Hsl.
  - right. rewrite <- (rep_absent s k HI E). apply S0.
Qed.

Lemma Mid_accept pm ks seen k w rest acc :
  Mid pm ks seen (Some k) rest acc -> w <> 0 -> In (Some w) (seen k) ->
  Mid pm ks seen None rest (acc ++ [(k, w)]).
Proof.
  unfold Mid, keyline. rewrite map_app, <- app_assoc. cbn [map fst app].
  intros (M1 & M2 & M3 & M4) Hw Hin. split; [exact M1|]. split; [|split; assumption].
  intros k' w' H. apply in_app_or in H as [H|[H|[]]]; [apply M2; exact H|]. injection H as <- <-. auto.
Qed.

Lemma SPerm_restart s t :
  SInv s -> sc_pc (scn s t) <> SIdle -> SInv (set_spc s t (SPerm (b_vins (base s)))).
Proof. intros HS Hne. apply sinv_set_spc; auto. cbn [SP]. lia. Qed.

Lemma sstep2_scan_step s t s' :
  sstep2 s (EScanStep t) = Some s' -> s' = s \/ exists p, s' = set_spc s t p.
Proof.
  cbn [sstep2]. intros H.
  repeat match type of H with
         | context [match ?x with _ => _ end] => destruct x; try discriminate H
         end;
    injection H as <-; eauto.
Qed.

(** the two conditionals of a version re-check, which [SCheck] and [SFinal]
    have from [bstep]: dirty, or clean at another version, or clean at [v] *)
Lemma recheck_cases s v :
  negb (stable s) = true \/
  negb (stable s) = false /\ b_locked s = false /\ b_insdel s = false /\
  (negb (b_vins s =? v) = true \/ negb (b_vins s =? v) = false /\ b_vins s = v).
Proof.
  destruct (stable s) eqn:St; [right|left; reflexivity]. apply stable_true in St as [L Hi].
  repeat split; auto. destruct (N.eqb_spec (b_vins s) v); cbn [negb]; auto.
Qed.

Theorem sinv_step s e s' : SInv s -> sstep2 s e = Some s' -> SInv s'.
Proof.
  intros HS. pose proof (SI_base s HS) as HI. destruct e as [be|t|t|t]; cbn [sstep2].
  - (* base *)
    destruct (bstep true (base s) be) as [b'|] eqn:E; [|discriminate].
    intros H; injection H as <-. constructor; cbn [base scn].
    + eapply inv_step; eauto.
    + intros t. apply note_changes_ScI; [eapply bstep_frame; eauto|apply (SI_scn s HS)].
  - (* invoke *)
    destruct (sc_pc (scn s t)) eqn:Hpc; try discriminate.
    intros H; injection H as <-. apply sinv_set_scn; [exact HS|].
    unfold ScI. cbn [sc_pc sc_active sc_seen SP In]. auto.
  - (* step *)
    destruct (sc_pc (scn s t)) eqn:Hpc; try discriminate;
      assert (Hne : sc_pc (scn s t) <> SIdle) by congruence;
      destruct (sc_facts s t HS Hne) as [S0 HP]; rewrite Hpc in HP; cbn [SP] in HP.
    + (* SStable0 *)
      destruct (stable (base s)); intros H; injection H as <-; [|exact HS].
      apply SPerm_restart; assumption.
    + (* SPerm *)
      intros H; injection H as <-. apply sinv_set_spc; auto. cbn [SP]. split; [exact HP|].
      intros _. apply Mid_snapshot; assumption.
    + (* SKey *)
      destruct rest as [|sl rest]; intros H; injection H as <-;
        (apply sinv_set_spc; [exact HS|exact Hne|]); cbn [SP].
      * exact HP.
      * apply (since_mono _ _ _ _ _ HP). intros _ HM. split; [reflexivity|exact HM].
    + (* SLv *)
      intros H; injection H as <-. apply sinv_set_spc; auto. cbn [SP]. apply (since_mono _ _ _ _ _ HP).
      intros Hc [Hk HM]. split; [|exact HM].
      destruct (word_of_slot (base s) sl HI (proj2 Hc)) as [E|E]; [left; exact E|right].
      rewrite <- E, Hk. apply S0.
    + (* SCheck *)
      destruct HP as [Hle HC].
      destruct (recheck_cases (base s) v) as [E|(E & L & Hi & [E2|[E2 Ev]])]; rewrite E, ?E2.
      * intros H; injection H as <-. exact HS.
      * intros H; injection H as <-. apply SPerm_restart; assumption.
      * destruct (HC (conj Ev Hi)) as [Hw HM].
        destruct (N.eqb_spec w 0) as [W|W]; intros H; injection H as <-;
          (apply sinv_set_spc; [exact HS|exact Hne|]); cbn [SP]; [exact Hle|].
        split; [exact Hle|]. intros _.
        destruct Hw as [Hw|Hw]; [contradiction|]. apply Mid_accept; assumption.
    + (* SFinal *)
      destruct HP as [Hle HC].
      destruct (recheck_cases (base s) v) as [E|(E & L & Hi & [E2|[E2 Ev]])]; rewrite E, ?E2;
        intros H; injection H as <-.
      * exact HS.
      * apply SPerm_restart; assumption.
      * destruct (HC (conj Ev Hi)) as (M1 & M2 & M3 & M4). unfold keyline in *.
        cbn [map app] in *. rewrite app_nil_r in *.
        apply sinv_set_spc; auto. cbn [SP].
        split; [split; [exact Hle|intros _; exact M3]|]. split; [split; assumption|exact M4].
  - (* return *)
    destruct (sc_pc (scn s t)) eqn:Hpc; try discriminate.
    intros H; injection H as <-. apply sinv_set_scn; [exact HS|apply ScI_idle].
Qed.

Lemma srun2_inv (P : sstate -> Prop) :
  (forall s e s', P s -> sstep2 s e = Some s' -> P s') ->
  forall tr s s', P s -> srun2 s tr = Some s' -> P s'.
Proof. apply (run_inv sstep2 srun2). intros s evs. destruct evs; reflexivity. Qed.

Theorem sinv_run tr s s' : SInv s -> srun2 s tr = Some s' -> SInv s'.
Proof. apply (srun2_inv SInv sinv_step). Qed.

Definition reach2 (s : sstate) : Prop := exists tr, srun2 sinit2 tr = Some s.

Corollary sinv_reach s : reach2 s -> SInv s.
Proof. intros [tr H]. eapply sinv_run; [exact sinv_init|exact H]. Qed.

(** ** The properties *)

Theorem scan_seen_current s t :
  reach2 s -> sc_active (scn s t) = true -> forall k, In (bm (base s) k) (sc_seen (scn s t) k).
Proof.
  intros H Ha k. destruct (SI_scn s (sinv_reach s H) t) as (_ & B & _). apply B. exact Ha.
Qed.

Theorem scan_seen_grows s e s' t k :
  sstep2 s e = Some s' -> e <> EScanInvoke t -> e <> EScanReturn t ->
  exists l, sc_seen (scn s' t) k = l ++ sc_seen (scn s t) k.
Proof.
  intros H Hinv Hret. destruct e as [be|t'|t'|t']; cbn [sstep2] in H.
  - destruct (bstep true (base s) be) as [b'|]; [|discriminate H]. injection H as <-.
    cbn [scn]. unfold note_changes. destruct (sc_active (scn s t)); [|exists []; reflexivity].
    cbn [sc_seen]. destruct (opt_eqb (bm b' k) (bm (base s) k)); [exists []|exists [bm b' k]]; reflexivity.
  - destruct (sc_pc (scn s t')); try discriminate H. injection H as <-. exists []. cbn [scn].
    rewrite updf_other; [reflexivity|]. intros ->. apply Hinv. reflexivity.
  - apply sstep2_scan_step in H as [->|[p ->]]; exists []; [reflexivity|]. cbn [set_spc scn].
    destruct (Nat.eq_dec t t') as [->|Hne]; [rewrite updf_same|rewrite updf_other by exact Hne]; reflexivity.
  - destruct (sc_pc (scn s t')); try discriminate H. injection H as <-. exists []. cbn [scn].
    rewrite updf_other; [reflexivity|]. intros ->. apply Hret. reflexivity.
Qed.

Lemma SDone_facts s t v res :
  reach2 s -> sc_pc (scn s t) = SDone v res ->
  (v <= b_vins (base s) /\
   (Cnd (b_insdel (base s)) (b_vins (base s)) v ->
    forall sl, In sl (b_perm (base s)) -> In (b_keys (base s) sl) (map fst res))) /\
  (StronglySorted N.lt (map fst res) /\ pairs_ok (sc_seen (scn s t)) res) /\
  (forall k, In k (map fst res) \/ In None (sc_seen (scn s t) k)).
Proof.
  intros H Hpc. destruct (sc_facts s t (sinv_reach s H)) as [_ HP]; [congruence|]. rewrite Hpc in HP. exact HP.
Qed.

(** (S2): a bound key is at a slot of the permutation, and while "counter = v,
    not dirty" holds the slots of the permutation are those of the snapshot *)
Theorem scan_done_covers s t v res :
  reach2 s -> sc_pc (scn s t) = SDone v res ->
  v <= b_vins (base s) /\
  forall k, bm (base s) k <> None -> ~ In k (map fst res) ->
    (b_vins (base s) <> v \/ b_insdel (base s) = true) /\
    (b_locked (base s) = false -> b_vins (base s) <> v).
Proof.
  intros H Hpc. destruct (SDone_facts s t v res H Hpc) as ([Hle HC] & _). split; [exact Hle|]. intros k Hb Hk.
  pose proof (SI_base _ (sinv_reach s H)) as HI.
  assert (Hno : ~ Cnd (b_insdel (base s)) (b_vins (base s)) v).
  { intros Hc. destruct (perm_key_dec (b_keys (base s)) (b_perm (base s)) k) as [(sl & Hsl & <-)|E].
    - apply Hk, (HC Hc), Hsl.
    - destruct (Hb (rep_absent _ k HI E)). }
  split; [apply not_Cnd, Hno|].
  intros L E. apply Hno. split; [exact E|]. apply (I_free _ HI L).
Qed.

(** (S1); a completed scan is still active, so (S0) holds of it by [scan_seen_current] *)
Theorem scan_perkey s t v res :
  reach2 s -> sc_pc (scn s t) = SDone v res ->
  let seen := sc_seen (scn s t) in
  sc_active (scn s t) = true /\
  StronglySorted N.lt (map fst res) /\
  (forall k w, In (k, w) res -> w <> 0 /\ In (Some w) (seen k)) /\
  (forall k, ~ In k (map fst res) -> In None (seen k)).
Proof.
  intros H Hpc seen. destruct (SDone_facts s t v res H Hpc) as (_ & [A1 A2] & A3).
  split; [apply (SI_scn s (sinv_reach s H) t); congruence|]. split; [exact A1|]. split; [exact A2|].
  intros k Hk. destruct (A3 k) as [Hin|Hn]; [contradiction|exact Hn].
Qed.

Lemma scan_seen_invoke s t s' k :
  sstep2 s (EScanInvoke t) = Some s' -> sc_seen (scn s' t) k = [bm (base s) k].
Proof.
  cbn [sstep2]. destruct (sc_pc (scn s t)); try discriminate. intros H; injection H as <-.
  cbn [scn]. rewrite updf_same. reflexivity.
Qed.

Theorem scan_counter_step s e s' : sstep2 s e = Some s' -> b_vins (base s) <= b_vins (base s').
Proof.
  intros H. destruct e as [be|t|t|t]; cbn [sstep2] in H.
  - destruct (bstep true (base s) be) as [b'|] eqn:E; [|discriminate H]. injection H as <-.
    cbn [base]. eapply bstep_vins_mono; eauto.
  - destruct (sc_pc (scn s t)); try discriminate H. injection H as <-. cbn [base]. lia.
  - apply sstep2_scan_step in H as [->|[p ->]]; cbn [set_spc base]; lia.
  - destruct (sc_pc (scn s t)); try discriminate H. injection H as <-. cbn [base]. lia.
Qed.

Corollary scan_counter_run tr s s' : srun2 s tr = Some s' -> b_vins (base s) <= b_vins (base s').
Proof.
  apply (srun2_inv (fun x => b_vins (base s) <= b_vins (base x))); [|apply N.le_refl].
  intros s1 e s2 H E. eapply N.le_trans; [exact H|exact (scan_counter_step s1 e s2 E)].
Qed.

(** ** A run on which the naive form of (S2) fails *)

Definition sbsteps (t n : nat) : list sev2 := repeat (EBase (BStep t)) n.
Definition ssteps (t n : nat) : list sev2 := repeat (EScanStep t) n.
Definition sput (t : nat) (k v : N) (n : nat) : list sev2 :=
  [EBase (BInvoke t (OpPut k v))] ++ sbsteps t n ++ [EBase (BReturn t)].

(** keys 5 and 9 are bound; a scan collects both and passes its final check;
    then an insert of key 2 runs up to (and including) its permutation store *)
Definition transient_trace : list sev2 :=
  sput 0 5 7 11 ++ sput 0 9 3 12 ++
  [EScanInvoke 0] ++ ssteps 0 9 ++
  [EBase (BInvoke 2 (OpPut 2 4))] ++ sbsteps 2 4 ++
  ssteps 0 1 ++
  sbsteps 2 6.
