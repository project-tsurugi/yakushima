(** * IScanPhantomProofs: the node-version set (callback log) of the cursor API and later inserts.

    Witnesses, by evaluation, of two defects (F12, F13) of the original source ([iscan_all_orig]) that the current
    source ([iscan_all]) repairs; every hypothesis a coverage theorem would have is established for them.
    Not proved: that the log of the current source covers the landing border of every later insert. *)
From Coq Require Import NArith Lia Bool List.
From Yk Require Import KeyProofs SpecDefs IScanDefs StoreProofs IScanProofs PhantomProofs.
Import ListNotations.
Local Open Scope N_scope.

(* the witness of finding F12; Properties_C10.v evaluates the finding over definitions of its own with these names and
   bodies.  The theorem below takes the argument record from here; its store, with the same one key "a", comes from
   [StoreExample.puts_preserve], which hands over the invariants with it. *)
Definition c10_f12_tree : tree :=
  match put (empty_tree 1) [97] {| v_id := 2; v_bytes := [1]; v_align := 8; v_inline := false |} false 3 with
  | Some (tr, _, _) => tr
  | None => null_tree
  end.
Definition c10_f12_args : iscan_args :=
  {| ia_l := [97;98;99;100;101;102;103;104;120]; ia_le := EP_INCL;
     ia_r := [97;98;99;100;101;102;103;104;122]; ia_re := EP_INCL; ia_rtl := false; ia_lnull := false; ia_rnull := false |}.

Definition mka (l : key) le (r : key) re rtl : iscan_args :=
  {| ia_l := l; ia_le := le; ia_r := r; ia_re := re; ia_rtl := rtl; ia_lnull := false; ia_rnull := false |}.

Definition inside (a : iscan_args) (k : key) : bool :=
  in_left (match ia_le a with EP_INF => [] | _ => ia_l a end) (ia_le a) k && in_right (ia_r a) (ia_re a) k.

Definition recorded (cbs : list (N * N)) (lm : leaf) : bool :=
  existsb (fun iv => (fst iv =? lf_id lm) && (snd iv =? lf_ver lm)) cbs.

Lemma recorded_In cbs lm : recorded cbs lm = true <-> In (lf_id lm, lf_ver lm) cbs.
Proof.
  unfold recorded. rewrite existsb_exists. split.
  - intros ([i v] & Hin & H). cbn [fst snd] in H. apply andb_true_iff in H. destruct H as [H1 H2].
    apply N.eqb_eq in H1, H2. subst. exact Hin.
  - intros H. exists (lf_id lm, lf_ver lm). split; [exact H|]. cbn [fst snd]. rewrite !N.eqb_refl. reflexivity.
Qed.

(** *** F12: the original source ([iscan_all_orig]) records nothing for ["abcdefghx", "abcdefghz"] *)
Definition f12_key : key := [97;98;99;100;101;102;103;104;121].

Theorem iscan_orig_misses_insert :
  exists ctr tr a st kvs k lm v tr' po ctr',
    WF_store ctr tr /\ iscan_inv tr /\ t_null tr = false /\
    bytes (ia_l a) /\ bytes (ia_r a) /\ bytes k /\ iscan_validate a = None /\
    iscan_all_orig tr a = Some (st, kvs, []) /\
    smap_get (abs_tree tr) k = None /\ inside a k = true /\
    land (path_of_key k) [] (t_layers tr) = Some lm /\
    put tr k v false ctr = Some (tr', po, ctr') /\
    exists cbs, iscan_all tr a = Some (st, kvs, cbs) /\ In (lf_id lm, lf_ver lm) cbs /\
                store_leaf_ver tr' (lf_id lm) <> Some (lf_ver lm).
Proof.
  destruct (StoreExample.puts_preserve iscan_inv put_iscan_inv [[97]] (empty_tree 1) 2) as (tr & c & E & W & Hi).
  - apply empty_tree_wf. lia.
  - apply iscan_inv_empty.
  - apply keys_bytes. reflexivity.
  - vm_compute in E. injection E as <- <-.
    exists 3. eexists. exists c10_f12_args. eexists. eexists. exists f12_key. eexists. exists (StoreExample.val 0).
    eexists. eexists. eexists.
    split; [exact W|]. split; [exact Hi|]. split; [reflexivity|].
    split; [apply bytesb_sound; vm_compute; reflexivity|].
    split; [apply bytesb_sound; vm_compute; reflexivity|].
    split; [apply bytesb_sound; vm_compute; reflexivity|].
    split; [vm_compute; reflexivity|]. split; [vm_compute; reflexivity|].
    split; [vm_compute; reflexivity|]. split; [vm_compute; reflexivity|].
    split; [vm_compute; reflexivity|]. split; [vm_compute; reflexivity|].
    eexists. split; [vm_compute; reflexivity|]. split; [left; reflexivity|]. vm_compute. discriminate.
Qed.

(** *** F13, for the original source [iscan_all_orig]: left to right, in a layer
    entered by [ifindfirst] with compare_to_end <> 0 (cmp0 = false) the end tuple of [ifindnext] is the sentinel
    max() = (ff^8, 9); a start key whose slice in that layer is ff^8 (with more bytes behind it) has exactly that
    tuple, so with an inclusive end point [no_cb_at_end] held although the end is not in this layer at all, and
    [ifindfirst]'s repair clause [same_tuple] requires cmp0.  The border of that layer was never reported.
    Store: one key "aaaaaaaab".  Interval ["aaaaaaaa" ff^8 "x", "b"], both inclusive.  Insert "aaaaaaaa" ff^8 "y":
    it lands in the border of layer 1 (id 4); the original cursor reported only the border of layer 0 (id 1), which the
    insert does not touch: the phantom is not detected.  The current source asks for cmp0 before it takes the
    callback range for empty ([fix5] in [ifindnext]); [iscan_ff_slice_repaired] evaluates both. *)
Definition a8 : key := [97;97;97;97;97;97;97;97].
Definition ff8 : key := [255;255;255;255;255;255;255;255].
Definition ff_args : iscan_args := mka (a8 ++ ff8 ++ [120]) EP_INCL [98] EP_INCL false.
Definition ff_key : key := a8 ++ ff8 ++ [121].

Theorem iscan_records_landing_refuted :
  exists ctr tr st kvs cbs lm v tr' po ctr',
    WF_store ctr tr /\ iscan_inv tr /\ t_null tr = false /\
    bytes (ia_l ff_args) /\ bytes (ia_r ff_args) /\ bytes ff_key /\ iscan_validate ff_args = None /\
    iscan_all_orig tr ff_args = Some (st, kvs, cbs) /\
    smap_get (abs_tree tr) ff_key = None /\ inside ff_args ff_key = true /\
    land (path_of_key ff_key) [] (t_layers tr) = Some lm /\
    ~ In (lf_id lm, lf_ver lm) cbs /\
    put tr ff_key v false ctr = Some (tr', po, ctr') /\
    ~ (exists id ver, In (id, ver) cbs /\ store_leaf_ver tr' id <> Some ver).
Proof.
  destruct (StoreExample.puts_preserve iscan_inv put_iscan_inv [a8 ++ [98]] (empty_tree 1) 2) as (tr & c & E & W & Hi).
  - apply empty_tree_wf. lia.
  - apply iscan_inv_empty.
  - apply keys_bytes. reflexivity.
  - vm_compute in E. injection E as <- <-.
    eexists. eexists. eexists. eexists. eexists. eexists. exists (StoreExample.val 0). eexists. eexists. eexists.
    split; [exact W|]. split; [exact Hi|]. split; [reflexivity|].
    split; [apply bytesb_sound; vm_compute; reflexivity|].
    split; [apply bytesb_sound; vm_compute; reflexivity|].
    split; [apply bytesb_sound; vm_compute; reflexivity|].
    split; [vm_compute; reflexivity|]. split; [vm_compute; reflexivity|].
    split; [vm_compute; reflexivity|]. split; [vm_compute; reflexivity|].
    split; [vm_compute; reflexivity|].
    split. { cbn [lf_id lf_ver]. intros [H|[]]. discriminate H. }
    split; [vm_compute; reflexivity|].
    intros (id & ver & [H|[]] & Hne). injection H as <- <-. apply Hne. vm_compute. reflexivity.
Qed.

Definition ff_landing_reported (orig : bool) : option bool :=
  match put (empty_tree 1) (a8 ++ [98]) (StoreExample.val 0) false 2 with
  | Some (tr, _, _) =>
      match (if orig then iscan_all_orig tr ff_args else iscan_all tr ff_args), land (path_of_key ff_key) [] (t_layers tr) with
      | Some (_, _, cbs), Some lm => Some (existsb (fun p => N.eqb (fst p) (lf_id lm) && N.eqb (snd p) (lf_ver lm)) cbs)
      | _, _ => None
      end
  | None => None
  end.
Example iscan_ff_slice_repaired : ff_landing_reported true = Some false /\ ff_landing_reported false = Some true.
Proof. split; vm_compute; reflexivity. Qed.

Print Assumptions iscan_orig_misses_insert.
Print Assumptions iscan_records_landing_refuted.
Print Assumptions iscan_ff_slice_repaired.
