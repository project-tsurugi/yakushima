(** * C17 -- the node version word.  On the word: unlock installs exactly the
    specified word, setters/counters touch only their own field, counters wrap
    inside their 29 bits, the eight fields determine the word, one lock
    attempt.  In the locking protocol of the border model: mutual exclusion,
    and what an unchanged insert counter tells a reader.  On real runs: what
    the trace monitor accepts.  Property theorems only. *)
From Coq Require Import NArith.
From Yk Require Import BorderDefs BorderProofs VersionProtoProofs.
From Yk Require Import Word64 VersionDefs VersionProofs.
Local Open Scope N_scope.

(** the word [unlock] installs: the three transient flags are cleared, each
    counter is bumped (mod 2^29) iff its dirty flag was set, nothing else moves *)
Theorem C17_unlock_exact : forall w, w < w64 ->
  let f := decode_version w in
  let g := decode_version (unlock w) in
  f_locked g = false /\ f_insdel g = false /\ f_splitting g = false /\
  f_vins g = (if f_insdel f then (f_vins f + 1) mod 2 ^ 29 else f_vins f) /\
  f_vsplit g = (if f_splitting f then (f_vsplit f + 1) mod 2 ^ 29 else f_vsplit f) /\
  f_deleted g = f_deleted f /\ f_root g = f_root f /\ f_border g = f_border f /\
  unlock w < w64.
Proof.
  intros w Hw. cbv zeta. unfold decode_version.
  cbn [f_vins f_locked f_insdel f_splitting f_vsplit f_deleted f_root f_border].
  destruct (unlock_getters w) as (H1 & H2 & H3 & H4 & H5 & H6 & H7 & H8).
  repeat split; try assumption. apply unlock_lt; exact Hw.
Qed.
Print Assumptions C17_unlock_exact.

(** every flag setter: reading back gives the written value, every other
    field (five flags, two counters) is unchanged, the result is a 64-bit word *)
Theorem C17_setters_frame : forall w b, w < w64 ->
  (decode_version (set_locked w b) =
     {| f_vins := get_vinsert_delete w; f_locked := b;
        f_insdel := get_inserting_deleting w; f_splitting := get_splitting w;
        f_vsplit := get_vsplit w; f_deleted := get_deleted w; f_root := get_root w;
        f_border := get_border w |} /\ set_locked w b < w64) /\
  (decode_version (set_inserting_deleting w b) =
     {| f_vins := get_vinsert_delete w; f_locked := get_locked w;
        f_insdel := b; f_splitting := get_splitting w;
        f_vsplit := get_vsplit w; f_deleted := get_deleted w; f_root := get_root w;
        f_border := get_border w |} /\ set_inserting_deleting w b < w64) /\
  (decode_version (set_splitting w b) =
     {| f_vins := get_vinsert_delete w; f_locked := get_locked w;
        f_insdel := get_inserting_deleting w; f_splitting := b;
        f_vsplit := get_vsplit w; f_deleted := get_deleted w; f_root := get_root w;
        f_border := get_border w |} /\ set_splitting w b < w64) /\
  (decode_version (set_deleted w b) =
     {| f_vins := get_vinsert_delete w; f_locked := get_locked w;
        f_insdel := get_inserting_deleting w; f_splitting := get_splitting w;
        f_vsplit := get_vsplit w; f_deleted := b; f_root := get_root w;
        f_border := get_border w |} /\ set_deleted w b < w64) /\
  (decode_version (set_root w b) =
     {| f_vins := get_vinsert_delete w; f_locked := get_locked w;
        f_insdel := get_inserting_deleting w; f_splitting := get_splitting w;
        f_vsplit := get_vsplit w; f_deleted := get_deleted w; f_root := b;
        f_border := get_border w |} /\ set_root w b < w64) /\
  (decode_version (set_border w b) =
     {| f_vins := get_vinsert_delete w; f_locked := get_locked w;
        f_insdel := get_inserting_deleting w; f_splitting := get_splitting w;
        f_vsplit := get_vsplit w; f_deleted := get_deleted w; f_root := get_root w;
        f_border := b |} /\ set_border w b < w64).
Proof.
  intros w b Hw.
  repeat apply conj; try (apply set_bit_lt64; [exact Hw|vside]); unfold decode_version; f_equal; vframe.
Qed.
Print Assumptions C17_setters_frame.

(** [++vinsert_delete] / [++vsplit] wrap inside their own 29 bits and touch
    no other field (in particular no carry into [locked] / [deleted]) *)
Theorem C17_counters_wrap : forall w, w < w64 ->
  (decode_version (inc_vinsert_delete w) =
     {| f_vins := (get_vinsert_delete w + 1) mod 2 ^ 29; f_locked := get_locked w;
        f_insdel := get_inserting_deleting w; f_splitting := get_splitting w;
        f_vsplit := get_vsplit w; f_deleted := get_deleted w; f_root := get_root w;
        f_border := get_border w |} /\ inc_vinsert_delete w < w64) /\
  (decode_version (inc_vsplit w) =
     {| f_vins := get_vinsert_delete w; f_locked := get_locked w;
        f_insdel := get_inserting_deleting w; f_splitting := get_splitting w;
        f_vsplit := (get_vsplit w + 1) mod 2 ^ 29; f_deleted := get_deleted w;
        f_root := get_root w; f_border := get_border w |} /\ inc_vsplit w < w64) /\
  get_vinsert_delete w < 2 ^ 29 /\ get_vsplit w < 2 ^ 29.
Proof.
  intros w Hw.
  repeat apply conj; try apply field_lt; try (apply set_field_lt64; [exact Hw|vside]);
    unfold decode_version; f_equal; vframe.
Qed.
Print Assumptions C17_counters_wrap.

(** reasoning by fields is complete: the eight fields determine a 64-bit word *)
Theorem C17_decode_injective : forall w w',
  w < w64 -> w' < w64 -> decode_version w = decode_version w' -> w = w'.
Proof. exact decode_version_inj. Qed.
Print Assumptions C17_decode_injective.

(** get_stable_version returns exactly the words with the three transient flags clear *)
Theorem C17_stable_clean : forall w,
  is_stable w = true <->
  get_locked w = false /\ get_inserting_deleting w = false /\ get_splitting w = false.
Proof. exact stable_clean. Qed.
Print Assumptions C17_stable_clean.

(** one lock attempt: succeeds iff the observed word is unlocked, and then
    sets only the lock bit *)
Theorem C17_try_lock : forall w, w < w64 ->
  (forall w', try_lock w = Some w' ->
     get_locked w = false /\ get_locked w' = true /\
     get_vinsert_delete w' = get_vinsert_delete w /\
     get_inserting_deleting w' = get_inserting_deleting w /\
     get_splitting w' = get_splitting w /\
     get_vsplit w' = get_vsplit w /\
     get_deleted w' = get_deleted w /\
     get_root w' = get_root w /\
     get_border w' = get_border w /\
     w' < w64) /\
  (try_lock w = None <-> get_locked w = true).
Proof.
  intros w Hw. split; [|apply try_lock_none].
  intros w' [Hl ->]%try_lock_some. split; [exact Hl|].
  repeat split; try vframe. apply set_bit_lt64; [exact Hw|vside].
Qed.
Print Assumptions C17_try_lock.

(** unlocking a locked word always changes it; a dirty flag always moves its counter *)
Theorem C17_unlock_changes : forall w, w < w64 ->
  (get_locked w = true -> unlock w <> w) /\
  (get_inserting_deleting w = true ->
     get_vinsert_delete (unlock w) <> get_vinsert_delete w /\ unlock w <> w) /\
  (get_splitting w = true ->
     get_vsplit (unlock w) <> get_vsplit w /\ unlock w <> w).
Proof.
  intros w _. split; [apply unlock_changes_word|].
  split; intros H; [apply unlock_moves_vinsert_delete in H|apply unlock_moves_vsplit in H];
    (split; [exact H|]); intros E; apply H; rewrite E; reflexivity.
Qed.
Print Assumptions C17_unlock_changes.

(** a freshly initialised version word has every field zero / false *)
Theorem C17_init :
  decode_version version_init =
  {| f_vins := 0; f_locked := false; f_insdel := false; f_splitting := false;
     f_vsplit := 0; f_deleted := false; f_root := false; f_border := false |}.
Proof. exact version_init_decode. Qed.
Print Assumptions C17_init.

(** non-vacuity: vinsert_delete at its maximum with both dirty flags set:
    unlock wraps vinsert_delete to 0 with no carry into [locked], bumps vsplit
    1 -> 2, keeps deleted/root/border.  [wl] is the same word with the lock
    held (the precondition of [unlock] in the code). *)
Example C17_nonvacuous :
  let w := 0xE0000001DFFFFFFF in
  let wl := 0xE0000001FFFFFFFF in
  w < w64 /\
  decode_version w =
    {| f_vins := 536870911; f_locked := false; f_insdel := true; f_splitting := true;
       f_vsplit := 1; f_deleted := true; f_root := true; f_border := true |} /\
  536870911 = 2 ^ 29 - 1 /\
  decode_version (unlock w) =
    {| f_vins := 0; f_locked := false; f_insdel := false; f_splitting := false;
       f_vsplit := 2; f_deleted := true; f_root := true; f_border := true |} /\
  unlock w = 0xE000000200000000 /\
  is_stable w = false /\ is_stable (unlock w) = true /\
  try_lock w = Some wl /\ try_lock wl = None /\
  get_locked wl = true /\ unlock wl = unlock w /\ unlock wl <> wl.
Proof.
  cbv zeta. repeat split; try (vm_compute; reflexivity).
  vm_compute. discriminate.
Qed.
Print Assumptions C17_nonvacuous.

(** ** The version word inside the locking protocol (border model, all interleavings) *)

(** lock is mutually exclusive: the lock bit is set iff exactly one thread is inside a critical section *)
Theorem C17_mutex : forall tr s,
  brun true binit tr = Some s ->
  (b_locked s = true <->
   exists t, in_cs (t_pc (b_thr s t)) = true /\
             forall t', in_cs (t_pc (b_thr s t')) = true -> t' = t).
Proof. intros tr s H. exact (inv_mutex s (inv_reachable tr s H)). Qed.
Print Assumptions C17_mutex.

(** if the insert counter of the border is the same before and after a run, no insert completed in
    that run: the counter is bumped by exactly the unlock of an insert and never decreases.  This is
    what two equal stable versions read at different times tell a reader (counter unbounded in the
    protocol model: fewer than 2^29 inserts between the two reads) *)
Theorem C17_equal_stable_no_completed_insert : forall fixed tr s s',
  brun fixed s tr = Some s' -> b_vins s' = b_vins s -> completes_in_run fixed s tr = false.
Proof. exact equal_counter_no_completed_insert. Qed.
Print Assumptions C17_equal_stable_no_completed_insert.

(** ** The trace monitor run on the version-word writes recorded on real runs: which writes to a published version word it accepts *)

(** an accepted lock CAS takes a free lock; among the other accepted writes the only one that releases a
    held lock is [unlock] applied to the word current at that instant, and none takes the lock *)
Theorem C17_monitor_sound : forall cur nw,
  (ver_write_ok cur nw true = true -> get_locked cur = false /\ nw = set_locked cur true /\ get_locked nw = true) /\
  (ver_write_ok cur nw false = true -> get_locked cur = true -> get_locked nw = false -> nw = unlock cur) /\
  (ver_write_ok cur nw false = true -> get_locked cur = false -> get_locked nw = false).
Proof.
  intros cur nw. split; [exact (monitor_lock cur nw) | split; [exact (monitor_release cur nw) | exact (monitor_no_steal cur nw)]].
Qed.
Print Assumptions C17_monitor_sound.
