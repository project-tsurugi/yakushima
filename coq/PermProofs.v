(** The permutation word of a border node: each operation of PermDefs.v is
    characterised nibble by nibble, then on the list [perm_list] it encodes;
    [Valid] words are closed under the operations, the shifts stay below 64, and
    the extracted check [perm_validb] implies [Valid]. *)
From Coq Require Import NArith PeanoNat Lia Bool List FinFun Permutation.
From Yk Require Import ListAux Word64 Nibble PermDefs.
Local Open Scope N_scope.

Lemma get_cnk_nib w : get_cnk w = nib w 0.
Proof. unfold get_cnk, nib, cnk_mask. rewrite N.mul_0_r, N.shiftr_0_r. reflexivity. Qed.

Lemma get_cnk_lt16 w : get_cnk w < 16.
Proof. rewrite get_cnk_nib. apply nib_lt16. Qed.

Lemma get_index_of_rank_nib w r : get_index_of_rank w r = nib w (r + 1).
Proof.
  unfold get_index_of_rank, nib, cnk_mask, pkey_bit_size, shr.
  destruct (N.eqb_spec r 0) as [->|Hr].
  - reflexivity.
  - rewrite N.shiftr_shiftr. f_equal. f_equal. lia.
Qed.

(** ** [set_cnk]: replace nibble 0, keep nibbles 1..15, drop everything above *)

Lemma testbit_set_cnk w c n :
  c < 16 -> N.testbit (set_cnk w c) n = if n <? 4 then N.testbit c n else N.testbit w n && (n <? 64).
Proof.
  intros Hc. unfold set_cnk, cnk_mask.
  rewrite N.lor_spec, N.land_spec, testbit_not64, testbit_15.
  destruct (N.ltb_spec n 4).
  - cbn [negb andb]. rewrite andb_false_r. reflexivity.
  - rewrite (testbit_small c 4) by (assumption || lia). cbn [negb andb]. apply orb_false_r.
Qed.

Lemma get_cnk_set_cnk w c : c < 16 -> get_cnk (set_cnk w c) = c.
Proof.
  intros Hc. rewrite get_cnk_nib. apply N.bits_inj. intros n.
  rewrite testbit_nib, N.mul_0_r, N.add_0_r, testbit_set_cnk by exact Hc.
  destruct (N.ltb_spec n 4); [apply andb_true_r|].
  rewrite andb_false_r, (testbit_small c 4) by (assumption || lia). reflexivity.
Qed.

Lemma nib_set_cnk w c j : c < 16 -> 1 <= j -> j < 16 -> nib (set_cnk w c) j = nib w j.
Proof.
  intros Hc H1 H16. apply N.bits_inj. intros n. rewrite !testbit_nib, testbit_set_cnk by exact Hc.
  destruct (N.ltb_spec n 4); [|rewrite !andb_false_r; reflexivity].
  destruct (N.ltb_spec (n + 4 * j) 4); [lia|].
  destruct (N.ltb_spec (n + 4 * j) 64); [|lia]. rewrite andb_true_r. reflexivity.
Qed.

Lemma set_cnk_lt w c : c < 16 -> set_cnk w c < w64.
Proof.
  intros Hc. change w64 with (2 ^ 64). apply lt_pow2_bits. intros n Hn.
  rewrite testbit_set_cnk by exact Hc.
  destruct (N.ltb_spec n 4); [lia|]. destruct (N.ltb_spec n 64); [lia|]. apply andb_false_r.
Qed.

Lemma nib_keep_low w k j :
  nib (shr (shl w (4 * k)) (4 * k)) j = if j + k <? 16 then nib w j else 0.
Proof.
  rewrite nib_shr. destruct (N.ltb_spec (j + k) 16).
  - rewrite nib_shl_high by lia. f_equal. lia.
  - apply nib_high; [apply shl_lt64|assumption].
Qed.

(** the low part both updates keep (the source special-cases rank 0) *)
Lemma nib_low_part w r j : r <= 15 -> 1 <= j ->
  nib (if r =? 0 then 0 else shr (shl w (4 * (15 - r))) (4 * (15 - r))) j =
  if j <? r + 1 then nib w j else 0.
Proof.
  intros Hr Hj. destruct (N.eqb_spec r 0) as [->|Hr0].
  - rewrite nib_0. destruct (N.ltb_spec j (0 + 1)); [lia|reflexivity].
  - rewrite nib_keep_low.
    destruct (N.ltb_spec (j + (15 - r)) 16); destruct (N.ltb_spec j (r + 1)); try lia; reflexivity.
Qed.

(** ** insert_rank *)

(** the C++ expression with the wrapping arithmetic on the count resolved *)
Lemma insert_rank_eq w r p : get_cnk w < 15 ->
  insert_rank w r p =
  set_cnk (N.lor (N.lor (if r =? get_cnk w then 0 else shl (shr w (4 * (r + 1))) (4 * (r + 2)))
                        (shl p (4 * (r + 1))))
                 (if r =? 0 then 0 else shr (shl w (4 * (15 - r))) (4 * (15 - r))))
          (get_cnk w + 1).
Proof.
  intros Hc. unfold insert_rank, set_cnk, pkey_bit_size, key_slice_length.
  rewrite add64_small, sub64_small by (unfold w64; lia).
  replace (get_cnk w + 1 - 1) with (get_cnk w) by lia. reflexivity.
Qed.

Lemma insert_rank_lt w r p : get_cnk w < 15 -> insert_rank w r p < w64.
Proof. intros Hc. rewrite insert_rank_eq by exact Hc. apply set_cnk_lt. lia. Qed.

Lemma insert_rank_cnk w r p : get_cnk w < 15 -> get_cnk (insert_rank w r p) = get_cnk w + 1.
Proof. intros Hc. rewrite insert_rank_eq by exact Hc. apply get_cnk_set_cnk. lia. Qed.

Lemma insert_rank_nib w r p j :
  get_cnk w < 15 -> r <= get_cnk w -> p < 16 -> 1 <= j -> j < 16 ->
  nib (insert_rank w r p) j =
    if j <? r + 1 then nib w j
    else if j =? r + 1 then p
    else if r =? get_cnk w then 0 else nib w (j - 1).
Proof.
  intros Hc Hr Hp Hj1 Hj.
  rewrite insert_rank_eq, nib_set_cnk, !nib_lor, nib_low_part by lia.
  assert (nib (if r =? get_cnk w then 0 else shl (shr w (4 * (r + 1))) (4 * (r + 2))) j =
          if j <? r + 2 then 0 else if r =? get_cnk w then 0 else nib w (j - 1)) as ->.
  { destruct (r =? get_cnk w); [rewrite nib_0; destruct (j <? r + 2); reflexivity|].
    destruct (N.ltb_spec j (r + 2)); [apply nib_shl_low; assumption|].
    rewrite nib_shl_high, nib_shr by assumption. f_equal. lia. }
  rewrite nib_shl_small by assumption.
  destruct (N.ltb_spec j (r + 1)); destruct (N.eqb_spec j (r + 1)); destruct (N.ltb_spec j (r + 2));
    try lia; rewrite ?N.lor_0_l, ?N.lor_0_r; reflexivity.
Qed.

(** ** delete_rank *)

Lemma delete_rank_eq w r : 1 <= get_cnk w ->
  delete_rank w r =
  set_cnk (N.lor (if (r =? get_cnk w - 1) || (r =? 14) then 0
                  else shl (shr w (4 * (r + 2))) (4 * (r + 1)))
                 (if r =? 0 then 0 else shr (shl w (4 * (15 - r))) (4 * (15 - r))))
          (get_cnk w - 1).
Proof.
  intros Hc. pose proof (get_cnk_lt16 w).
  unfold delete_rank, set_cnk, pkey_bit_size, key_slice_length.
  rewrite sub64_small by (unfold w64; lia). reflexivity.
Qed.

Lemma delete_rank_cnk w r : 1 <= get_cnk w -> get_cnk (delete_rank w r) = get_cnk w - 1.
Proof.
  intros Hc. pose proof (get_cnk_lt16 w).
  rewrite delete_rank_eq by exact Hc. apply get_cnk_set_cnk. lia.
Qed.

Lemma delete_rank_lt w r : 1 <= get_cnk w -> delete_rank w r < w64.
Proof.
  intros Hc. pose proof (get_cnk_lt16 w).
  rewrite delete_rank_eq by exact Hc. apply set_cnk_lt. lia.
Qed.

(** above the new count the word keeps junk from the old word unless [r] was
    the last rank; the right-hand side describes the junk too *)
Lemma delete_rank_nib w r j :
  w < w64 -> 1 <= get_cnk w -> r < get_cnk w -> 1 <= j -> j < 16 ->
  nib (delete_rank w r) j =
    if j <? r + 1 then nib w j
    else if (r =? get_cnk w - 1) || (r =? 14) then 0
    else if j =? 15 then 0 else nib w (j + 1).
Proof.
  intros Hw Hc Hr Hj1 Hj. pose proof (get_cnk_lt16 w).
  rewrite delete_rank_eq, nib_set_cnk, nib_lor, nib_low_part by lia.
  destruct (N.ltb_spec j (r + 1)) as [H1|H1].
  - destruct ((r =? get_cnk w - 1) || (r =? 14));
      [rewrite nib_0|rewrite nib_shl_low by exact H1]; apply N.lor_0_l.
  - rewrite N.lor_0_r. destruct ((r =? get_cnk w - 1) || (r =? 14)); [apply nib_0|].
    rewrite nib_shl_high, nib_shr by assumption.
    replace (j - (r + 1) + (r + 2)) with (j + 1) by lia.
    destruct (N.eqb_spec j 15) as [->|]; [apply nib_high; [exact Hw|lia]|reflexivity].
Qed.

(** ** List-level reading *)

Lemma perm_list_length w : length (perm_list w) = N.to_nat (get_cnk w).
Proof. unfold perm_list. rewrite map_length, seq_length. reflexivity. Qed.

Lemma perm_list_nth w i d :
  (i < N.to_nat (get_cnk w))%nat -> nth i (perm_list w) d = nib w (N.of_nat i + 1).
Proof. apply (nth_map_seq (fun i => nib w (N.of_nat i + 1)) 0). Qed.

Theorem insert_rank_list w r p :
  get_cnk w < 15 -> r <= get_cnk w -> p < 16 ->
  perm_list (insert_rank w r p) = insert_at (N.to_nat r) p (perm_list w).
Proof.
  intros Hc Hr Hp.
  apply (nth_ext _ _ 0 0).
  - rewrite insert_at_length by (rewrite perm_list_length; lia).
    rewrite !perm_list_length, insert_rank_cnk by exact Hc. lia.
  - intros i Hi. rewrite perm_list_length, insert_rank_cnk in Hi by exact Hc.
    rewrite perm_list_nth by (rewrite insert_rank_cnk by exact Hc; exact Hi).
    rewrite nth_insert_at by (rewrite perm_list_length; lia).
    rewrite insert_rank_nib by lia.
    destruct (N.ltb_spec (N.of_nat i + 1) (r + 1)); destruct (Nat.ltb_spec i (N.to_nat r)); try lia.
    + rewrite perm_list_nth by lia. reflexivity.
    + destruct (N.eqb_spec (N.of_nat i + 1) (r + 1)); destruct (Nat.eqb_spec i (N.to_nat r)); try lia.
      destruct (N.eqb_spec r (get_cnk w)); [lia|].
      rewrite perm_list_nth by lia. f_equal. lia.
Qed.

Theorem delete_rank_list w r :
  w < w64 -> r < get_cnk w ->
  perm_list (delete_rank w r) = remove_at (N.to_nat r) (perm_list w).
Proof.
  intros Hw Hr.
  pose proof (get_cnk_lt16 w) as Hlt.
  assert (1 <= get_cnk w) as Hc by lia.
  apply (nth_ext _ _ 0 0).
  - rewrite remove_at_length by (rewrite perm_list_length; lia).
    rewrite !perm_list_length, delete_rank_cnk by exact Hc. lia.
  - intros i Hi. rewrite perm_list_length, delete_rank_cnk in Hi by exact Hc.
    rewrite perm_list_nth by (rewrite delete_rank_cnk by exact Hc; exact Hi).
    rewrite nth_remove_at by (rewrite perm_list_length; lia).
    rewrite delete_rank_nib by lia.
    destruct (N.ltb_spec (N.of_nat i + 1) (r + 1)); destruct (Nat.ltb_spec i (N.to_nat r)); try lia.
    + rewrite perm_list_nth by lia. reflexivity.
    + destruct (N.eqb_spec r (get_cnk w - 1)); [lia|].
      destruct (N.eqb_spec r 14); [lia|]. cbn [orb].
      destruct (N.eqb_spec (N.of_nat i + 1) 15); [lia|].
      rewrite perm_list_nth by lia. f_equal. lia.
Qed.

(** ** get_empty_slot *)

Lemma used_slots_spec per k :
  used_slots per k = map (fun i => nib per (N.of_nat i + 1)) (seq 0 k).
Proof.
  revert per. induction k as [|k IH]; intros per; [reflexivity|].
  cbn [used_slots]. rewrite IH. cbn [seq map].
  replace (N.land (shr per 4) cnk_mask) with (nib per (N.of_nat 0 + 1)) by reflexivity.
  f_equal.
  rewrite <- seq_shift, map_map.
  apply map_ext. intros i. rewrite (nib_shr per 1). f_equal. lia.
Qed.

Lemma first_free_spec used fuel : forall i,
  match first_free used i fuel with
  | Some j => ~ In j used /\ i <= j < i + N.of_nat fuel /\ (forall k, i <= k -> k < j -> In k used)
  | None => forall k, i <= k -> k < i + N.of_nat fuel -> In k used
  end.
Proof.
  induction fuel as [|f IH]; intros i; cbn [first_free]; [intros k; lia|].
  destruct (existsb (N.eqb i) used) eqn:E.
  - apply existsb_eqb_In in E. specialize (IH (i + 1)).
    destruct (first_free used (i + 1) f) as [j|].
    + destruct IH as (Hn & Hr & Hall). repeat split; try lia; [exact Hn|].
      intros k Hk1 Hk2. destruct (N.eq_dec k i) as [->|Hne]; [exact E|apply Hall; lia].
    + intros k Hk1 Hk2. destruct (N.eq_dec k i) as [->|Hne]; [exact E|apply IH; lia].
  - repeat split; try lia. intros Hin. apply existsb_eqb_In in Hin. congruence.
Qed.

Lemma NoDup_map_of_nat_seq n : NoDup (map N.of_nat (seq 0 n)).
Proof. apply Injective_map_NoDup; [|apply seq_NoDup]. intros a b. apply Nnat.Nat2N.inj. Qed.

Lemma below_pigeon n (l : list N) :
  (forall k, k < N.of_nat n -> In k l) -> (n <= length l)%nat.
Proof.
  intros H.
  rewrite <- (seq_length n 0), <- (map_length N.of_nat).
  apply NoDup_incl_length; [apply NoDup_map_of_nat_seq|].
  intros x Hx. apply in_map_iff in Hx. destruct Hx as [m [<- Hm]].
  apply in_seq in Hm. apply H. lia.
Qed.

Theorem get_empty_slot_free w :
  get_cnk w < 15 ->
  ~ In (get_empty_slot w) (perm_list w) /\ get_empty_slot w < 15 /\
  (forall k, k < get_empty_slot w -> In k (perm_list w)).
Proof.
  intros Hc. unfold get_empty_slot.
  destruct (N.eqb_spec (get_cnk w) 0) as [E0|E0].
  - assert (perm_list w = []) as ->.
    { unfold perm_list. rewrite E0. reflexivity. }
    repeat split; try lia. intros [].
  - rewrite used_slots_spec. fold (perm_list w).
    pose proof (first_free_spec (perm_list w) 15 0) as H.
    destruct (first_free (perm_list w) 0 15) as [j|].
    + destruct H as (Hn & Hr & Hall).
      repeat split; [exact Hn|cbn in Hr; lia|]. intros k Hk. apply Hall; lia.
    + exfalso. assert (15 <= length (perm_list w))%nat as Hlen.
      { apply below_pigeon. intros k Hk. apply H; [lia|exact Hk]. }
      rewrite perm_list_length in Hlen. lia.
Qed.

(** ** split_dest *)

Lemma split_dest_loop_nib i k body j :
  i + N.of_nat k <= 15 -> j < 16 ->
  nib (split_dest_loop i k body) j =
    if (i + 1 <=? j) && (j <? i + 1 + N.of_nat k) then N.lor (nib body j) (j - 1) else nib body j.
Proof.
  revert i body. induction k as [|k IH]; intros i body Hik Hj; cbn [split_dest_loop].
  - destruct (N.leb_spec (i + 1) j); destruct (N.ltb_spec j (i + 1 + N.of_nat 0)); try lia; reflexivity.
  - unfold pkey_bit_size. rewrite IH, nib_lor, nib_shl_small by lia.
    destruct (N.eqb_spec j (i + 1)) as [->|Hne].
    + (* the nibble this step writes: outside the later steps' range *)
      destruct (N.leb_spec (i + 1 + 1) (i + 1)); [lia|].
      destruct (N.leb_spec (i + 1) (i + 1)); [|lia].
      destruct (N.ltb_spec (i + 1) (i + 1 + N.of_nat (S k))); [|lia].
      cbn [andb]. f_equal. lia.
    + rewrite N.lor_0_r.
      destruct (N.leb_spec (i + 1 + 1) j); destruct (N.leb_spec (i + 1) j); try lia;
        destruct (N.ltb_spec j (i + 1 + 1 + N.of_nat k));
        destruct (N.ltb_spec j (i + 1 + N.of_nat (S k))); try lia; reflexivity.
Qed.

Theorem split_dest_nib num j :
  1 <= num -> num <= 15 -> j < 16 ->
  nib (split_dest num) j = if j =? 0 then num else if j <=? num then j - 1 else 0.
Proof.
  intros H1 Hn Hj. unfold split_dest.
  rewrite nib_lor, split_dest_loop_nib, nib_0, N.lor_0_l by lia.
  destruct (N.eqb_spec j 0) as [->|Hj0].
  - rewrite nib_small by lia. reflexivity.
  - rewrite nib_small_high, N.lor_0_r by lia.
    destruct (N.leb_spec (1 + 1) j); destruct (N.ltb_spec j (1 + 1 + N.of_nat (N.to_nat (num - 1))));
      destruct (N.leb_spec j num); cbn [andb]; try lia; reflexivity.
Qed.

Lemma split_dest_cnk num : 1 <= num -> num <= 15 -> get_cnk (split_dest num) = num.
Proof. intros H1 Hn. rewrite get_cnk_nib, split_dest_nib by lia. reflexivity. Qed.

Theorem split_dest_list num :
  1 <= num -> num <= 15 -> perm_list (split_dest num) = map N.of_nat (seq 0 (N.to_nat num)).
Proof.
  intros H1 Hn. unfold perm_list. rewrite split_dest_cnk by assumption.
  apply map_ext_in. intros i Hi. apply in_seq in Hi.
  rewrite split_dest_nib by lia.
  destruct (N.eqb_spec (N.of_nat i + 1) 0); [lia|].
  destruct (N.leb_spec (N.of_nat i + 1) num); lia.
Qed.

Lemma split_dest_loop_lt k : forall i body, body < w64 -> split_dest_loop i k body < w64.
Proof.
  induction k as [|k IH]; intros i body Hb; cbn [split_dest_loop]; [exact Hb|].
  apply IH. apply lor_lt64; [exact Hb|apply shl_lt64].
Qed.

Lemma split_dest_lt num : num < w64 -> split_dest num < w64.
Proof. intros Hn. apply lor_lt64; [apply split_dest_loop_lt; reflexivity|exact Hn]. Qed.

(** ** Validity

    [Valid] has one clause per conjunct of [perm_validb]; the clause on the
    count is there for that reason only ([get_cnk_lt16] gives it for every word). *)

Definition Valid (w : N) : Prop :=
  w < w64 /\ get_cnk w <= 15 /\ NoDup (perm_list w) /\ Forall (fun x => x < 15) (perm_list w).

Theorem insert_rank_valid w r p :
  Valid w -> get_cnk w < 15 -> r <= get_cnk w -> p < 15 -> ~ In p (perm_list w) ->
  Valid (insert_rank w r p).
Proof.
  intros (Hw & Hc & Hnd & Hall) Hc15 Hr Hp Hnin.
  unfold Valid. rewrite insert_rank_list, insert_rank_cnk by lia.
  pose proof (Permutation_sym (insert_at_perm (N.to_nat r) p (perm_list w))) as HP.
  repeat split.
  - apply insert_rank_lt; exact Hc15.
  - lia.
  - apply (Permutation_NoDup HP). constructor; assumption.
  - apply (Permutation_Forall HP). constructor; assumption.
Qed.

Theorem delete_rank_valid w r :
  Valid w -> r < get_cnk w -> Valid (delete_rank w r).
Proof.
  intros (Hw & Hc & Hnd & Hall) Hr.
  unfold Valid. rewrite delete_rank_list, delete_rank_cnk by lia.
  assert (N.to_nat r < length (perm_list w))%nat as Hlen by (rewrite perm_list_length; lia).
  repeat split.
  - apply delete_rank_lt. lia.
  - lia.
  - rewrite (split_at_nth 0 _ _ Hlen) in Hnd. apply NoDup_remove_1 in Hnd. exact Hnd.
  - apply Forall_remove_at. exact Hall.
Qed.

Theorem split_dest_valid num : 1 <= num -> num <= 15 -> Valid (split_dest num).
Proof.
  intros H1 Hn. unfold Valid.
  rewrite split_dest_list, split_dest_cnk by assumption.
  repeat split.
  - apply split_dest_lt. unfold w64. lia.
  - exact Hn.
  - apply NoDup_map_of_nat_seq.
  - apply Forall_forall. intros x Hx. apply in_map_iff in Hx. destruct Hx as [i [<- Hi]].
    apply in_seq in Hi. lia.
Qed.

Lemma init_valid : Valid 0.
Proof.
  unfold Valid. repeat split; try (cbn; lia).
  - constructor.
  - constructor.
Qed.

(** ** No undefined shift *)
Theorem insert_rank_no_ub w r :
  get_cnk w < 15 -> r <= get_cnk w -> Forall (fun s => s < 64) (insert_rank_shifts w r).
Proof.
  intros Hc Hr. unfold insert_rank_shifts, pkey_bit_size, key_slice_length.
  rewrite (add64_small (get_cnk w) 1) by (unfold w64; lia).
  rewrite (sub64_small (get_cnk w + 1) 1) by (unfold w64; lia).
  apply Forall_app. split; [constructor; [lia|constructor]|].
  apply Forall_app. split.
  - destruct (N.eqb_spec r (get_cnk w + 1 - 1)); [constructor|].
    constructor; [lia|constructor; [lia|constructor]].
  - destruct (N.eqb_spec r 0); [constructor|]. constructor; [lia|constructor].
Qed.

Theorem delete_rank_no_ub w r :
  r < get_cnk w -> Forall (fun s => s < 64) (delete_rank_shifts w r).
Proof.
  intros Hr. pose proof (get_cnk_lt16 w) as Hlt.
  unfold delete_rank_shifts, pkey_bit_size, key_slice_length.
  rewrite (sub64_small (get_cnk w) 1) by (unfold w64; lia).
  apply Forall_app. split.
  - destruct (N.eqb_spec r (get_cnk w - 1)); [constructor|].
    destruct (N.eqb_spec r (15 - 1)); [constructor|]. cbn [orb].
    constructor; [lia|constructor; [lia|constructor]].
  - destruct (N.eqb_spec r 0); [constructor|]. constructor; [lia|constructor].
Qed.

Lemma perm_validb_sound w : perm_validb w = true -> Valid w.
Proof.
  unfold perm_validb, Valid. intros H.
  apply andb_prop in H. destruct H as [H Hnd].
  apply andb_prop in H. destruct H as [H Hall].
  apply andb_prop in H. destruct H as [Hw Hc].
  apply N.ltb_lt in Hw. apply N.leb_le in Hc.
  repeat split; try assumption.
  - clear Hall. induction (perm_list w) as [|x l IH]; [constructor|].
    apply andb_prop in Hnd. destruct Hnd as [Hx Hl].
    constructor.
    + intros Hin. apply existsb_eqb_In in Hin. rewrite Hin in Hx. discriminate.
    + apply IH. exact Hl.
  - apply Forall_forall. rewrite forallb_forall in Hall. intros x Hx.
    apply N.ltb_lt. apply Hall. exact Hx.
Qed.
