(** * SysScanProofs: the whole sequential system refines the map-of-maps specification
    for EVERY operation sequence, including [OScan] and [OList]: [SysInv] of [SysProofs.v]
    together with [scan_inv] of [ScanProofs.v] on the outer tree and on every user tree.
    [step_ok2], [step_refines2], [exec_all_refines2] and [reachable_inv2] are the statements of
    [SysProofs.v] without the [2], with [SysInv2] for [SysInv]; [_all] says: for every operation,
    the two scanning ones included. *)
From Coq Require Import NArith PeanoNat Lia ZifyBool ZifyN Bool List.
From Yk Require Import KeyProofs SpecDefs StoreProofs SysProofs ScanProofs.
Import ListNotations.
Local Open Scope N_scope.

(** ** the scan invariant of the whole system *)

(** Every entry of the table (also a shadowed one: [trees_del] removes the first entry of an id only,
    so a pointwise statement through [trees_get] would not be preserved without a no-duplicates
    side condition). *)
Definition trees_inv (ts : list (N * tree)) : Prop := Forall (fun x => scan_inv (snd x)) ts.

Lemma trees_inv_get ts sid tr : trees_inv ts -> trees_get ts sid = Some tr -> scan_inv tr.
Proof. intros H G. exact (proj1 (Forall_forall _ _) H _ (trees_get_in _ _ _ G)). Qed.

Lemma trees_inv_set ts sid tr : trees_inv ts -> scan_inv tr -> trees_inv (trees_set ts sid tr).
Proof.
  intros H Hi. apply Forall_forall. intros x Hx.
  destruct (trees_set_in _ _ _ _ Hx) as [<-|Hx']; [exact Hi|exact (proj1 (Forall_forall _ _) H x Hx')].
Qed.

Lemma trees_inv_del ts sid : trees_inv ts -> trees_inv (trees_del ts sid).
Proof. exact (incl_Forall (trees_del_in ts sid)). Qed.

Definition ScanInv (s : sys) : Prop := scan_inv (sy_outer s) /\ trees_inv (sy_trees s).

Definition SysInv2 (s : sys) (p : spec_state) : Prop := SysInv s p /\ ScanInv s.

Lemma SysInv2_get s p : SysInv2 s p ->
  SysInv s p /\ scan_inv (sy_outer s) /\ (forall sid tr, trees_get (sy_trees s) sid = Some tr -> scan_inv tr).
Proof.
  intros [I [Ho Ht]]. split; [exact I|]. split; [exact Ho|].
  intros sid tr G. exact (trees_inv_get _ _ _ Ht G).
Qed.

Lemma ScanInv_init : ScanInv sys_init.
Proof. split; [exact scan_inv_null|constructor]. Qed.

Theorem SysInv2_init : SysInv2 sys_init spec_init.
Proof. split; [exact SysInv_init|exact ScanInv_init]. Qed.

Lemma exec_ScanInv s p o : SysInv s p -> op_bytes o -> ScanInv s -> ScanInv (fst (exec s o)).
Proof.
  intros I Hb S. pose proof S as [Ho Ht].
  destruct o as [n|n|n| |n k bs al u il|n k|n k|n a| ]; cbn [op_bytes] in Hb;
    try (rewrite exec_readonly by exact Logic.I; exact S).
  - (* OCreate *)
    assert (WF_store (sy_ctr s + 2) (sy_outer s)) as W2 by (apply (WF_store_mono _ _ _ (si_outer _ _ I)); lia).
    destruct (put_refines _ _ n (storage_value (sy_ctr s + 1) (sy_ctr s)) true W2 Hb) as (outer' & po & c' & E & _).
    rewrite (exec_create_eq s n outer' po c' E). split; cbn [fst sy_outer sy_trees].
    + exact (put_scan_inv _ _ _ _ _ _ _ _ W2 Hb E Ho).
    + destruct (po_status po); first [exact Ht|apply trees_inv_set; [exact Ht|apply scan_inv_empty]].
  - (* ODropStorage *)
    pose proof (find_storage_spec s p n I Hb) as F.
    destruct (ssys_get (sp_map p) n) as [m|]; [|rewrite (exec_drop_none s n F); exact S].
    destruct F as (sid & tr & F & _).
    destruct (remove_refines _ _ n (si_outer _ _ I) Hb) as (outer' & ro & E & _).
    rewrite (exec_drop_eq s n sid outer' ro F E). pose proof (remove_scan_inv _ _ _ _ E Ho) as Ho'.
    destruct (ro_status ro); (split; cbn [fst sy_outer sy_trees]; [exact Ho'|]);
      first [exact Ht|apply trees_inv_del; exact Ht].
  - (* OPut *)
    destruct Hb as [Hn Hk]. rewrite exec_put_eq. apply (with_tree_pres ScanInv s p n _ I Hn S). intros sid tr _ G W.
    destruct (put tr k (mk_value (sy_ctr s) bs al il) u (sy_ctr s + 1)) as [[[tr' po] c']|] eqn:E; [|exact S].
    split; cbn [fst sy_outer sy_trees]; [exact Ho|]. apply trees_inv_set; [exact Ht|].
    eapply put_scan_inv; [|exact Hk|exact E|exact (trees_inv_get _ _ _ Ht G)].
    apply (WF_store_mono _ _ _ W). lia.
  - (* ORemove *)
    rewrite exec_remove_eq. apply (with_tree_pres ScanInv s p n _ I (proj1 Hb) S). intros sid tr _ G _.
    destruct (remove tr k) as [[tr' ro]|] eqn:E; [|exact S].
    split; cbn [fst sy_outer sy_trees]; [exact Ho|]. apply trees_inv_set; [exact Ht|].
    exact (remove_scan_inv _ _ _ _ E (trees_inv_get _ _ _ Ht G)).
  - (* ODestroy *)
    rewrite exec_destroy_eq. destruct (t_null (sy_outer s)); [exact S|]. split; [exact scan_inv_null|constructor].
Qed.

(** ** the two scanning operations *)

Lemma step_scan s p n a : SysInv2 s p -> bytes n -> bytes (sa_l a) -> bytes (sa_r a) ->
  step_ok s p (OScan n a).
Proof.
  intros [I [Ho Ht]] Hb Hl Hr. unfold step_ok. rewrite exec_scan_eq.
  apply (with_tree_sim SysInv s p n _ _ I I Hb). intros sid tr _ _ G W N _.
  destruct (scan_refines_inv _ tr a W (trees_inv_get _ _ _ Ht G) N Hl Hr) as (o & E & R).
  rewrite E. destruct (spec_scan_args_ok a); destruct R as [R1 R2];
    (split; [cbn [abs_out]; rewrite R1, R2; reflexivity|exact I]).
Qed.

Lemma spec_scan_list_all m : spec_scan_list m all_args = m.
Proof.
  unfold spec_scan_list, all_args. cbn [sa_l sa_le sa_r sa_re sa_max sa_rtl Nat.eqb in_left in_right andb].
  apply filter_all. reflexivity.
Qed.

Lemma step_list s p : SysInv2 s p -> step_ok s p OList.
Proof.
  intros [I [Ho Ht]]. unfold step_ok, spec_exec. cbv zeta. rewrite exec_list_eq.
  destruct (scan_refines_all _ _ all_args (si_outer _ _ I) Ho) as (o & E & R); [constructor|constructor|].
  change (spec_scan_args_ok all_args) with true in R. cbv iota in R. destruct R as [_ R].
  rewrite spec_scan_list_all in R. rewrite E.
  assert (map fst (so_tuples o) = map fst (sp_map p)) as Hn.
  { rewrite <- (SysInv_names s p I), <- R, map_map. reflexivity. }
  revert Hn. destruct (so_tuples o) as [|t ts]; destruct (sp_map p) as [|q qs]; intros Hn; try discriminate Hn.
  - split; [reflexivity|exact I].
  - split; [cbn [abs_out]; rewrite Hn; reflexivity|exact I].
Qed.

(** ** every operation, every sequence *)
Definition step_ok2 (s : sys) (p : spec_state) (o : op) : Prop := sim SysInv2 (exec s o) (spec_exec p o).

Theorem step_refines_all s p o : SysInv2 s p -> op_bytes o -> step_ok s p o.
Proof.
  intros I2 Hb. destruct (noscan o) eqn:Hn; [apply step_refines; [exact (proj1 I2)|exact Hb|exact Hn]|].
  destruct o as [n|n|n| |n k bs al u il|n k|n k|n a| ]; try discriminate Hn.
  - apply step_list. exact I2.
  - cbn [op_bytes] in Hb. destruct Hb as (H1 & H2 & H3). apply step_scan; assumption.
Qed.

Theorem step_refines2 s p o : SysInv2 s p -> op_bytes o -> step_ok2 s p o.
Proof.
  intros I2 Hb. pose proof (step_refines_all s p o I2 Hb) as K. destruct I2 as [I S].
  pose proof (exec_ScanInv s p o I Hb S) as S'.
  unfold step_ok in K. unfold step_ok2. destruct (exec s o) as [s' x]. destruct (spec_exec p o) as [p' y].
  cbn [fst] in S'. destruct K as [K1 K2]. split; [exact K1|]. split; assumption.
Qed.

Lemma step_ok_out s p o : step_ok s p o -> abs_out (snd (exec s o)) = snd (spec_exec p o).
Proof. unfold step_ok. destruct (exec s o), (spec_exec p o). intros [H _]. exact H. Qed.

Lemma exec_scan_state s n a : fst (exec s (OScan n a)) = s.
Proof. exact (exec_readonly s (OScan n a) I). Qed.

Lemma exec_list_state s : fst (exec s OList) = s.
Proof. exact (exec_readonly s OList I). Qed.

Lemma exec_all_refines2 ops : Forall op_bytes ops ->
  map abs_out (snd (exec_all sys_init ops)) = snd (spec_exec_all spec_init ops) /\
  SysInv2 (fst (exec_all sys_init ops)) (fst (spec_exec_all spec_init ops)).
Proof. exact (exec_all_sim SysInv2 op_bytes step_refines2 ops _ _ SysInv2_init). Qed.

Theorem sys_refines_spec_all : forall ops, Forall op_bytes ops ->
  map abs_out (snd (exec_all sys_init ops)) = snd (spec_exec_all spec_init ops).
Proof. intros ops Hb. exact (proj1 (exec_all_refines2 ops Hb)). Qed.

Theorem reachable_inv2 : forall ops, Forall op_bytes ops ->
  SysInv2 (fst (exec_all sys_init ops)) (fst (spec_exec_all spec_init ops)).
Proof. intros ops Hb. exact (proj2 (exec_all_refines2 ops Hb)). Qed.

(** one scan after any history: status and tuples are those of the interval filter of the storage's map *)
Theorem sys_scan_exact : forall ops n a, Forall op_bytes ops -> op_bytes (OScan n a) ->
  abs_out (snd (exec (fst (exec_all sys_init ops)) (OScan n a))) =
  snd (spec_exec (fst (spec_exec_all spec_init ops)) (OScan n a)).
Proof.
  intros ops n a Hb Ho. apply step_ok_out. apply step_refines_all; [apply reachable_inv2; exact Hb|exact Ho].
Qed.

Corollary sys_scan_tuples : forall ops n a m, Forall op_bytes ops -> op_bytes (OScan n a) ->
  ssys_get (sp_map (fst (spec_exec_all spec_init ops))) n = Some m ->
  abs_out (snd (exec (fst (exec_all sys_init ops)) (OScan n a))) =
  if spec_scan_args_ok a then AScan St_OK (spec_scan_list m a) else AScan St_ERR_BAD_USAGE [].
Proof.
  intros ops n a m Hb Ho G. rewrite (sys_scan_exact ops n a Hb Ho). unfold spec_exec. cbv zeta.
  rewrite G. destruct (spec_scan_args_ok a); reflexivity.
Qed.

Theorem sys_list_exact : forall ops, Forall op_bytes ops ->
  abs_out (snd (exec (fst (exec_all sys_init ops)) OList)) =
  snd (spec_exec (fst (spec_exec_all spec_init ops)) OList).
Proof.
  intros ops Hb. apply step_ok_out. apply step_refines_all; [apply reachable_inv2; exact Hb|exact I].
Qed.

(** ** sanity: a concrete history *)
Module SysScanExample.
  Definition st : key := [115; 116].                 (* the storage "st" *)
  Definition st2 : key := [97].                      (* the storage "a" *)
  Definition kk (i : nat) : key := [N.of_nat i; 1].
  Definition sargs (l : key) (le : endpoint) (r : key) (re : endpoint) (mx : nat) (rtl : bool) : scan_args :=
    {| sa_l := l; sa_le := le; sa_r := r; sa_re := re; sa_max := mx; sa_rtl := rtl;
       sa_lnull := false; sa_rnull := false |}.

  Definition ex_prefix : list op :=
    [OList; OCreate st; OCreate st2; OCreate st]
    ++ map (fun i => OPut st (kk i) [N.of_nat i] 8 false false) (seq 1 20)
    ++ [OPut st2 [9] [9; 9] 8 true true; ORemove st (kk 5)].
  Definition ex_suffix : list op :=
    [OScan st (sargs (kk 3) EP_INCL (kk 8) EP_EXCL 0 false);   (* [3,8) *)
     OScan st (sargs (kk 16) EP_EXCL [] EP_INF 2 false);       (* (16, inf), at most 2 *)
     OScan st (sargs [] EP_INF [] EP_INF 1 true);              (* the greatest *)
     OScan st (sargs (kk 8) EP_INCL (kk 3) EP_INCL 0 false);   (* empty range: bad usage *)
     OScan st2 (sargs [] EP_INF [] EP_INF 0 false);
     OScan [98] (sargs [] EP_INF [] EP_INF 0 false);           (* unknown storage *)
     OList; ODropStorage st2; OList; ODestroy; OList].
  Definition ex_ops : list op := ex_prefix ++ ex_suffix.

  Example ex_ops_bytes : Forall op_bytes ex_ops.
  Proof. apply ops_bytesb_sound. vm_compute. reflexivity. Qed.

  Example ex_refines : map abs_out (snd (exec_all sys_init ex_ops)) = snd (spec_exec_all spec_init ex_ops).
  Proof. exact (sys_refines_spec_all ex_ops ex_ops_bytes). Qed.

  (** both sides compute to this list (the 11 results of [ex_suffix]) *)
  Definition av (bs : list N) (il : bool) : aval := {| av_bytes := bs; av_inline := il |}.
  Definition ex_expected : list aout :=
    [AScan St_OK [(kk 3, av [3] false); (kk 4, av [4] false); (kk 6, av [6] false); (kk 7, av [7] false)];
     AScan St_OK [(kk 17, av [17] false); (kk 18, av [18] false)];
     AScan St_OK [(kk 20, av [20] false)];
     AScan St_ERR_BAD_USAGE [];
     AScan St_OK [([9], av [9; 9] true)];
     AStatus St_WARN_STORAGE_NOT_EXIST;
     AList St_OK [st2; st]; AStatus St_OK; AList St_OK [st]; AStatus St_OK_DESTROY_ALL;
     AList St_WARN_NOT_EXIST []].

  Example ex_impl_side : skipn (length ex_prefix) (map abs_out (snd (exec_all sys_init ex_ops))) = ex_expected.
  Proof. vm_compute. reflexivity. Qed.
  Example ex_spec_side : skipn (length ex_prefix) (snd (spec_exec_all spec_init ex_ops)) = ex_expected.
  Proof. vm_compute. reflexivity. Qed.
  Example ex_prefix_results :
    firstn 5 (map abs_out (snd (exec_all sys_init ex_ops))) =
    [AList St_WARN_NOT_EXIST []; AStatus St_OK; AStatus St_OK; AStatus St_WARN_UNIQUE_RESTRICTION; APut St_OK].
  Proof. vm_compute. reflexivity. Qed.

  (** the state the scans run on: two user trees (ids 1 and 4); layer 0 of the first one consists of
      two borders (the 16th put split it) *)
  Example ex_shape :
    let s := fst (exec_all sys_init ex_prefix) in
    (map fst (sy_trees s),
     map (fun x => map (fun l => length (bt_leaves (snd l))) (t_layers (snd x))) (sy_trees s)) =
    ([1; 4], [[2%nat]; [1%nat]]).
  Proof. vm_compute. reflexivity. Qed.

  Example ex_scan_exact :
    abs_out (snd (exec (fst (exec_all sys_init ex_prefix)) (OScan st (sargs (kk 3) EP_INCL (kk 8) EP_EXCL 0 false)))) =
    AScan St_OK [(kk 3, av [3] false); (kk 4, av [4] false); (kk 6, av [6] false); (kk 7, av [7] false)].
  Proof.
    rewrite sys_scan_exact; [vm_compute; reflexivity| |].
    - apply ops_bytesb_sound. vm_compute. reflexivity.
    - apply op_bytesb_sound. vm_compute. reflexivity.
  Qed.
End SysScanExample.

Print Assumptions SysInv2_init.
Print Assumptions step_refines_all.
Print Assumptions step_refines2.
Print Assumptions sys_refines_spec_all.
Print Assumptions reachable_inv2.
Print Assumptions sys_scan_exact.
Print Assumptions sys_scan_tuples.
Print Assumptions sys_list_exact.
Print Assumptions SysScanExample.ex_refines.
Print Assumptions SysScanExample.ex_impl_side.
Print Assumptions SysScanExample.ex_spec_side.
Print Assumptions SysScanExample.ex_scan_exact.
