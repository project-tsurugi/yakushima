(** * C05 -- node-version sets from reads detect every later insert into the read range.
    (Property theorems; the positive coverage theorem is proved in PhantomProofs.) *)
From Coq Require Import NArith List.
From Yk Require Import SysDefs ChainDefs ChainProofs KeyProofs TreeDefs ScanDefs SpecDefs StoreProofs
     ScanProofs PhantomProofs.
Import ListNotations.
Local Open Scope N_scope.

(** The scan of the source before the repair of F2 returned from the layer-link branch (right
    endpoint reached at a link entry) without recording the enclosing border:
    with the single key "aaaaaaaab", scan (-inf, "aaaaaaaa"] yields an EMPTY
    node-version set, so the later insert of "a" cannot be detected (finding F2). *)
Definition c05_key : key := [97;97;97;97;97;97;97;97;98].
Definition c05_args : scan_args :=
  {| sa_l := []; sa_le := EP_INF; sa_r := [97;97;97;97;97;97;97;97]; sa_re := EP_INCL; sa_max := 0%nat;
     sa_rtl := false; sa_lnull := false; sa_rnull := false |}.

Theorem C05_original_scan_empty_nodeset_refuted :
  exists tr o,
    trees_get (sy_trees (fst (exec_all sys_init [OCreate [115]; OPut [115] c05_key [1] 1 false false]))) 1 = Some tr /\
    scan_nofix2 tr c05_args = Some o /\ so_status o = St_OK /\ so_tuples o = [] /\ so_nv o = [] /\
    exists o', scan tr c05_args = Some o' /\ so_nv o' <> [].
Proof.
  eexists. eexists. split; [vm_compute; reflexivity|]. split; [vm_compute; reflexivity|].
  repeat split. eexists. split; [vm_compute; reflexivity|]. cbn. discriminate.
Qed.
Print Assumptions C05_original_scan_empty_nodeset_refuted.

(** ** Multi-node form under concurrency (ChainProofs): along the whole leaf chain, under inserts, removes,
    splits and unlinks in any interleaving.  A remove does not change the version word of its border (in the code
    and in the model), so unchanged versions exclude undetected INSERTS, not removes: every key of the interval
    that exists now is in the result; the result is exact when no remove happened since the invocation. *)
Theorem C05_chain_no_undetected_insert : forall kss evs s k,
  kss_ok kss = true -> crun true (cinit kss) evs = Some s -> sc_pc (c_scan s) = CDone ->
  (forall id v, In (id, v) (sc_nvset (c_scan s)) -> exists n, find_node id (c_nodes s) = Some n /\ cn_ver n = v) ->
  In k (all_keys (c_nodes s)) -> in_interval (sc_l (c_scan s)) (sc_r (c_scan s)) k = true ->
  In k (sc_res (c_scan s)).
Proof. exact chain_scan_no_phantom_insert. Qed.
Print Assumptions C05_chain_no_undetected_insert.

Theorem C05_chain_unchanged_versions_exact_result_no_removes : forall kss evs s,
  kss_ok kss = true -> crun true (cinit kss) evs = Some s -> sc_pc (c_scan s) = CDone ->
  (forall k, ~ In (ERem k) evs) ->
  (forall id v, In (id, v) (sc_nvset (c_scan s)) -> exists n, find_node id (c_nodes s) = Some n /\ cn_ver n = v) ->
  sc_res (c_scan s) = filter (in_interval (sc_l (c_scan s)) (sc_r (c_scan s))) (all_keys (c_nodes s)).
Proof. exact chain_scan_phantom_free_no_removes. Qed.
Print Assumptions C05_chain_unchanged_versions_exact_result_no_removes.

(** with removes the exact form is false: the model (and the code) cannot see a remove through the versions *)
Theorem C05_chain_exact_with_remove_refuted : exists evs s, crun true (cinit [[10]; [20; 30]]) evs = Some s /\
  sc_pc (c_scan s) = CDone /\
  (forall id v, In (id, v) (sc_nvset (c_scan s)) -> exists n, find_node id (c_nodes s) = Some n /\ cn_ver n = v) /\
  sc_res (c_scan s) = [10; 20; 30] /\ all_keys (c_nodes s) = [10; 30] /\
  sc_res (c_scan s) <> filter (in_interval (sc_l (c_scan s)) (sc_r (c_scan s))) (all_keys (c_nodes s)).
Proof. exact chain_phantom_free_with_remove_refuted. Qed.
Print Assumptions C05_chain_exact_with_remove_refuted.

(** ** Store level, sequential form (PhantomProofs): any number of layers, any max_size, both directions.
    If a scan collected the node-version set and afterwards an ABSENT key of the range the scan covered is
    inserted, at least one recorded (border, version) pair is stale in the new store.  (That it is the pair of
    the border that put reports as modified is [PhantomProofs.scan_detects_insert_reported].) *)

Theorem C05_scan_detects_insert : forall ctr tr a o k v tr' po ctr',
  WF_store ctr tr -> scan_inv tr -> t_null tr = false ->
  bytes (sa_l a) -> bytes (sa_r a) -> bytes k ->
  spec_scan_args_ok a = true -> scan tr a = Some o ->
  smap_get (abs_tree tr) k = None ->
  covered a (so_tuples o) k = true ->
  put tr k v false ctr = Some (tr', po, ctr') ->
  exists id ver, In (id, ver) (so_nv o) /\ store_leaf_ver tr' id <> Some ver.
Proof. exact scan_detects_insert. Qed.
Print Assumptions C05_scan_detects_insert.

Theorem C05_nv_nonempty : forall tr a o,
  scan tr a = Some o -> so_status o = St_OK -> so_nv o <> [].
Proof. exact scan_nv_nonempty. Qed.
Print Assumptions C05_nv_nonempty.
