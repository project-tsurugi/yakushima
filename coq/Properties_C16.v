(** * C16 -- init/fin cycles are repeatable *)
From Coq Require Import List Bool.
From Yk Require Import LifecycleDefs LifecycleProofs.
Import ListNotations.

Theorem C16_threads_alive_while_running : forall tr s,
  lrun true lc_init tr = Some s -> running s = true -> ep_alive s = true /\ gc_alive s = true.
Proof.
  intros tr s Hr Hrun. destruct (reachable_LInv tr s Hr Hrun) as (_ & _ & A & B). auto.
Qed.
Print Assumptions C16_threads_alive_while_running.

Theorem C16_iteration_enabled_while_running : forall tr s,
  lrun true lc_init tr = Some s -> running s = true ->
  exists s1 s2, lstep true s LEpochIter = Some s1 /\ ep_iters s1 = S (ep_iters s) /\ ep_alive s1 = true /\
                lstep true s LGcIter = Some s2 /\ gc_iters s2 = S (gc_iters s) /\ gc_alive s2 = true.
Proof.
  intros tr s Hr Hrun. destruct (reachable_LInv tr s Hr Hrun) as (A & B & C & D).
  cbn. rewrite C, D, A, B. cbn. eexists. eexists. repeat split; reflexivity.
Qed.
Print Assumptions C16_iteration_enabled_while_running.

Theorem C16_fresh_after_fin : forall tr s s1 s2,
  lrun true lc_init tr = Some s -> lstep true s LFin = Some s1 -> lstep true s1 LInit = Some s2 ->
  storages s2 = 0 /\ slots_busy s2 = 0 /\ running s2 = true /\ ep_iters s2 = 0.
Proof. intros tr s s1 s2 _. apply fresh_after_fin. Qed.
Print Assumptions C16_fresh_after_fin.

Theorem C16_destroy_leaves_usable : forall tr s s1,
  lrun true lc_init tr = Some s -> lstep true s LDestroy = Some s1 ->
  storages s1 = 0 /\ running s1 = running s /\ ep_alive s1 = ep_alive s /\ gc_alive s1 = gc_alive s.
Proof. intros tr s s1 _. apply destroy_leaves_usable. Qed.
Print Assumptions C16_destroy_leaves_usable.

Theorem C16_original_init_refuted :
  exists tr s, lrun false lc_init tr = Some s /\ running s = true /\ ep_alive s = false /\ ep_iters s = 1.
Proof. exact original_init_refuted. Qed.
Print Assumptions C16_original_init_refuted.

Example C16_nonvacuous :
  exists s, lrun true lc_init [LInit; LCreate; LEnter; LEpochIter; LGcIter; LFin; LInit; LEpochIter; LEpochIter; LEnter] = Some s
            /\ running s = true /\ ep_iters s = 2 /\ slots_busy s = 1 /\ storages s = 0.
Proof. eexists. split; [vm_compute; reflexivity|]. cbn. auto. Qed.
