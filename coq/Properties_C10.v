(** * C10 -- the cursor API (iscan) enumerates the scan interval in both directions.
    (Property theorems; the enumeration theorem iscan_all = Spec is proved in IScanProofs.) *)
From Coq Require Import NArith List.
From Yk Require Import SysDefs SpecDefs IScanDefs.
Import ListNotations.
Local Open Scope N_scope.

(** The reverse cursor of the original source skipped every key with an all-0xFF
    8-byte slice below layer 0: it entered a child layer at key_tuple::max(), which
    IS the tuple of such a link, and the start-side test is strict (finding F5).
    [iscan_all_orig] is that behaviour; [iscan_all] is the current source. *)
Definition c10_p8 : key := [112;112;112;112;112;112;112;112].
Definition c10_ff8 : key := [255;255;255;255;255;255;255;255].
Definition c10_build : list op :=
  [OCreate [115];
   OPut [115] (c10_p8 ++ c10_ff8 ++ [122]) [1] 1 false false;
   OPut [115] (c10_p8 ++ [97]) [2] 1 false false;
   OPut [115] [97] [3] 1 false false].
Definition c10_args : iscan_args :=
  {| ia_l := []; ia_le := EP_INF; ia_r := []; ia_re := EP_INF; ia_rtl := true; ia_lnull := false; ia_rnull := false |}.
Definition c10_spec_args : scan_args :=
  {| sa_l := []; sa_le := EP_INF; sa_r := []; sa_re := EP_INF; sa_max := 0%nat; sa_rtl := false;
     sa_lnull := false; sa_rnull := false |}.

Definition keys_of (r : option (status * list (key * value) * list (N * N))) : option (list key) :=
  option_map (fun x => map fst (snd (fst x))) r.

Theorem C10_original_reverse_ff_slice_refuted :
  exists tr m,
    trees_get (sy_trees (fst (exec_all sys_init c10_build))) 1 = Some tr /\
    ssys_get (sp_map (fst (spec_exec_all spec_init c10_build))) [115] = Some m /\
    keys_of (iscan_all_orig tr c10_args) <> Some (rev (map fst (spec_scan_list m c10_spec_args))) /\
    keys_of (iscan_all tr c10_args) = Some (rev (map fst (spec_scan_list m c10_spec_args))).
Proof.
  eexists. eexists. split; [vm_compute; reflexivity|]. split; [vm_compute; reflexivity|].
  split; [vm_compute; intros H; discriminate H|vm_compute; reflexivity].
Qed.
Print Assumptions C10_original_reverse_ff_slice_refuted.

(** ** The refinement theorem for the quiescent sentence (IScanProofs): on every store reached by puts and
    removes, for every interval (all endpoint kinds, keys of any length) and both directions, the cursor driven
    to its end delivers exactly the interval's entries -- ascending left-to-right, descending right-to-left --
    each with its value and with full_key = the entry's key; it rejects exactly the argument records that the
    argument checks reject (C10_validate below). *)
From Yk Require Import KeyProofs StoreProofs ScanProofs IScanProofs.

Theorem C10_cursor_is_interval_enumeration : forall ctr tr a,
  WF_store ctr tr -> iscan_inv tr -> bytes (ia_l a) -> bytes (ia_r a) ->
  exists st kvs cbs, iscan_all tr a = Some (st, kvs, cbs) /\
    match iscan_validate a with
    | Some s => st = s /\ kvs = []
    | None => st = St_OK /\ map (fun kv => (fst kv, abs_value (snd kv))) kvs = spec_iscan_list (abs_tree tr) a
    end.
Proof. exact iscan_refines_inv. Qed.
Print Assumptions C10_cursor_is_interval_enumeration.

(** the side invariant holds initially and is preserved by the store operations *)
Theorem C10_iscan_inv_reachable :
  iscan_inv null_tree /\ (forall id, iscan_inv (empty_tree id)) /\
  (forall ctr tr k v unique tr' po ctr',
     WF_store ctr tr -> bytes k -> put tr k v unique ctr = Some (tr', po, ctr') -> iscan_inv tr -> iscan_inv tr') /\
  (forall tr k tr' ro, remove tr k = Some (tr', ro) -> iscan_inv tr -> iscan_inv tr').
Proof.
  split; [exact iscan_inv_null|]. split; [exact iscan_inv_empty|]. split; [exact put_iscan_inv|exact remove_iscan_inv].
Qed.
Print Assumptions C10_iscan_inv_reachable.

(** the cursor rejects exactly the argument combinations scan rejects (without scan's right-to-left restriction) *)
Theorem C10_validate : forall a,
  (iscan_validate a = None <-> spec_scan_args_ok (iscan_to_scan a) = true) /\
  (spec_scan_args_ok (iscan_to_scan a) = false -> iscan_validate a = Some St_ERR_BAD_USAGE) /\
  (forall s, iscan_validate a = Some s -> s = St_ERR_BAD_USAGE).
Proof. exact iscan_validate_spec. Qed.
Print Assumptions C10_validate.

(** ** Finding F12: the cursor's node-version set.  With both endpoints inside ONE next-layer slice that holds no entry
    (["abcdefghx", "abcdefghz"], both inclusive, nothing under "abcdefgh") the original cursor made no callback at all:
    the tuples of the two endpoints are equal (both the link tuple of the slice), and "the callback range is empty"
    was concluded from that.  [iscan_all_orig] is the original behaviour, [iscan_all] the repaired one. *)
Definition c10_f12_tree : tree :=
  match put (empty_tree 1) [97] {| v_id := 2; v_bytes := [1]; v_align := 8; v_inline := false |} false 3 with
  | Some (tr, _, _) => tr
  | None => null_tree
  end.
Definition c10_f12_args : iscan_args :=
  {| ia_l := [97;98;99;100;101;102;103;104;120]; ia_le := EP_INCL;
     ia_r := [97;98;99;100;101;102;103;104;122]; ia_re := EP_INCL; ia_rtl := false; ia_lnull := false; ia_rnull := false |}.
Theorem C10_original_cursor_empty_nodeset_refuted :
  (exists st kvs, iscan_all_orig c10_f12_tree c10_f12_args = Some (st, kvs, [])) /\
  (exists st kvs cb cbs, iscan_all c10_f12_tree c10_f12_args = Some (st, kvs, cb :: cbs)).
Proof. split; vm_compute; repeat eexists. Qed.
Print Assumptions C10_original_cursor_empty_nodeset_refuted.

(** ** Finding F13: outside the layer that holds the range end the end tuple is only a
    sentinel, (0xff..ff, 9) left to right; a start key whose slice in such a layer is all 0xff and continues had
    exactly that tuple, and with an inclusive end the original cursor concluded "callback range empty": the border in
    which keys of the interval land was not reported.  Original source: not reported; repaired source: reported. *)
From Yk Require Import IScanPhantomProofs.
Theorem C10_original_cursor_ff_slice_refuted :
  ff_landing_reported true = Some false /\ ff_landing_reported false = Some true.
Proof. exact iscan_ff_slice_repaired. Qed.
Print Assumptions C10_original_cursor_ff_slice_refuted.
