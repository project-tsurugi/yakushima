(** * KeyBytes: keys as byte strings, against the slices, tuples and paths the store cuts them into.
    [bytes_of_slice] and [slice_of_bytes], [tbytes] and [tuple_of_key], [kop] and [path_of_key] are
    inverse to each other on well-formed arguments ([slice_tbytes], [tuple_of_tbytes], [kop_path],
    [path_kop]).  [heads t r] says that [r] is a key whose first
    tuple is [t]: the keys of a layer are the keys its entries head, behind the bytes of the layers
    above, and [heads_lex] compares two of them by their tuples.  [dir_lt] and [dir_lex] are the orders
    of tuples and of keys in which a scan of either direction meets them. *)
From Coq Require Import NArith PeanoNat Wf_nat Lia List.
From Yk Require Import ListAux KeyProofs ScanDefs.
Import ListNotations.
Local Open Scope N_scope.

(** ** keys and paths *)
Definition tbytes (t : ktuple) : key := bytes_of_slice (ks t) (kl t).
Definition kop (ts : list ktuple) : key := concat (map tbytes ts).

Lemma pow256_nz m : 256 ^ m <> 0.
Proof. apply N.neq_0_lt_0, pow256_pos. Qed.

Lemma pow256_split a d : (d <= a)%nat -> 256 ^ N.of_nat a = 256 ^ N.of_nat (a - d) * 256 ^ N.of_nat d.
Proof. intros H. rewrite <- N.pow_add_r. f_equal. lia. Qed.

Lemma bos_aux_length s : forall n i, length (bytes_of_slice_aux s n i) = n.
Proof. induction n as [|n IH]; intros i; cbn [bytes_of_slice_aux length]; [reflexivity|]. rewrite IH. reflexivity. Qed.

Lemma bos_aux_bytes s : forall n i, bytes (bytes_of_slice_aux s n i).
Proof.
  induction n as [|n IH]; intros i; cbn [bytes_of_slice_aux]; [constructor|].
  constructor; [|apply IH]. apply N.mod_lt. discriminate.
Qed.

Lemma bos_length s n : length (bytes_of_slice s n) = N.to_nat (N.min n 8).
Proof. apply bos_aux_length. Qed.

Lemma bos_bytes s n : bytes (bytes_of_slice s n).
Proof. apply bos_aux_bytes. Qed.

(** the first [n] of the [m] low bytes of [s], followed by [more]: as a slice, [s mod 256 ^ m] with its
    last [m - n] bytes replaced by those of [more] *)
Lemma bos_aux_slice s more : forall n m, (n <= m <= 8)%nat ->
  slice_of_bytes (bytes_of_slice_aux s n (8 - m) ++ more) m =
  (s mod 256 ^ N.of_nat m) / 256 ^ N.of_nat (m - n) * 256 ^ N.of_nat (m - n) + slice_of_bytes more (m - n).
Proof.
  induction n as [|n IH]; intros m Hm.
  - cbn [bytes_of_slice_aux app]. rewrite Nat.sub_0_r.
    rewrite N.div_small by (apply N.mod_lt; apply pow256_nz). reflexivity.
  - destruct m as [|m']; [lia|]. cbn [bytes_of_slice_aux app slice_of_bytes].
    replace (S (8 - S m')) with (8 - m')%nat by lia. rewrite IH by lia.
    change (S m' - S n)%nat with (m' - n)%nat. set (d := (m' - n)%nat).
    assert (8 * (7 - N.of_nat (8 - S m')) = 8 * N.of_nat m') as -> by lia.
    rewrite N.shiftr_div_pow2, N.pow_mul_r. change (2 ^ 8) with 256.
    rewrite Nat2N.inj_succ, N.pow_succ_r', (N.mul_comm 256).
    rewrite (N.mod_mul_r s (256 ^ N.of_nat m') 256) by (try apply pow256_nz; discriminate).
    rewrite (pow256_split m' d) by (subst d; lia).
    set (b := (s / _) mod 256). set (x := s mod _).
    set (D := 256 ^ N.of_nat d). set (K := 256 ^ N.of_nat (m' - d)).
    replace (x + K * D * b) with (x + (K * b) * D) by ring.
    rewrite N.div_add by (apply pow256_nz). ring.
Qed.

Lemma slice_nil n : slice_of_bytes [] n = 0.
Proof. destruct n; reflexivity. Qed.

Lemma slice_bos8 s more : s < 2 ^ 64 -> slice_of_bytes (bytes_of_slice s 8 ++ more) 8 = s.
Proof.
  intros H. unfold bytes_of_slice. change (N.to_nat (N.min 8 8)) with 8%nat.
  pose proof (bos_aux_slice s more 8 8 ltac:(lia)) as E. cbn [Nat.sub] in E. rewrite E, slice_0.
  change (256 ^ N.of_nat 0) with 1. change (256 ^ N.of_nat 8) with (2 ^ 64).
  rewrite N.div_1_r, N.mul_1_r, N.add_0_r. apply N.mod_small. exact H.
Qed.

Lemma slice_tbytes t : kt_wf t = true -> kl t <= 8 -> slice_of_bytes (tbytes t) 8 = ks t.
Proof.
  intros Hw Hl.
  assert (N.min (kl t) 8 = kl t) as Emin by lia.
  assert (N.to_nat (kl t) <= 8)%nat as Hn by lia.
  assert (N.of_nat (8 - N.to_nat (kl t)) = 8 - kl t) as En by lia.
  apply kt_wf_spec in Hw. destruct Hw as (_ & Hs & Hp).
  unfold tbytes, bytes_of_slice. rewrite Emin.
  pose proof (bos_aux_slice (ks t) [] (N.to_nat (kl t)) 8 (conj Hn (le_n 8))) as E. rewrite app_nil_r in E.
  change (8 - 8)%nat with 0%nat in E. rewrite E, slice_nil, N.add_0_r, En.
  change (256 ^ N.of_nat 8) with (2 ^ 64). rewrite (N.mod_small _ _ Hs).
  destruct (N.eq_dec (kl t) 8) as [E8|N8].
  - rewrite E8. change (256 ^ (8 - 8)) with 1.
    rewrite N.div_1_r, N.mul_1_r. reflexivity.
  - assert (kl t < 8) as Hlt by (clear - Hl N8; lia).
    specialize (Hp Hlt). rewrite N.pow_mul_r in Hp. change (2 ^ 8) with 256 in Hp.
    pose proof (N.div_mod (ks t) (256 ^ (8 - kl t)) (pow256_nz _)) as D.
    rewrite Hp, N.add_0_r in D. rewrite N.mul_comm. symmetry. exact D.
Qed.

Lemma tbytes_length t : kl t <= 8 -> N.of_nat (length (tbytes t)) = kl t.
Proof. intros H. unfold tbytes. rewrite bos_length. lia. Qed.

Lemma bos8_length s : length (bytes_of_slice s 8) = 8%nat.
Proof. exact (bos_length s 8). Qed.

Lemma tuple_short k : (length k <= 8)%nat ->
  tuple_of_key k = {| ks := slice_of_bytes k 8; kl := N.of_nat (length k) |}.
Proof. intros H. unfold tuple_of_key. destruct (N.ltb_spec 8 (N.of_nat (length k))); [lia|reflexivity]. Qed.

Lemma tuple_long k : (8 < length k)%nat -> tuple_of_key k = {| ks := slice_of_bytes k 8; kl := 9 |}.
Proof. intros H. unfold tuple_of_key. destruct (N.ltb_spec 8 (N.of_nat (length k))); [reflexivity|lia]. Qed.

Lemma tuple_kl_short k : (length k <= 8)%nat -> kl (tuple_of_key k) = N.of_nat (length k).
Proof. intros H. rewrite (tuple_short k H). reflexivity. Qed.

Lemma tuple_kl_long k : (8 < length k)%nat -> kl (tuple_of_key k) = 9.
Proof. intros H. rewrite (tuple_long k H). reflexivity. Qed.

Lemma tuple_ks k : ks (tuple_of_key k) = slice_of_bytes k 8.
Proof. unfold tuple_of_key. destruct (8 <? N.of_nat (length k)); reflexivity. Qed.

Lemma tuple_of_tbytes t : kt_wf t = true -> kl t <= 8 -> tuple_of_key (tbytes t) = t.
Proof.
  intros Hw Hl. pose proof (tbytes_length t Hl) as E. rewrite tuple_short by lia.
  rewrite E, (slice_tbytes t Hw Hl). destruct t; reflexivity.
Qed.

Lemma tbytes9 t : kl t = 9 -> tbytes t = bytes_of_slice (ks t) 8.
Proof. intros H. unfold tbytes. rewrite H. reflexivity. Qed.

Lemma tuple_of_link t more :
  kt_wf t = true -> kl t = 9 -> more <> [] -> tuple_of_key (bytes_of_slice (ks t) 8 ++ more) = t.
Proof.
  intros Hw Hl Hm. apply kt_wf_spec in Hw. destruct Hw as (_ & Hs & _).
  rewrite tuple_long, (slice_bos8 _ _ Hs), <- Hl by (rewrite app_length, bos8_length; destruct more; [contradiction|cbn; lia]).
  destruct t; reflexivity.
Qed.

Lemma skipn_bos8 s more : skipn 8 (bytes_of_slice s 8 ++ more) = more.
Proof. rewrite skipn_app, bos8_length, Nat.sub_diag, skipn_all2 by (rewrite bos8_length; lia). reflexivity. Qed.

Lemma slice_inj n a b : bytes a -> bytes b -> length a = length b -> (length a <= n)%nat ->
  slice_of_bytes a n = slice_of_bytes b n -> a = b.
Proof.
  (* with equal slices and equal lengths within the slice, [lex_slice] makes both comparisons false *)
  intros Ha Hb Hl Hn E.
  assert (klen n a = klen n b /\ klen n b <> N.of_nat n + 1) as [Ek Hk].
  { unfold klen. rewrite Hl. destruct (N.ltb_spec (N.of_nat n) (N.of_nat (length b))); lia. }
  apply lex_lt_trich; rewrite (lex_slice n) by assumption; rewrite E, Ek; lia.
Qed.

Lemma slice_firstn n : forall k, slice_of_bytes (firstn n k) n = slice_of_bytes k n.
Proof.
  induction n as [|m IH]; intros k; [rewrite !slice_0; reflexivity|].
  destruct k as [|b r]; [reflexivity|]. cbn [firstn slice_of_bytes]. rewrite IH. reflexivity.
Qed.

Lemma slice_firstn_ge n m : forall k, (m <= n)%nat -> slice_of_bytes (firstn n k) m = slice_of_bytes k m.
Proof.
  intros k H. rewrite <- (slice_firstn m (firstn n k)), firstn_firstn, Nat.min_l by exact H.
  apply slice_firstn.
Qed.

(** what KeyDefs says of [memcmp] over the first [m] bytes: dropping the last [n - m] bytes of a
    slice leaves the number of the first [m] bytes of the key *)
Lemma slice_div : forall n m l, bytes l -> (m <= n)%nat ->
  slice_of_bytes l n / 256 ^ N.of_nat (n - m) = slice_of_bytes l m.
Proof.
  induction n as [|n IH]; intros m l Hb Hm.
  - assert (m = 0)%nat as -> by lia. rewrite slice_0. reflexivity.
  - destruct m as [|m].
    + rewrite slice_0, Nat.sub_0_r. apply N.div_small, slice_lt. exact Hb.
    + destruct l as [|x r]; [rewrite !slice_nil; apply N.div_0_l, pow256_nz|].
      cbn [slice_of_bytes]. inversion Hb; subst. change (S n - S m)%nat with (n - m)%nat.
      rewrite (pow256_split n (n - m)) by lia. replace (n - (n - m))%nat with m by lia.
      rewrite N.mul_assoc, N.div_add_l by apply pow256_nz. rewrite IH by (assumption || lia). reflexivity.
Qed.

Lemma slice_shiftr l m : bytes l -> (m <= 8)%nat ->
  N.shiftr (slice_of_bytes l 8) (8 * (8 - N.of_nat m)) = slice_of_bytes l m.
Proof.
  intros Hb Hm. rewrite N.shiftr_div_pow2, N.pow_mul_r. change (2 ^ 8) with 256.
  replace (8 - N.of_nat m) with (N.of_nat (8 - m)) by lia. apply slice_div; assumption.
Qed.

Lemma tbytes_tuple_short k : bytes k -> (length k <= 8)%nat -> tbytes (tuple_of_key k) = k.
Proof.
  intros Hb Hl. pose proof (tuple_of_key_wf k Hb) as Hw. pose proof (tuple_kl_short k Hl) as Ek.
  pose proof (tbytes_length (tuple_of_key k) ltac:(lia)) as El.
  apply (slice_inj 8); [apply bos_bytes|exact Hb|lia|lia|].
  rewrite slice_tbytes by (try assumption; lia). apply tuple_ks.
Qed.

Lemma bos8_tuple_long k : bytes k -> (8 < length k)%nat ->
  bytes_of_slice (ks (tuple_of_key k)) 8 = firstn 8 k.
Proof.
  intros Hb Hl. assert (length (firstn 8 k) = 8%nat) as E8 by (apply firstn_length_le; lia).
  pose proof (tbytes_tuple_short (firstn 8 k) (Forall_firstn _ _ _ Hb) ltac:(lia)) as E. unfold tbytes in E.
  rewrite tuple_kl_short, E8, tuple_ks, slice_firstn in E by lia. rewrite tuple_ks. exact E.
Qed.

(** *** the path of a key *)
Lemma key_path_fuel : forall f f' k, (length k < f)%nat -> (length k < f')%nat ->
  key_path f k = key_path f' k.
Proof.
  induction f as [|f IH]; intros f' k H1 H2; [lia|]. destruct f' as [|f']; [lia|].
  cbn [key_path]. destruct (N.ltb_spec 8 (N.of_nat (length k))) as [H|H]; [|reflexivity].
  f_equal. apply IH; rewrite skipn_length; lia.
Qed.

Lemma path_short k : (length k <= 8)%nat -> path_of_key k = [tuple_of_key k].
Proof.
  intros H. unfold path_of_key, tuple_of_key. cbn [key_path].
  destruct (N.ltb_spec 8 (N.of_nat (length k))); [lia|reflexivity].
Qed.

Lemma path_long k : (8 < length k)%nat ->
  path_of_key k = tuple_of_key k :: path_of_key (skipn 8 k).
Proof.
  intros H. unfold path_of_key at 1. unfold tuple_of_key. cbn [key_path].
  destruct (N.ltb_spec 8 (N.of_nat (length k))); [|lia].
  f_equal. unfold path_of_key. apply key_path_fuel; rewrite skipn_length; lia.
Qed.

Lemma chunk_ind (P : key -> Prop) :
  (forall k, (length k <= 8)%nat -> P k) -> (forall k, (8 < length k)%nat -> P (skipn 8 k) -> P k) ->
  forall k, P k.
Proof.
  intros Hs Hl k. remember (length k) as n eqn:En. revert k En.
  induction n as [n IH] using lt_wf_ind. intros k ->.
  destruct (Nat.le_gt_cases (length k) 8) as [H|H]; [exact (Hs k H)|].
  apply (Hl k H). apply (IH (length (skipn 8 k))); [rewrite skipn_length; lia|reflexivity].
Qed.

Lemma path_hd k : exists r, path_of_key k = tuple_of_key k :: r.
Proof.
  destruct (Nat.le_gt_cases (length k) 8) as [H|H].
  - exists []. apply path_short. exact H.
  - eexists. apply path_long. exact H.
Qed.

Lemma path_not_nil k : path_of_key k <> [].
Proof. destruct (path_hd k) as [r ->]. discriminate. Qed.

(** [vp ts]: [ts] is the path of some key: every tuple well formed, every tuple but the last a link
    tuple ([kl = 9]), the last one not.  [nz ts]: no tuple of length 0.  Only the empty key has one, as
    its single tuple, so [nz] holds of the tail of every path, and of every path below layer []. *)
Fixpoint vp (ts : list ktuple) : Prop :=
  match ts with
  | [] => False
  | t :: r => kt_wf t = true /\ match r with [] => kl t <= 8 | _ :: _ => kl t = 9 /\ vp r end
  end.
Definition nz (ts : list ktuple) : Prop := Forall (fun t => kl t <> 0) ts.

Lemma nz_hd t r : nz (t :: r) -> kl t <> 0.
Proof. intros H. inversion H; assumption. Qed.
Lemma nz_tl t r : nz (t :: r) -> nz r.
Proof. intros H. inversion H; assumption. Qed.

Lemma bytes_skipn n k : bytes k -> bytes (skipn n k).
Proof. apply Forall_skipn. Qed.

Lemma path_vp_nz k : bytes k ->
  vp (path_of_key k) /\ nz (tl (path_of_key k)) /\ (k <> [] -> nz (path_of_key k)).
Proof.
  induction k as [k H|k H IH] using chunk_ind; intros Hb.
  - rewrite path_short by exact H. cbn [vp tl]. rewrite tuple_kl_short by exact H.
    split; [split; [apply tuple_of_key_wf; exact Hb|lia]|]. split; [constructor|].
    intros X. constructor; [|constructor]. rewrite tuple_kl_short by exact H. destruct k; [contradiction|cbn; lia].
  - rewrite path_long by exact H. destruct (IH (bytes_skipn 8 k Hb)) as (V & _ & Z2).
    assert (nz (path_of_key (skipn 8 k))) as Z.
    { apply Z2. intros X. apply (f_equal (@length N)) in X. rewrite skipn_length in X. cbn in X. lia. }
    assert (nz (tuple_of_key k :: path_of_key (skipn 8 k))) as Z'.
    { constructor; [rewrite tuple_kl_long by exact H; lia|exact Z]. }
    split; [|split; [exact Z|intros _; exact Z']].
    cbn [vp]. split; [apply tuple_of_key_wf; exact Hb|].
    destruct (path_of_key (skipn 8 k)) eqn:E; [exact (False_ind _ V)|].
    split; [apply tuple_kl_long; exact H|exact V].
Qed.

Lemma path_vp k : bytes k -> vp (path_of_key k) /\ nz (tl (path_of_key k)).
Proof. intros H. destruct (path_vp_nz k H) as (A & B & _). split; assumption. Qed.

Lemma kop_cons t ts : kop (t :: ts) = tbytes t ++ kop ts.
Proof. reflexivity. Qed.

Lemma kop_single t : kop [t] = tbytes t.
Proof. apply app_nil_r. Qed.

Theorem kop_path k : bytes k -> kop (path_of_key k) = k.
Proof.
  induction k as [k H|k H IH] using chunk_ind; intros Hb.
  - rewrite path_short, kop_single by exact H. apply tbytes_tuple_short; assumption.
  - rewrite path_long, kop_cons, (IH (bytes_skipn 8 k Hb)) by exact H.
    rewrite tbytes9 by (apply tuple_kl_long; exact H).
    rewrite bos8_tuple_long by assumption. apply firstn_skipn.
Qed.

Lemma kop_bytes ts : bytes (kop ts).
Proof.
  induction ts as [|t ts IH]; [constructor|]. rewrite kop_cons.
  apply Forall_app. split; [apply bos_bytes|exact IH].
Qed.

Lemma tbytes_not_nil t : kl t <> 0 -> tbytes t <> [].
Proof.
  intros H X. apply (f_equal (@length N)) in X. unfold tbytes in X. rewrite bos_length in X. cbn in X. lia.
Qed.

Lemma kop_not_nil t ts : kl t <> 0 -> kop (t :: ts) <> [].
Proof.
  intros H X. rewrite kop_cons in X. apply app_eq_nil in X. destruct X as [X _].
  exact (tbytes_not_nil t H X).
Qed.

Theorem path_kop ts : vp ts -> nz (tl ts) -> path_of_key (kop ts) = ts.
Proof.
  induction ts as [|t ts IH]; intros V Z; [contradiction|].
  destruct V as [Hw V]. destruct ts as [|t2 ts].
  - rewrite kop_single, path_short by (pose proof (tbytes_length t V); lia).
    rewrite tuple_of_tbytes by assumption. reflexivity.
  - destruct V as [H9 V]. cbn [tl] in Z. pose proof (kop_not_nil t2 ts (nz_hd _ _ Z)) as Hne.
    rewrite kop_cons, (tbytes9 t H9), path_long, skipn_bos8, tuple_of_link; try assumption.
    2: rewrite app_length, bos8_length; destruct (kop (t2 :: ts)); [contradiction|cbn [length]; lia].
    f_equal. apply IH; [exact V|exact (nz_tl _ _ Z)].
Qed.

(** ** the keys under a tuple
    [heads t r]: [r] is a key whose first tuple is [t].  Every key that an entry with key tuple [t]
    contributes to the contents of its layer is such an [r] behind the bytes of the layers above. *)
Definition heads (t : ktuple) (r : key) : Prop := bytes r /\ tuple_of_key r = t.

Lemma heads_key r : bytes r -> heads (tuple_of_key r) r.
Proof. intros H. split; [exact H|reflexivity]. Qed.

Lemma heads_value t : kt_wf t = true -> kl t <= 8 -> heads t (tbytes t).
Proof. intros Hw Hl. split; [apply bos_bytes|apply tuple_of_tbytes; assumption]. Qed.

Lemma heads_link t r :
  kt_wf t = true -> kl t = 9 -> bytes r -> r <> [] -> heads t (bytes_of_slice (ks t) 8 ++ r).
Proof.
  intros Hw H9 Hb Hne. split; [apply Forall_app; split; [apply bos_bytes|exact Hb]|apply tuple_of_link; assumption].
Qed.

Lemma heads_link_inv t r : kl t = 9 -> heads t r ->
  r = bytes_of_slice (ks t) 8 ++ skipn 8 r /\ bytes (skipn 8 r) /\ skipn 8 r <> [].
Proof.
  intros H9 [Hb <-].
  assert (8 < length r)%nat as Hlen.
  { destruct (Nat.le_gt_cases (length r) 8) as [H|H]; [|exact H]. rewrite (tuple_kl_short r H) in H9. lia. }
  split; [|split].
  - rewrite (bos8_tuple_long r Hb Hlen). symmetry. apply firstn_skipn.
  - apply bytes_skipn. exact Hb.
  - intros X. apply (f_equal (@length N)) in X. rewrite skipn_length in X. cbn [length] in X. lia.
Qed.

Corollary heads_link_shape t r : kl t = 9 -> heads t r ->
  exists r', r = bytes_of_slice (ks t) 8 ++ r' /\ bytes r' /\ r' <> [].
Proof. intros H9 H. exists (skipn 8 r). exact (heads_link_inv t r H9 H). Qed.

(** [lex_tuple] read on heads: the order of two keys is the order of their first tuples, and below
    equal links the order of what follows *)
Theorem heads_lex t u a b : heads t a -> heads u b ->
  lex_lt a b = canon_lt t u || (kt_eq t u && (kl t =? 9) && lex_lt (skipn 8 a) (skipn 8 b)).
Proof. intros [Ha <-] [Hb <-]. apply lex_tuple; assumption. Qed.

Corollary heads_lt t u a b : heads t a -> heads u b -> canon_lt t u = true -> lex_lt a b = true.
Proof. intros Ha Hb H. rewrite (heads_lex t u a b Ha Hb), H. reflexivity. Qed.

(** "met earlier" by a scan of either direction, for key tuples and for keys (ListAux.in_dir) *)
Definition dir_lt (rtl : bool) (a b : ktuple) : bool := if rtl then canon_lt b a else canon_lt a b.
Definition dir_lex (rtl : bool) (a b : key) : bool := if rtl then lex_lt b a else lex_lt a b.

Lemma dir_lt_irrefl rtl a : dir_lt rtl a a = false.
Proof. destruct rtl; apply canon_lt_irrefl. Qed.

Lemma dir_lt_trans rtl a b c : dir_lt rtl a b = true -> dir_lt rtl b c = true -> dir_lt rtl a c = true.
Proof. destruct rtl; intros H1 H2; [exact (canon_lt_trans c b a H2 H1)|exact (canon_lt_trans a b c H1 H2)]. Qed.

Lemma dir_lt_asym rtl a b : dir_lt rtl a b = true -> dir_lt rtl b a = false.
Proof. destruct rtl; apply canon_lt_asym. Qed.

Lemma dir_lt_trich rtl a b : dir_lt rtl a b = false -> dir_lt rtl b a = false -> a = b.
Proof. destruct rtl; intros H1 H2; [exact (canon_lt_trich a b H2 H1)|exact (canon_lt_trich a b H1 H2)]. Qed.

Lemma dir_lt_cases rtl a b : dir_lt rtl a b = true \/ a = b \/ dir_lt rtl b a = true.
Proof.
  destruct (dir_lt rtl a b) eqn:E1; [left; reflexivity|]. right.
  destruct (dir_lt rtl b a) eqn:E2; [right; reflexivity|]. left. exact (dir_lt_trich rtl a b E1 E2).
Qed.

Lemma dir_lt_neq rtl a b : dir_lt rtl a b = true -> a <> b.
Proof. intros H E. rewrite E, dir_lt_irrefl in H. discriminate. Qed.

Lemma dir_lt_total rtl a b : a <> b -> dir_lt rtl a b = negb (dir_lt rtl b a).
Proof.
  intros Hne. destruct (dir_lt_cases rtl a b) as [H|[H|H]]; [|contradiction|]; rewrite H, (dir_lt_asym _ _ _ H); reflexivity.
Qed.

Lemma dir_lex_irrefl rtl a : dir_lex rtl a a = false.
Proof. destruct rtl; apply lex_lt_irrefl. Qed.

Lemma dir_lex_asym rtl a b : dir_lex rtl a b = true -> dir_lex rtl b a = false.
Proof. destruct rtl; apply lex_lt_asym. Qed.

Lemma dir_lex_app rtl p a b : dir_lex rtl (p ++ a) (p ++ b) = dir_lex rtl a b.
Proof. destruct rtl; apply lex_lt_app. Qed.

Lemma dir_heads_lt rtl t u a b : heads t a -> heads u b -> dir_lt rtl t u = true -> dir_lex rtl a b = true.
Proof. intros Ha Hb H. destruct rtl; [exact (heads_lt u t b a Hb Ha H)|exact (heads_lt t u a b Ha Hb H)]. Qed.

Lemma dir_lex_tuple_short rtl a b :
  bytes a -> bytes b -> (length a <= 8 \/ length b <= 8)%nat ->
  dir_lex rtl a b = dir_lt rtl (tuple_of_key a) (tuple_of_key b).
Proof. intros Ha Hb Hl. destruct rtl; apply lex_tuple_short; try assumption. apply or_comm. exact Hl. Qed.

Lemma dir_lex_tuple_neq rtl a b :
  bytes a -> bytes b -> tuple_of_key a <> tuple_of_key b ->
  dir_lex rtl a b = dir_lt rtl (tuple_of_key a) (tuple_of_key b).
Proof. intros Ha Hb Hne. destruct rtl; apply lex_tuple_neq; try assumption. apply not_eq_sym. exact Hne. Qed.

Lemma wf8 t : kt_wf t = true -> kt_wf {| ks := ks t; kl := 8 |} = true.
Proof.
  intros H. apply kt_wf_spec in H. destruct H as (H1 & H2 & H3). apply kt_wf_spec. cbn [ks kl].
  split; [lia|]. split; [exact H2|]. intros X. lia.
Qed.

(** the bytes of a tuple, also of a link (then a proper prefix of the keys below it), lie before
    every key under a greater tuple: the eight bytes of a link head the tuple of length 8, which
    is below the link *)
Lemma tbytes_lt t u r : kt_wf t = true -> canon_lt t u = true -> heads u r -> lex_lt (tbytes t) r = true.
Proof.
  intros Hw Hlt Hr. pose proof (wf_len_le t Hw) as H9.
  destruct (N.le_gt_cases (kl t) 8) as [H8|H8]; [exact (heads_lt t u _ r (heads_value t Hw H8) Hr Hlt)|].
  rewrite tbytes9 by lia.
  apply (heads_lt {| ks := ks t; kl := 8 |} u _ r (heads_value _ (wf8 t Hw) (N.le_refl 8)) Hr).
  eapply canon_lt_trans; [|exact Hlt]. unfold canon_lt. cbn [ks kl]. lia.
Qed.
