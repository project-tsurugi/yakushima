(** * C09 -- operations always complete: no deadlock.  An ordered-acquisition
    discipline admits no deadlock, for any number of threads and locks and any
    rank function.  That no lock is left held is part of
    C01_border_lock_and_representation (Properties_C01.v), for the border model.
    Left out, and explored on the real code only (see DESIGN.md): termination
    of the optimistic retry loops under fair schedules, and conformance of
    every writer path of the full tree to the discipline. *)
From Coq Require Import List Bool PeanoNat.
From Yk Require Import LockOrderDefs LockOrderProofs.
Import ListNotations.

Theorem C09_ordered_no_deadlock : forall rank (ts : list lthread),
  ts <> [] -> Forall (ordered rank) ts -> awaited_held ts ->
  exists t, In t ts /\ waits t = None.
Proof. exact ordered_no_deadlock. Qed.
Print Assumptions C09_ordered_no_deadlock.

(** the same read as a negation: it cannot be that every thread waits *)
Theorem C09_not_all_waiting : forall rank (ts : list lthread),
  ts <> [] -> Forall (ordered rank) ts -> awaited_held ts ->
  ~ (forall t, In t ts -> waits t <> None).
Proof.
  intros rank ts Hne Ho Hh Hall.
  destruct (ordered_no_deadlock rank ts Hne Ho Hh) as (t & Hin & Hw). apply (Hall t Hin Hw).
Qed.
Print Assumptions C09_not_all_waiting.

Theorem C09_conformance_check_sound : forall rank t, orderedb rank t = true <-> ordered rank t.
Proof. exact orderedb_spec. Qed.
Print Assumptions C09_conformance_check_sound.

(** non-vacuity: child -> previous sibling -> parent -> root lock, three threads *)
Example C09_nonvacuous :
  let rank := fun l => l in
  let ts := [ {| held := [1; 2]; waits := Some 5 |};      (* holds a border and its prev, waits for the parent *)
              {| held := [5]; waits := Some 9 |};          (* holds the parent, waits for the root lock *)
              {| held := [9]; waits := None |} ] in         (* holds the root lock, running *)
  Forall (ordered rank) ts /\ awaited_held ts /\ forallb (orderedb rank) ts = true.
Proof.
  cbv zeta. split; [|split].
  - repeat constructor.
  - intros t l Hin Hw. cbn in Hin. destruct Hin as [<-|[<-|[<-|[]]]]; cbn in Hw; try discriminate;
      injection Hw as <-.
    + eexists. split; [right; left; reflexivity|]. cbn. auto.
    + eexists. split; [right; right; left; reflexivity|]. cbn. auto.
  - reflexivity.
Qed.
