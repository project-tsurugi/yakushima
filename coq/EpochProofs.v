(** * EpochProofs: safety of epoch-based reclamation for the repaired enter
    protocol ([no_early_free], by an invariant with an epoch part and an object
    part) and refutation of the original one by a concrete run. *)
From Coq Require Import Lia.
From Yk Require Import ListAux EpochDefs.
Local Open Scope N_scope.

(** ** [upd] *)
Lemma upd_same {A} (f : nat -> A) i v : upd f i v i = v.
Proof. unfold upd. now rewrite Nat.eqb_refl. Qed.

Lemma upd_other {A} (f : nat -> A) i v j : j <> i -> upd f i v j = f j.
Proof. unfold upd. intros H. destruct (Nat.eqb_spec j i); congruence. Qed.

Lemma upd_forall {A} (P : nat -> A -> Prop) f i v :
  (forall j, P j (f j)) -> P i v -> forall j, P j (upd f i v j).
Proof.
  intros Hf Hv j. unfold upd. destruct (Nat.eqb_spec j i) as [->|_]; [exact Hv | apply Hf].
Qed.

(** ** [step] as a relation

    [Step n s s']: what one step of the repaired protocol does, thread by
    thread; each constructor has the guard of one path through [step true n] as
    its hypotheses and gives [s'] as [s] with some fields replaced.  [step_Step]
    is the one place where [step] is unfolded; the invariant is carried along
    the constructors ([step_inv]). *)

(** enter and leave: the moves of one worker on its slot, [E] being the global
    epoch at that moment *)
Inductive slot_next (n : nat) (E : N) (i : nat) (a : slot) : slot -> Prop :=
| sn_claim : (i < n)%nat -> ss a = SFree ->
    slot_next n E i a {| ss := SClaimed; sbegin := sbegin a; sinst := S (sinst a) |}
| sn_read : ss a = SClaimed -> slot_next n E i a (set_ss a (SRead E))
| sn_publish e : ss a = SRead e ->
    slot_next n E i a {| ss := SPub e; sbegin := e; sinst := sinst a |}
| sn_recheck e : ss a = SPub e ->
    slot_next n E i a (set_ss a (if E =? e then SActive else SClaimed))
| sn_leave1 : ss a = SActive ->
    slot_next n E i a {| ss := SLeft1; sbegin := 0; sinst := sinst a |}
| sn_leave2 : ss a = SLeft1 -> slot_next n E i a (set_ss a SFree).

(** the running minimum of the epoch thread; [None], UINT64_MAX in the code, stands for the epoch *)
Definition pv (E : N) (m : option N) : N := match m with Some x => x | None => E end.

Inductive Step (n : nat) (s : st) : st -> Prop :=
(* thread_info_table.h assign / leave, one access to the slot per step; a retired object joins a
   container of its session with the begin epoch as tag *)
| W_slot i x : slot_next n (gE s) i (slots s i) x -> Step n s (set_slots s (upd (slots s) i x))
| W_retire i k o : ss (slots s i) = SActive -> ost s o = Linked -> (k < 2)%nat ->
    Step n s {| gE := gE s; gG := gG s; slots := slots s;
                queue := upd (queue s) (2 * i + k)
                             (queue s (2 * i + k)%nat ++ [(sbegin (slots s i), o)]);
                cache := cache s; ost := upd (ost s) o Retired;
                prot := upd (prot s) o (active_sessions n (slots s)); ept := ept s; gct := gct s |}
(* epoch_thread: load the epoch; go on once every begin epoch is 0 or the epoch loaded, else
   sleep and start again *)
| E_load_epoch : ept s = ESleep -> Step n s (set_ept s (EVerify (gE s) 0))
| E_verify_slot cur j : ept s = EVerify cur j -> j <> n ->
    sbegin (slots s j) = 0 \/ sbegin (slots s j) = cur -> Step n s (set_ept s (EVerify cur (S j)))
| E_verify_fail cur j : ept s = EVerify cur j -> j <> n ->
    sbegin (slots s j) <> 0 -> sbegin (slots s j) <> cur -> Step n s (set_ept s ESleep)
| E_verified cur : ept s = EVerify cur n -> Step n s (set_ept s EInc)
| E_epoch_inc : ept s = EInc ->
    Step n s {| gE := gE s + 1; gG := gG s; slots := slots s; queue := queue s; cache := cache s;
                ost := ost s; prot := prot s; ept := EMin 0 None; gct := gct s |}
(* the minimum of the begin epochs that are not 0, less one, becomes the gc epoch *)
| E_min_slot j m : ept s = EMin j m -> j <> n ->
    Step n s (set_ept s (EMin (S j) (if sbegin (slots s j) =? 0 then m
                                     else Some match m with
                                               | Some x => N.min x (sbegin (slots s j))
                                               | None => sbegin (slots s j)
                                               end)))
| E_min_done m : ept s = EMin n m ->
    Step n s (set_ept s (EPub (pv (gE s) m - 1)))
| E_set_gc_epoch v : ept s = EPub v ->
    Step n s {| gE := gE s; gG := v; slots := slots s; queue := queue s; cache := cache s;
                ost := ost s; prot := prot s; ept := ESleep; gct := gct s |}
(* gc_node / gc_value on container [c]: load the gc epoch; the cached entry, then the queue head
   first, is freed up to the first entry whose tag is not below it, which stays in the cache *)
| G_load_gc_epoch c : gct s = GIdle c -> Step n s (set_gct s (GCache c (gG s)))
| G_cache_empty c g : gct s = GCache c g -> cache s c = None -> Step n s (set_gct s (GLoop c g))
| G_cache_keep c g t o : gct s = GCache c g -> cache s c = Some (t, o) -> g <= t ->
    Step n s (set_gct s (GIdle (next_container n c)))
| G_cache_free c g t o : gct s = GCache c g -> cache s c = Some (t, o) -> t < g ->
    Step n s {| gE := gE s; gG := gG s; slots := slots s; queue := queue s;
                cache := upd (cache s) c None; ost := free_obj s o; prot := prot s;
                ept := ept s; gct := GLoop c g |}
| G_queue_empty c g : gct s = GLoop c g -> queue s c = [] ->
    Step n s (set_gct s (GIdle (next_container n c)))
| G_pop_keep c g t o rest : gct s = GLoop c g -> queue s c = (t, o) :: rest -> g <= t ->
    Step n s {| gE := gE s; gG := gG s; slots := slots s; queue := upd (queue s) c rest;
                cache := upd (cache s) c (Some (t, o)); ost := ost s; prot := prot s;
                ept := ept s; gct := GIdle (next_container n c) |}
| G_pop_free c g t o rest : gct s = GLoop c g -> queue s c = (t, o) :: rest -> t < g ->
    Step n s {| gE := gE s; gG := gG s; slots := slots s; queue := upd (queue s) c rest;
                cache := cache s; ost := free_obj s o; prot := prot s;
                ept := ept s; gct := GLoop c g |}.

Lemma step_Step n s e s' : step true n s e = Some s' -> Step n s s'.
Proof.
  destruct e as [i|i|i|i|i|i k o|i|i| | | | | | | |]; cbn [step negb].
  (* Claim .. Recheck, Leave1, Leave2: the state of the slot selects the move of [slot_next] *)
  1-4, 7-8:
    try (destruct (Nat.ltb_spec i n); cbn [negb]; [|discriminate]);
    destruct (ss (slots s i)) eqn:Hss; try discriminate; intros [= <-]; apply W_slot;
    now constructor.
  - (* Confirm is not an event of the repaired protocol *) discriminate.
  - (* Retire *)
    destruct (ss (slots s i)) eqn:Hss; try discriminate.
    destruct (ost s o) eqn:Ho; try discriminate.
    destruct (Nat.ltb_spec k 2); cbn [negb]; [|discriminate]. intros [= <-]. now apply W_retire.
  - (* EStart *) destruct (ept s) eqn:Hpc; try discriminate. intros [= <-]. now apply E_load_epoch.
  - (* EVer *)
    destruct (ept s) as [|cur j| | |] eqn:Hpc; try discriminate.
    destruct (Nat.eqb_spec j n) as [->|Hj]; [intros [= <-]; now apply E_verified with cur|].
    destruct (N.eqb_spec (sbegin (slots s j)) 0) as [Hz|Hz];
      [|destruct (N.eqb_spec (sbegin (slots s j)) cur) as [Hc|Hc]]; intros [= <-];
      [apply E_verify_slot; auto..|now apply E_verify_fail with cur j].
  - (* EIncr *) destruct (ept s) eqn:Hpc; try discriminate. intros [= <-]. now apply E_epoch_inc.
  - (* EMinStep *)
    destruct (ept s) as [| | |j m|] eqn:Hpc; try discriminate.
    destruct (Nat.eqb_spec j n) as [->|Hj]; intros [= <-];
      [destruct m; exact (E_min_done _ _ _ Hpc)|now apply E_min_slot].
  - (* EPublish *) destruct (ept s) eqn:Hpc; try discriminate. intros [= <-]. now apply E_set_gc_epoch.
  - (* GStart *) destruct (gct s) eqn:Hpc; try discriminate. intros [= <-]. now apply G_load_gc_epoch.
  - (* GCacheStep *)
    destruct (gct s) as [|c g|] eqn:Hpc; try discriminate.
    destruct (cache s c) as [[t o]|] eqn:Hca; [destruct (N.leb_spec g t)|]; intros [= <-];
      [now apply G_cache_keep with g t o|now apply G_cache_free with t|now apply G_cache_empty].
  - (* GLoopStep *)
    destruct (gct s) as [| |c g] eqn:Hpc; try discriminate.
    destruct (queue s c) as [|[t o] rest] eqn:Hq; [|destruct (N.leb_spec g t)]; intros [= <-];
      [now apply G_queue_empty with g|now apply G_pop_keep with g|now apply G_pop_free with t].
Qed.

(** ** the invariant, epoch part

    The epoch thread increments [E] only after it has seen every active session
    with begin epoch [E] ([EVerify], [EInc]), and a session becomes active with
    the current epoch as its begin epoch: so [E] is never more than one ahead
    of an active session, the [SActive] clause of [slot_inv]. *)
Definition slot_inv (n : nat) (E : N) (i : nat) (x : slot) : Prop :=
  sbegin x <= E /\ (ss x <> SFree -> (i < n)%nat) /\
  match ss x with
  | SFree | SLeft1 => sbegin x = 0
  | SClaimed => True
  | SRead e => e <= E
  | SPub e => sbegin x = e
  | SActive => E <= sbegin x + 1 /\ 1 <= sbegin x
  end.

(** [v]: a gc-epoch value that has been computed (published or not, or already
    loaded by the gc thread) *)
Definition inflight (E : N) (sl : nat -> slot) (v : N) : Prop :=
  v < E /\ forall i, ss (sl i) = SActive -> v < sbegin (sl i).

Definition ept_inv (E : N) (sl : nat -> slot) (ep : epc) : Prop :=
  match ep with
  | ESleep => True
  | EVerify cur j =>
      cur = E /\ forall i, (i < j)%nat -> ss (sl i) = SActive -> sbegin (sl i) = E
  | EInc => forall i, ss (sl i) = SActive -> sbegin (sl i) = E
  | EMin j m =>
      (1 <= pv E m /\ pv E m <= E) /\
      forall i, (i < j)%nat -> ss (sl i) = SActive -> pv E m <= sbegin (sl i)
  | EPub v => inflight E sl v
  end.

Definition gct_inv (E : N) (sl : nat -> slot) (ca : nat -> option (N * nat)) (gc : gpc) : Prop :=
  match gc with
  | GIdle _ => True
  | GCache _ g => inflight E sl g
  | GLoop c g => inflight E sl g /\ ca c = None
  end.

Record InvA (n : nat) (E G : N) (sl : nat -> slot) (ep : epc) : Prop := {
  E_pos : 1 <= E;
  slots_ok : forall i, slot_inv n E i (sl i);
  ept_ok : ept_inv E sl ep;
  gG_ok : inflight E sl G }.

(** ** per-slot view of [has_left] *)
Definition gone (sl : slot) (k : nat) : bool :=
  negb (Nat.eqb (sinst sl) k) || match ss sl with SLeft1 | SFree => true | _ => false end.

Lemma has_left_gone s x : has_left s x = gone (slots s (fst x)) (snd x).
Proof. reflexivity. Qed.

(** a recorded instance [k] of a slot is either an old one, or the current one
    and then the session has been confirmed active *)
Definition pok (sl : slot) (k : nat) : Prop :=
  (k < sinst sl)%nat \/
  (k = sinst sl /\ (ss sl = SActive \/ ss sl = SLeft1 \/ ss sl = SFree)).

Lemma pok_not_gone sl k : pok sl k -> gone sl k = false -> ss sl = SActive /\ sinst sl = k.
Proof.
  unfold gone. intros [H|[-> H]] G.
  - destruct (Nat.eqb_spec (sinst sl) k); [lia|discriminate].
  - rewrite Nat.eqb_refl in G. cbn [negb orb] in G.
    destruct H as [H|[H|H]]; rewrite H in G; try discriminate. auto.
Qed.

Lemma pok_le sl k : pok sl k -> (k <= sinst sl)%nat.
Proof. intros [H|[-> _]]; lia. Qed.

(** a worker's move either ends the current instance's stay or happens before
    its confirmation *)
Definition slot_tr (a b : slot) : Prop :=
  forall k, pok a k -> pok b k /\ gone b k = true.

Lemma slot_tr_later a b : (forall k, pok a k -> (k < sinst b)%nat) -> slot_tr a b.
Proof.
  intros H k Hk. specialize (H k Hk). split; [left; exact H|].
  unfold gone. destruct (Nat.eqb_spec (sinst b) k); [lia|reflexivity].
Qed.

Lemma slot_tr_left a b :
  sinst b = sinst a -> ss b = SLeft1 \/ ss b = SFree -> slot_tr a b.
Proof.
  intros Hi Hs k Hk. split.
  - apply pok_le in Hk. unfold pok. rewrite Hi.
    destruct (Nat.eq_dec k (sinst a)); [right; split; [assumption|right; exact Hs] | left; lia].
  - unfold gone. destruct Hs as [-> | ->]; apply orb_true_r.
Qed.

(** ** the invariant, object part

    The tag [t] of a container entry is the begin epoch of the session that
    retired the object.  [cont_ok]: a session recorded for the object and still
    inside began no later than [t + 1].  It holds when the entry is made
    because, by [slot_inv], every begin epoch is [<= E] and [E <= t + 1] for
    the active retirer; it is what lets the gc thread free an entry whose tag
    is below a gc epoch that is itself below every active begin epoch. *)
Definition contl (q : nat -> list (N * nat)) (ca : nat -> option (N * nat)) (c : nat)
  : list (N * nat) :=
  match ca c with Some x => [x] | None => [] end ++ q c.

Record InvB (sl : nat -> slot) (ct : nat -> list (N * nat)) (os : nat -> ostatus)
       (pr : nat -> list sess) : Prop := {
  cont_ok : forall c t o, In (t, o) (ct c) ->
      os o = Retired /\
      forall i k, In (i, k) (pr o) -> gone (sl i) k = false -> sbegin (sl i) <= t + 1;
  cont_nodup : forall c, NoDup (map snd (ct c));
  cont_disj : forall c c' t t' o, c <> c' -> In (t, o) (ct c) -> In (t', o) (ct c') -> False;
  prot_ok : forall o i k, In (i, k) (pr o) -> pok (sl i) k;
  freed_ok : forall o, os o = Freed -> forall i k, In (i, k) (pr o) -> gone (sl i) k = true;
  nodf : forall o, os o <> DoubleFreed }.

Definition Inv (n : nat) (s : st) : Prop :=
  InvA n (gE s) (gG s) (slots s) (ept s) /\
  gct_inv (gE s) (slots s) (cache s) (gct s) /\
  InvB (slots s) (contl (queue s) (cache s)) (ost s) (prot s).

Lemma Inv_intro n E G sl q ca os pr ep gc :
  InvA n E G sl ep -> gct_inv E sl ca gc -> InvB sl (contl q ca) os pr ->
  Inv n {| gE := E; gG := G; slots := sl; queue := q; cache := ca; ost := os; prot := pr;
           ept := ep; gct := gc |}.
Proof. intros HA HG HB. exact (conj HA (conj HG HB)). Qed.

Lemma Inv_init n : Inv n init_st.
Proof.
  apply Inv_intro.
  - split; cbn; try lia.
    + intros i. unfold slot_inv. cbn. repeat split; try lia. congruence.
    + split; [lia|]. cbn. discriminate.
  - exact I.
  - split; cbn; try contradiction; try discriminate.
    intros. constructor.
Qed.

(** ** updating one slot: a slot that becomes active does so with the current
    epoch as its begin epoch, which is all the epoch part needs *)
Lemma inflight_upd E sl v i x :
  inflight E sl v -> (ss x = SActive -> sbegin x = E) -> inflight E (upd sl i x) v.
Proof.
  intros [H1 H2] Hx. split; [exact H1|].
  apply (upd_forall (fun _ y => ss y = SActive -> v < sbegin y)); [exact H2|].
  intros Ha. now rewrite (Hx Ha).
Qed.

Lemma inflight_mono E E' sl v : E <= E' -> inflight E sl v -> inflight E' sl v.
Proof. intros HE [H1 H2]. split; [lia|exact H2]. Qed.

Lemma ept_inv_upd E sl ep i x :
  ept_inv E sl ep -> (ss x = SActive -> sbegin x = E) -> ept_inv E (upd sl i x) ep.
Proof.
  intros H Hx. destruct ep as [|cur j| |j m|v]; cbn [ept_inv] in *.
  - exact I.
  - destruct H as [H1 H2]. split; [exact H1|].
    apply (upd_forall (fun a y => (a < j)%nat -> ss y = SActive -> sbegin y = E)); auto.
  - apply (upd_forall (fun _ y => ss y = SActive -> sbegin y = E)); auto.
  - destruct H as [H1 H2]. split; [exact H1|].
    apply (upd_forall (fun a y => (a < j)%nat -> ss y = SActive -> pv E m <= sbegin y));
      [exact H2|].
    intros _ Ha. rewrite (Hx Ha). apply H1.
  - apply inflight_upd; auto.
Qed.

Lemma gct_inv_upd E sl ca gc i x :
  gct_inv E sl ca gc -> (ss x = SActive -> sbegin x = E) -> gct_inv E (upd sl i x) ca gc.
Proof.
  intros H Hx. destruct gc as [c|c g|c g]; cbn [gct_inv] in *.
  - exact I.
  - apply inflight_upd; auto.
  - destruct H. split; auto. apply inflight_upd; auto.
Qed.

Lemma InvA_upd n E G sl ep i x :
  InvA n E G sl ep -> slot_inv n E i x -> (ss x = SActive -> sbegin x = E) ->
  InvA n E G (upd sl i x) ep.
Proof.
  intros [H1 H2 H3 H4] Hs Hx. split.
  - exact H1.
  - apply (upd_forall (slot_inv n E)); assumption.
  - apply ept_inv_upd; auto.
  - apply inflight_upd; auto.
Qed.

Lemma InvB_upd sl ct os pr i x :
  InvB sl ct os pr -> slot_tr (sl i) x -> InvB (upd sl i x) ct os pr.
Proof.
  intros [H1 H2 H3 H4 H5 H6] Htr.
  assert (Hs : forall a k, pok (sl a) k ->
            pok (upd sl i x a) k /\ (gone (upd sl i x a) k = true \/ upd sl i x a = sl a)).
  { apply (upd_forall (fun a y => forall k, pok (sl a) k ->
                                            pok y k /\ (gone y k = true \/ y = sl a))).
    - intros a k Hk. split; [exact Hk | right; reflexivity].
    - intros k Hk. split; [apply Htr, Hk | left; apply Htr, Hk]. }
  split; [|exact H2|exact H3| | |exact H6].
  - intros c t o Hin. destruct (H1 c t o Hin) as [Hr Hp]. split; [exact Hr|].
    intros a k Hk Hg. destruct (Hs a k (H4 _ _ _ Hk)) as [_ [Hg'|He]]; [congruence|].
    rewrite He in *. apply (Hp _ _ Hk Hg).
  - intros o a k Hk. apply Hs, (H4 _ _ _ Hk).
  - intros o Ho a k Hk. destruct (Hs a k (H4 _ _ _ Hk)) as [_ [Hg|He]]; [exact Hg|].
    rewrite He. apply (H5 _ Ho _ _ Hk).
Qed.

Lemma Inv_set_ept n s ep :
  Inv n s -> ept_inv (gE s) (slots s) ep -> Inv n (set_ept s ep).
Proof.
  intros ([H1 H2 H3 H4] & HG & HB) He. apply Inv_intro; auto. split; auto.
Qed.

Lemma Inv_set_gct n s gc :
  Inv n s -> gct_inv (gE s) (slots s) (cache s) gc -> Inv n (set_gct s gc).
Proof. intros (HA & HG & HB) He. apply Inv_intro; auto. Qed.

(** ** incrementing the epoch: at [EInc] every active slot has the epoch as its
    begin epoch, so it is one behind afterwards, which [slot_inv] allows *)
Lemma slot_inv_incr n E i x :
  slot_inv n E i x -> (ss x = SActive -> sbegin x = E) -> slot_inv n (E + 1) i x.
Proof.
  intros (Ha & Hb & Hc) Hx. repeat split; [lia | exact Hb |].
  destruct (ss x); try exact Hc; [lia|]. rewrite (Hx eq_refl). lia.
Qed.

Lemma gct_inv_mono E E' sl ca gc : E <= E' -> gct_inv E sl ca gc -> gct_inv E' sl ca gc.
Proof.
  intros HE. destruct gc; cbn [gct_inv]; [trivial | apply inflight_mono, HE |].
  intros [H1 H2]. split; [apply (inflight_mono _ _ _ _ HE H1) | exact H2].
Qed.

(** ** a move of a worker on its slot keeps both parts *)
Lemma slot_next_inv n E i a x :
  1 <= E -> slot_inv n E i a -> slot_next n E i a x ->
  slot_inv n E i x /\ (ss x = SActive -> sbegin x = E).
Proof.
  intros HE (Hb & Hn & Hm) Hx.
  destruct Hx as [Hi H|H|e H|e H|H|H]; rewrite H in Hm, Hn; unfold slot_inv;
    cbn [ss sbegin sinst set_ss].
  - repeat split; [exact Hb | trivial | discriminate].
  - repeat split; [exact Hb | intros _; apply Hn; discriminate | apply N.le_refl | discriminate].
  - repeat split; [exact Hm | intros _; apply Hn; discriminate | discriminate].
  - destruct (N.eqb_spec E e) as [->|Hne].
    + rewrite Hm.
      repeat split; [apply N.le_refl | intros _; apply Hn; discriminate | lia | exact HE].
    + repeat split; [exact Hb | intros _; apply Hn; discriminate | discriminate].
  - repeat split; [apply N.le_0_l | intros _; apply Hn; discriminate | discriminate].
  - repeat split; [exact Hb | intros Hf; now elim Hf | exact Hm | discriminate].
Qed.

Lemma slot_next_tr n E i a x : slot_next n E i a x -> slot_tr a x.
Proof.
  assert (Hlt : forall k, pok a k -> ss a <> SActive -> ss a <> SLeft1 -> ss a <> SFree ->
                          (k < sinst a)%nat).
  { intros k [Hk|[_ [Hs|[Hs|Hs]]]]; [trivial|contradiction..]. }
  destruct 1 as [_ H|H|e H|e H|H|H].
  (* between claim and confirmation the current instance is not yet recorded *)
  2-4: apply slot_tr_later; intros k Hk; apply (Hlt k Hk); rewrite H; discriminate.
  - apply slot_tr_later. intros k Hk. apply pok_le in Hk. cbn [sinst]. lia.
  - apply slot_tr_left; [reflexivity | left; reflexivity].
  - apply slot_tr_left; [reflexivity | right; reflexivity].
Qed.

Lemma Inv_slot_next n s i x :
  Inv n s -> slot_next n (gE s) i (slots s i) x -> Inv n (set_slots s (upd (slots s) i x)).
Proof.
  intros (HA & HG & HB) Hx.
  destruct (slot_next_inv _ _ _ _ _ (E_pos _ _ _ _ _ HA) (slots_ok _ _ _ _ _ HA i) Hx)
    as [Hs Ha].
  apply Inv_intro.
  - apply InvA_upd; assumption.
  - apply gct_inv_upd; assumption.
  - apply InvB_upd; [assumption | apply (slot_next_tr _ _ _ _ _ Hx)].
Qed.

(** ** container updates *)
Lemma contl_upd_queue q ca c l c' :
  contl (upd q c l) ca c' =
  upd (contl q ca) c (match ca c with Some x => [x] | None => [] end ++ l) c'.
Proof. unfold contl, upd. destruct (Nat.eqb_spec c' c) as [->|]; reflexivity. Qed.

Lemma contl_upd_cache q ca c x c' :
  contl q (upd ca c x) c' =
  upd (contl q ca) c (match x with Some y => [y] | None => [] end ++ q c) c'.
Proof. unfold contl, upd. destruct (Nat.eqb_spec c' c) as [->|]; reflexivity. Qed.

Lemma InvB_ext sl ct ct' os pr :
  (forall c, ct' c = ct c) -> InvB sl ct os pr -> InvB sl ct' os pr.
Proof.
  intros He [H1 H2 H3 H4 H5 H6]. split; [| | |exact H4|exact H5|exact H6].
  - intros c t o. rewrite He. apply H1.
  - intros c. rewrite He. apply H2.
  - intros c c' t t' o. rewrite !He. apply H3.
Qed.

(** every session recorded for the object has left: one still inside would have
    a begin epoch <= tag + 1 <= the gc epoch loaded *)
Lemma InvB_free_head E sl ct os pr g c t o rest :
  InvB sl ct os pr -> inflight E sl g -> t < g -> ct c = (t, o) :: rest ->
  InvB sl (upd ct c rest) (upd os o (match os o with Retired => Freed | _ => DoubleFreed end)) pr.
Proof.
  intros [H1 H2 H3 H4 H5 H6] [_ Hf] Hg Hc.
  assert (Hhd : In (t, o) (ct c)) by (rewrite Hc; left; reflexivity).
  destruct (H1 c t o Hhd) as [Ho Hp]. rewrite Ho.
  assert (Hsafe : forall i k, In (i, k) (pr o) -> gone (sl i) k = true).
  { intros i k Hk. destruct (gone (sl i) k) eqn:G; [reflexivity|]. exfalso.
    specialize (Hp _ _ Hk G). destruct (pok_not_gone _ _ (H4 _ _ _ Hk) G) as [Ha _].
    specialize (Hf _ Ha). clear - Hp Hf Hg. lia. }
  assert (Hsub : forall c', incl (upd ct c rest c') (ct c')).
  { apply (upd_forall (fun c' l => incl l (ct c'))); [intros c'; apply incl_refl|].
    rewrite Hc. apply incl_tl, incl_refl. }
  pose proof (H2 c) as Hnd. rewrite Hc in Hnd. apply NoDup_cons_iff in Hnd.
  destruct Hnd as [Hnd1 Hnd2].
  assert (Hfresh : forall c' t', ~ In (t', o) (upd ct c rest c')).
  { intros c' t' Hin. destruct (Nat.eq_dec c' c) as [->|Hn].
    - rewrite upd_same in Hin. apply Hnd1, (in_map snd _ _ Hin).
    - apply (H3 c' c t' t o Hn); [apply Hsub, Hin | exact Hhd]. }
  split.
  - intros c' t' o' Hin. assert (o' <> o) by (intros ->; apply (Hfresh _ _ Hin)).
    rewrite upd_other by auto. apply (H1 c'), Hsub, Hin.
  - apply (upd_forall (fun _ l => NoDup (map snd l))); assumption.
  - intros c1 c2 t1 t2 o' Hn Ha Hb. apply (H3 c1 c2 t1 t2 o' Hn); apply Hsub; assumption.
  - exact H4.
  - apply (upd_forall (fun o' y => y = Freed -> forall i k, In (i, k) (pr o') ->
                                                       gone (sl i) k = true)); auto.
  - apply (upd_forall (fun _ y => y <> DoubleFreed)); [exact H6 | discriminate].
Qed.

Lemma in_active n f i k :
  In (i, k) (active_sessions n f) <-> (i < n)%nat /\ ss (f i) = SActive /\ k = sinst (f i).
Proof.
  induction n; cbn [active_sessions].
  - split; [contradiction | lia].
  - rewrite in_app_iff, IHn. split.
    + intros [Hin|Hin].
      * destruct (ss (f n)) eqn:H; cbn in Hin; try contradiction.
        destruct Hin as [[= <- <-]|[]]. auto.
      * destruct Hin as (? & ? & ?). repeat split; auto.
    + intros (Hlt & Ha & ->). destruct (Nat.eq_dec i n) as [->|Hn].
      * left. rewrite Ha. left; auto.
      * right. repeat split; auto. lia.
Qed.

(** the third hypothesis is discharged in [step_inv]: the retirer is active,
    so [E <= t + 1] by the [SActive] clause of [slot_inv], and every begin
    epoch is [<= E] *)
Lemma InvB_retire n sl ct os pr c t o :
  InvB sl ct os pr -> os o = Linked ->
  (forall i, ss (sl i) = SActive -> sbegin (sl i) <= t + 1) ->
  InvB sl (upd ct c (ct c ++ [(t, o)])) (upd os o Retired) (upd pr o (active_sessions n sl)).
Proof.
  intros [H1 H2 H3 H4 H5 H6] Ho Hact.
  assert (Hnot : forall c' t', ~ In (t', o) (ct c')).
  { intros c' t' Hin. destruct (H1 _ _ _ Hin) as [Hr _]. congruence. }
  assert (Hin' : forall c' x, In x (upd ct c (ct c ++ [(t, o)]) c') ->
                              In x (ct c') \/ (c' = c /\ x = (t, o))).
  { apply (upd_forall (fun c' l => forall x, In x l -> In x (ct c') \/ (c' = c /\ x = (t, o))));
      [auto|].
    intros x Hx. apply in_app_or in Hx.
    destruct Hx as [Hx|[<-|[]]]; [left; exact Hx | right; split; reflexivity]. }
  split.
  - intros c' t' o' Hin. destruct (Hin' _ _ Hin) as [Hold|[-> Heq]].
    + destruct (H1 _ _ _ Hold) as [Hr Hp]. assert (o' <> o) by congruence.
      rewrite !upd_other by auto. auto.
    + injection Heq as -> ->. rewrite !upd_same. split; auto.
      intros i k Hk _. apply in_active in Hk. apply Hact, Hk.
  - apply (upd_forall (fun _ l => NoDup (map snd l))); [exact H2|].
    rewrite map_app. apply NoDup_snoc; [apply H2|]. intros Hin. apply in_map_iff in Hin.
    destruct Hin as ([t' o'] & Heq & Hin). cbn in Heq. subst o'. apply (Hnot _ _ Hin).
  - intros c1 c2 t1 t2 o' Hn Ha Hb.
    destruct (Hin' _ _ Ha) as [Ha'|[-> Ea]], (Hin' _ _ Hb) as [Hb'|[-> Eb]].
    + exact (H3 _ _ _ _ _ Hn Ha' Hb').
    + injection Eb as _ ->. exact (Hnot _ _ Ha').
    + injection Ea as _ ->. exact (Hnot _ _ Hb').
    + exact (Hn eq_refl).
  - apply (upd_forall (fun o' l => forall i k, In (i, k) l -> pok (sl i) k)); [exact H4|].
    intros i k Hk. apply in_active in Hk. destruct Hk as (_ & Ha & ->).
    right. split; [reflexivity | left; exact Ha].
  - intros o'. destruct (Nat.eq_dec o' o) as [->|Hn].
    + rewrite upd_same. discriminate.
    + rewrite !upd_other by auto. apply H5.
  - apply (upd_forall (fun _ y => y <> DoubleFreed)); [exact H6 | discriminate].
Qed.

(** ** the invariant is inductive *)
Lemma step_inv n s e s' : Inv n s -> step true n s e = Some s' -> Inv n s'.
Proof.
  intros HI H. apply step_Step in H. pose proof HI as (HA & HG & HB).
  pose proof HA as [HE Hsl Hep HgG].
  destruct H as [i x Hx|i k o Hss Ho _
                |_|cur j Hpc _ Hb|cur j _ _ _ _|cur Hpc|Hpc|j m Hpc _|m Hpc|v Hpc
                |c _|c g Hpc Hca|c g t o _ _ _|c g t o Hpc Hca Hgt
                |c g _ _|c g t o rest Hpc Hq _|c g t o rest Hpc Hq Hgt].
  - (* W_slot *) apply Inv_slot_next; assumption.
  - (* W_retire *)
    apply Inv_intro; auto.
    eapply InvB_ext; [|apply (InvB_retire n _ _ _ _ (2 * i + k)%nat (sbegin (slots s i)) o HB Ho)].
    + intros c'. rewrite contl_upd_queue. unfold contl at 3. now rewrite app_assoc.
    + intros a Ha. pose proof (Hsl i) as (_ & _ & Hi). rewrite Hss in Hi.
      pose proof (Hsl a) as (Hb & _ & _). lia.
  - (* E_load_epoch *) apply Inv_set_ept; auto. split; auto. intros; lia.
  - (* E_verify_slot *)
    rewrite Hpc in Hep. destruct Hep as [-> Hep]. apply Inv_set_ept; auto. split; auto.
    intros i Hi Hact. destruct (Nat.eq_dec i j) as [->|Hne].
    + pose proof (Hsl j) as (_ & _ & Hm). rewrite Hact in Hm. clear - Hm Hb. lia.
    + apply Hep; auto. lia.
  - (* E_verify_fail *) apply Inv_set_ept; auto. exact I.
  - (* E_verified *)
    rewrite Hpc in Hep. destruct Hep as [-> Hep]. apply Inv_set_ept; auto.
    intros i Hact. apply Hep; auto. apply (Hsl i). congruence.
  - (* E_epoch_inc *)
    rewrite Hpc in Hep. assert (HE' : gE s <= gE s + 1) by lia.
    apply Inv_intro; [split | apply (gct_inv_mono _ _ _ _ _ HE' HG) | exact HB].
    + clear - HE. lia.
    + intros i. apply slot_inv_incr; [apply Hsl | apply Hep].
    + cbn. split; [clear; lia|]. intros; lia.
    + apply (inflight_mono _ _ _ _ HE' HgG).
  - (* E_min_slot *)
    rewrite Hpc in Hep. destruct Hep as [Hpv Hep]. apply Inv_set_ept; auto.
    pose proof (Hsl j) as (Hb & _ & Hm).
    destruct (N.eqb_spec (sbegin (slots s j)) 0) as [Hz|Hz].
    + split; auto. intros i Hi Hact. destruct (Nat.eq_dec i j) as [->|Hne].
      * rewrite Hact in Hm. clear - Hm Hz. lia.
      * apply Hep; auto. lia.
    + assert (Hp : pv (gE s) (Some match m with
                                   | Some x => N.min x (sbegin (slots s j))
                                   | None => sbegin (slots s j) end)
                   = N.min (pv (gE s) m) (sbegin (slots s j))).
      { clear - Hb. destruct m; cbn [pv]; lia. }
      cbn [ept_inv]. rewrite Hp. split; [clear - Hpv Hb Hz; lia|]. intros i Hi Hact.
      destruct (Nat.eq_dec i j) as [->|Hne].
      * clear. lia.
      * assert (i < j)%nat by lia. specialize (Hep i H Hact). clear - Hep. lia.
  - (* E_min_done *)
    rewrite Hpc in Hep. destruct Hep as [Hpv Hep]. apply Inv_set_ept; auto.
    split; [clear - Hpv; lia|]. intros i Hact.
    assert (i < n)%nat by (apply (Hsl i); congruence).
    specialize (Hep i H Hact). clear - Hep Hpv. lia.
  - (* E_set_gc_epoch *) rewrite Hpc in Hep. apply Inv_intro; auto. split; auto. exact I.
  - (* G_load_gc_epoch *) apply Inv_set_gct; auto.
  - (* G_cache_empty *) rewrite Hpc in HG. apply Inv_set_gct; auto. split; auto.
  - (* G_cache_keep *) apply Inv_set_gct; auto. exact I.
  - (* G_cache_free *)
    rewrite Hpc in HG. apply Inv_intro; auto.
    + split; auto. apply upd_same.
    + eapply InvB_ext; [intros c'; apply contl_upd_cache|].
      apply (InvB_free_head _ _ _ _ _ _ _ _ _ _ HB HG Hgt). unfold contl. now rewrite Hca.
  - (* G_queue_empty *) apply Inv_set_gct; auto. exact I.
  - (* G_pop_keep *)
    rewrite Hpc in HG. destruct HG as [_ Hc]. apply Inv_intro; auto; [exact I|].
    eapply InvB_ext; [|exact HB]. intros c'.
    rewrite contl_upd_queue, upd_same. unfold contl, upd.
    destruct (Nat.eqb_spec c' c) as [->|]; [now rewrite Hc, Hq | reflexivity].
  - (* G_pop_free *)
    rewrite Hpc in HG. destruct HG as [Hfl Hc]. apply Inv_intro; auto; [split; auto|].
    eapply InvB_ext; [intros c'; rewrite contl_upd_queue, Hc; reflexivity|].
    apply (InvB_free_head _ _ _ _ _ _ _ _ _ _ HB Hfl Hgt). unfold contl. now rewrite Hc, Hq.
Qed.

Lemma Inv_run n tr : forall s s', Inv n s -> run true n s tr = Some s' -> Inv n s'.
Proof.
  apply (run_inv (step true n) (run true n)); [intros s evs; destruct evs; reflexivity|apply step_inv].
Qed.

Lemma reachable_Inv n tr s : run true n init_st tr = Some s -> Inv n s.
Proof. apply Inv_run, Inv_init. Qed.

Lemma Inv_safe n s : Inv n s -> forall o, safe_obj s o = true.
Proof.
  intros (_ & _ & HB) o. unfold safe_obj.
  destruct (ost s o) eqn:Ho; auto.
  - apply forallb_forall. intros [i k] Hin. rewrite has_left_gone.
    eapply (freed_ok _ _ _ _ HB); eauto.
  - exfalso. eapply (nodf _ _ _ _ HB); eauto.
Qed.

Theorem no_early_free :
  forall n tr s, run true n init_st tr = Some s -> forall o, safe_obj s o = true.
Proof. intros n tr s Hr. apply (Inv_safe n), (reachable_Inv n tr s Hr). Qed.

(** ** the original protocol is unsafe *)
Definition bad_trace : list ev :=
  [Claim 0; RdE 0; EStart; EVer; EVer; EIncr; EMinStep; EMinStep; EPublish;
   EStart; EVer; EVer; EIncr; EMinStep; EMinStep; PubB 0; Confirm 0;
   Retire 0 0 0; EPublish; GStart; GCacheStep; GLoopStep]%nat.

Theorem original_enter_refuted :
  exists tr s, run false 1 init_st tr = Some s /\ safe_obj s 0 = false.
Proof. exists bad_trace. eexists. split; vm_compute; reflexivity. Qed.
