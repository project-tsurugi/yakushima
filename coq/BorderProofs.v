(** * BorderProofs: the border-node point-operation protocol of BorderDefs.v,
    with the repaired reader ([fixed = true]), is safe for every number of
    threads and every interleaving.

    One inductive invariant [Inv], preserved by every event of [bstep true]:
    what a step of a thread does is listed once, by role, in the relation
    [does], and [Inv] is carried along its constructors.
    The properties are facts of [Inv] ([inv_done_res], [inv_thr_facts],
    [inv_clear_bound], [inv_overwrite_bound], [inv_storeperm_unbound],
    [inv_mutex], [rep_find_rank]); for runs from the empty node they are put
    together in Properties_C01.v, which also refutes the original reader
    ([fixed = false]) on [refuting_trace]. *)
From Coq Require Import NArith List Bool PeanoNat Lia Sorted.
From Yk Require Import ListAux BorderDefs.
Import ListNotations.
Local Open Scope N_scope.

Definition is_some {A} (x : option A) : bool := match x with Some _ => true | None => false end.
Definition is_none {A} (x : option A) : bool := match x with Some _ => false | None => true end.

Lemma is_some_true {A} (x : option A) : is_some x = true <-> x <> None.
Proof. destruct x; cbn; split; congruence. Qed.

Lemma is_none_true {A} (x : option A) : is_none x = true <-> x = None.
Proof. destruct x; cbn; split; congruence. Qed.

(** ** Sorted permutations *)

Fixpoint ksorted (ks : nat -> N) (l : list nat) : Prop :=
  match l with
  | [] => True
  | a :: r => (forall b, In b r -> ks a < ks b) /\ ksorted ks r
  end.

Lemma ksorted_SS ks l : ksorted ks l <-> StronglySorted (fun a b => ks a < ks b) l.
Proof.
  induction l as [|x l IH]; [split; constructor|]. cbn [ksorted].
  rewrite StronglySorted_cons_iff, Forall_forall, IH. tauto.
Qed.

Lemma ksorted_map ks l : ksorted ks l <-> StronglySorted N.lt (map ks l).
Proof. rewrite ksorted_SS. symmetry. apply StronglySorted_map_iff. Qed.

Lemma ksorted_ext ks ks' l :
  (forall a, In a l -> ks' a = ks a) -> ksorted ks l -> ksorted ks' l.
Proof. intros He. rewrite !ksorted_map, (map_ext_in ks' ks l He). auto. Qed.

Lemma ksorted_inj ks l a b :
  ksorted ks l -> In a l -> In b l -> ks a = ks b -> a = b.
Proof.
  intros H. apply map_NoDup_inj, (StronglySorted_NoDup N.lt); [intros x; lia|]. apply ksorted_map, H.
Qed.

Lemma ksorted_NoDup ks l : ksorted ks l -> NoDup l.
Proof. intros H. apply ksorted_SS, StronglySorted_NoDup in H; [exact H|intros a; lia]. Qed.

Lemma ksorted_nth ks l i j :
  ksorted ks l -> (i < j < length l)%nat -> ks (nth i l 0%nat) < ks (nth j l 0%nat).
Proof. intros H. apply ksorted_SS in H. apply (StronglySorted_nth _ 0%nat l H). Qed.

Lemma ksorted_insert_at ks l r x :
  ksorted ks l ->
  (forall a, In a (firstn r l) -> ks a < ks x) ->
  (forall a, In a (skipn r l) -> ks x < ks a) ->
  ksorted ks (insert_at r x l).
Proof.
  intros H H1 H2. apply ksorted_SS, StronglySorted_insert_at.
  - apply ksorted_SS, H.
  - apply Forall_forall, H1.
  - apply Forall_forall, H2.
Qed.

Lemma ksorted_remove_at ks l r : ksorted ks l -> ksorted ks (remove_at r l).
Proof. rewrite !ksorted_SS. apply StronglySorted_remove_at. Qed.

(** ** [find_rank], [rank_of], [free_slot] *)

Lemma find_rank_none ks pm k r :
  find_rank ks pm k r = None <-> (forall sl, In sl pm -> ks sl <> k).
Proof.
  revert r. induction pm as [|a pm IH]; intros r; cbn [find_rank In].
  - intuition.
  - destruct (N.eqb_spec (ks a) k) as [E|E].
    + split; [discriminate|]. intros H. exfalso. apply (H a); auto.
    + rewrite IH. split.
      * intros H sl [<-|Hs]; auto.
      * intros H sl Hs. apply H; auto.
Qed.

Lemma find_rank_some ks pm k r rk sl :
  find_rank ks pm k r = Some (rk, sl) ->
  exists i, rk = (r + i)%nat /\ (i < length pm)%nat /\ nth i pm 0%nat = sl /\ In sl pm /\ ks sl = k.
Proof.
  revert r. induction pm as [|a pm IH]; intros r; cbn [find_rank]; [discriminate|].
  destruct (N.eqb_spec (ks a) k) as [E|E].
  - intros H. injection H as <- <-. exists 0%nat. cbn [length nth In]. repeat split; auto; lia.
  - intros H. apply IH in H as (i & -> & Hi & Hn & Hin & Hk).
    exists (S i). cbn [length nth In]. repeat split; auto; lia.
Qed.

Lemma find_rank_in ks pm k r rk sl : find_rank ks pm k r = Some (rk, sl) -> In sl pm /\ ks sl = k.
Proof. intros H. apply find_rank_some in H as (i & _ & _ & _ & Hin & Hk). auto. Qed.

Lemma perm_key_dec (ks : nat -> N) pm k :
  (exists sl, In sl pm /\ ks sl = k) \/ (forall sl, In sl pm -> ks sl <> k).
Proof.
  destruct (find_rank ks pm k 0) as [[rk sl]|] eqn:E.
  - left. exists sl. eapply find_rank_in; eauto.
  - right. rewrite find_rank_none in E. exact E.
Qed.

Lemma find_rank_sorted ks pm k r sl :
  ksorted ks pm -> In sl pm -> ks sl = k -> exists rk, find_rank ks pm k r = Some (rk, sl).
Proof.
  intros Hs Hin Hk. destruct (find_rank ks pm k r) as [[rk sl']|] eqn:E.
  - destruct (find_rank_in _ _ _ _ _ _ E) as [Hin' Hk'].
    assert (sl' = sl) by (eapply ksorted_inj; eauto; congruence).
    subst. eauto.
  - exfalso. rewrite find_rank_none in E. eapply E; eauto.
Qed.

Lemma rank_of_shift ks pm k r : rank_of ks pm k r = (r + rank_of ks pm k 0)%nat.
Proof.
  revert r. induction pm as [|a pm IH]; intros r; cbn [rank_of]; [lia|].
  destruct (k <? ks a); [lia|]. rewrite (IH (S r)), (IH 1%nat). lia.
Qed.

Lemma rank_of_spec ks pm k :
  ksorted ks pm -> (forall sl, In sl pm -> ks sl <> k) ->
  let r := rank_of ks pm k 0 in
  (r <= length pm)%nat /\
  (forall a, In a (firstn r pm) -> ks a < k) /\
  (forall a, In a (skipn r pm) -> k < ks a).
Proof.
  induction pm as [|x pm IH]; intros Hs Hab; cbn [rank_of].
  - cbn. repeat split; auto; tauto.
  - cbn [ksorted] in Hs. destruct Hs as [H1 H2].
    destruct (N.ltb_spec k (ks x)) as [L|L].
    + cbn [firstn skipn length In]. repeat split; [lia|tauto|].
      intros a [<-|Ha]; auto. specialize (H1 _ Ha). lia.
    + rewrite rank_of_shift. cbn [Nat.add firstn skipn length].
      destruct IH as (I1 & I2 & I3); auto.
      { intros sl Hsl. apply Hab. cbn; auto. }
      repeat split; [lia| |auto].
      intros a [E|Ha]; auto. subst a.
      assert (ks x <> k) by (apply Hab; cbn; auto). lia.
Qed.

Lemma free_slot_spec pm i f :
  let j := free_slot pm i f in
  ~ In j pm \/ (j = (i + f)%nat /\ forall x, (i <= x < i + f)%nat -> In x pm).
Proof.
  revert i. induction f as [|f IH]; intros i; cbn [free_slot].
  - right. split; [lia|]. intros; lia.
  - destruct (existsb (Nat.eqb i) pm) eqn:E.
    + specialize (IH (S i)). cbn zeta in IH. destruct IH as [IH|[IH1 IH2]]; [auto|].
      right. split; [lia|]. intros x Hx.
      destruct (Nat.eq_dec x i) as [->|Hne].
      * apply existsb_exists in E as (y & Hy & Ey). apply Nat.eqb_eq in Ey. subst. exact Hy.
      * apply IH2. lia.
    + left. intros Hin. assert (existsb (Nat.eqb i) pm = true); [|congruence].
      apply existsb_exists. exists i. split; auto. apply Nat.eqb_refl.
Qed.

Lemma free_slot_free pm :
  NoDup pm -> (length pm < 15)%nat -> ~ In (free_slot pm 0 15) pm.
Proof.
  intros Hnd Hlen. destruct (free_slot_spec pm 0 15) as [H|[_ H]]; [exact H|].
  exfalso. assert (incl (seq 0 15) pm).
  { intros x Hx. apply in_seq in Hx. apply H. lia. }
  apply NoDup_incl_length in H0; [|apply seq_NoDup]. rewrite seq_length in H0. lia.
Qed.

(** ** [updf], [updm], [note_binding], [set_pc] *)

Lemma updf_same {A} (f : nat -> A) t x : updf f t x t = x.
Proof. unfold updf. rewrite Nat.eqb_refl. reflexivity. Qed.

Lemma updf_other {A} (f : nat -> A) t x t' : t' <> t -> updf f t x t' = f t'.
Proof. intros H. unfold updf. destruct (Nat.eqb_spec t' t); [contradiction|reflexivity]. Qed.

Lemma updf_forall {A} (P : nat -> A -> Prop) f t x :
  (forall j, j <> t -> P j (f j)) -> P t x -> forall j, P j (updf f t x j).
Proof.
  intros Hf Hx j. destruct (Nat.eq_dec j t) as [->|Hne]; [rewrite updf_same; exact Hx|].
  rewrite updf_other by exact Hne. apply Hf, Hne.
Qed.

Lemma updm_same m k x : updm m k x k = x.
Proof. unfold updm. rewrite N.eqb_refl. reflexivity. Qed.

Lemma updm_other m k x k' : k' <> k -> updm m k x k' = m k'.
Proof. intros H. unfold updm. destruct (N.eqb_spec k' k); [contradiction|reflexivity]. Qed.

Lemma nb_op thr k x t : t_op (note_binding thr k x t) = t_op (thr t).
Proof.
  unfold note_binding. destruct (t_op (thr t)) as [o|] eqn:E; [|exact E].
  destruct (op_key o =? k); [reflexivity|exact E].
Qed.

Lemma nb_pc thr k x t : t_pc (note_binding thr k x t) = t_pc (thr t).
Proof.
  unfold note_binding. destruct (t_op (thr t)) as [o|]; [|reflexivity].
  destruct (op_key o =? k); reflexivity.
Qed.

Lemma nb_seen thr k x t :
  t_seen (note_binding thr k x t) =
  match t_op (thr t) with
  | Some o => if op_key o =? k then x :: t_seen (thr t) else t_seen (thr t)
  | None => t_seen (thr t)
  end.
Proof.
  unfold note_binding. destruct (t_op (thr t)) as [o|]; [|reflexivity]. destruct (op_key o =? k); reflexivity.
Qed.

Lemma nb_seen_grows thr k x t : exists l, t_seen (note_binding thr k x t) = l ++ t_seen (thr t).
Proof.
  rewrite nb_seen. destruct (t_op (thr t)) as [o|]; [destruct (op_key o =? k)|];
    [exists [x]|exists []|exists []]; reflexivity.
Qed.

Lemma nb_seen_incl thr k x t : incl (t_seen (thr t)) (t_seen (note_binding thr k x t)).
Proof. destruct (nb_seen_grows thr k x t) as [l ->]. apply incl_appr, incl_refl. Qed.

Lemma nb_seen_bm thr m k x t o :
  t_op (thr t) = Some o -> In (m (op_key o)) (t_seen (thr t)) ->
  In (updm m k x (op_key o)) (t_seen (note_binding thr k x t)).
Proof.
  intros Ho Hin. rewrite nb_seen, Ho. unfold updm.
  destruct (op_key o =? k); cbn [In]; auto.
Qed.

Lemma nb_seen_self thr k x t o :
  t_op (thr t) = Some o -> op_key o = k -> t_seen (note_binding thr k x t) = x :: t_seen (thr t).
Proof. intros Ho Hk. rewrite nb_seen, Ho, Hk, N.eqb_refl. reflexivity. Qed.

Lemma nb_seen_cases thr m k x t o y :
  t_op (thr t) = Some o -> In y (t_seen (note_binding thr k x t)) ->
  y = updm m k x (op_key o) \/ In y (t_seen (thr t)).
Proof.
  intros Ho. rewrite nb_seen, Ho. unfold updm.
  destruct (op_key o =? k); cbn [In]; intuition congruence.
Qed.

Lemma set_pc_pc s t p : t_pc (b_thr (set_pc s t p) t) = p.
Proof. cbn [set_pc b_thr]. rewrite updf_same. reflexivity. Qed.

Lemma set_pc_other s t p t' : t' <> t -> b_thr (set_pc s t p) t' = b_thr s t'.
Proof. intros H. apply updf_other, H. Qed.

Lemma set_pc_op s t p t' : t_op (b_thr (set_pc s t p) t') = t_op (b_thr s t').
Proof. revert t'. apply (updf_forall (fun j th => t_op th = t_op (b_thr s j))); reflexivity. Qed.

Lemma set_pc_seen s t p t' : t_seen (b_thr (set_pc s t p) t') = t_seen (b_thr s t').
Proof. revert t'. apply (updf_forall (fun j th => t_seen th = t_seen (b_thr s j))); reflexivity. Qed.

(** ** Classes of program counters; what a result claims *)

Definition in_cs (p : bpc) : bool :=
  match p with
  | PValidate _ _ | PUnlockRetry | PRelook _ | PInsDel | PStoreKey _ _ | PStoreLv _ _
  | PStorePerm _ _ | PUnlockIns | POverwrite _ | PClear _ _ | PShrink _ | PUnlockPlain _ => true
  | _ => false
  end.

(** the inserting_deleting bit is set exactly in this phase of the lock holder *)
Definition in_ins (p : bpc) : bool :=
  match p with
  | PStoreKey _ _ | PStoreLv _ _ | PStorePerm _ _ | PUnlockIns => true
  | _ => false
  end.

(** not one of the two places at which [sview_cs] lets a slot be out of line: a
    cleared word inside the permutation ([PShrink]), a written word outside it
    ([PStorePerm]) *)
Definition plain (p : bpc) : bool :=
  match p with PShrink _ | PStorePerm _ _ => false | _ => true end.

Definition is_get (o : bop) : Prop := match o with OpGet _ => True | _ => False end.
Definition is_rem (o : bop) : Prop := match o with OpRem _ => True | _ => False end.
Definition op_ok (o : bop) : Prop := match o with OpPut _ v | OpUput _ v => v <> 0 | _ => True end.

Definition res_ok (o : bop) (seen : list (option N)) (r : bres) : Prop :=
  match o, r with
  | OpGet _, ROkVal w => w <> 0 /\ In (Some w) seen
  | OpGet _, RNotExist => In None seen
  | OpPut _ v, ROk => In (Some v) seen
  | OpUput _ v, ROk => In (Some v) seen
  | OpUput _ _, RUnique => exists w, In (Some w) seen
  | OpRem _, ROk => In None seen
  | OpRem _, RNotFound => In None seen
  | _, _ => False
  end.

Lemma res_ok_incl o seen seen' r : incl seen seen' -> res_ok o seen r -> res_ok o seen' r.
Proof.
  intros Hi. destruct o, r; cbn [res_ok]; auto.
  - intros [H1 H2]; auto.
  - intros [w H]; eauto.
Qed.

(** ** Invocation and return; what a linearization step binds *)

Definition with_thr (s : bstate) (l : bool) (thr : nat -> bthread) : bstate :=
  {| b_locked := l; b_insdel := b_insdel s; b_vins := b_vins s; b_perm := b_perm s;
     b_keys := b_keys s; b_lvs := b_lvs s; bm := bm s; b_thr := thr |}.

Lemma bstep_invoke fixed s t o s' :
  bstep fixed s (BInvoke t o) = Some s' ->
  t_pc (b_thr s t) = PIdle /\ op_ok o /\
  s' = with_thr s (b_locked s)
         (updf (b_thr s) t {| t_op := Some o; t_pc := PStable0; t_seen := [bm s (op_key o)] |}).
Proof.
  cbn [bstep]. destruct (t_pc (b_thr s t)); try discriminate.
  destruct o as [k|k v|k v|k]; cbn [op_ok]; try destruct (N.eqb_spec v 0); cbn [negb]; try discriminate;
    intros H; injection H as <-; auto.
Qed.

Lemma bstep_return fixed s t s' :
  bstep fixed s (BReturn t) = Some s' ->
  (exists r, t_pc (b_thr s t) = PDone r) /\ s' = with_thr s (b_locked s) (updf (b_thr s) t idle_thread).
Proof.
  cbn [bstep]. destruct (t_pc (b_thr s t)); try discriminate. intros H; injection H as <-. eauto.
Qed.

Definition lin_of (o : bop) (p : bpc) : option (option N) :=
  match p with
  | PStorePerm _ _ => match o with OpPut _ v | OpUput _ v => Some (Some v) | _ => None end
  | POverwrite _ => match o with OpPut _ v => Some (Some v) | _ => None end
  | PClear _ _ => Some None
  | _ => None
  end.

(** a linearization step ([x = Some y]) rebinds the key and notes the binding *)
Definition bind_bm (m : N -> option N) (k : N) (x : option (option N)) : N -> option N :=
  match x with Some y => updm m k y | None => m end.
Definition bind_thr (thr : nat -> bthread) (k : N) (x : option (option N)) : nat -> bthread :=
  match x with Some y => note_binding thr k y | None => thr end.

Lemma bind_thr_op thr k x t : t_op (bind_thr thr k x t) = t_op (thr t).
Proof. destruct x; [apply nb_op|reflexivity]. Qed.

Lemma bind_thr_pc thr k x t : t_pc (bind_thr thr k x t) = t_pc (thr t).
Proof. destruct x; [apply nb_pc|reflexivity]. Qed.

Lemma bind_thr_seen_incl thr k x t : incl (t_seen (thr t)) (t_seen (bind_thr thr k x t)).
Proof. destruct x; [apply nb_seen_incl|apply incl_refl]. Qed.

Definition is_ins_op (o : bop) : bool := match o with OpPut _ _ | OpUput _ _ => true | _ => false end.
Definition is_put_op (o : bop) : bool := match o with OpPut _ _ => true | _ => false end.
Definition op_val (o : bop) : N := match o with OpPut _ v | OpUput _ v => v | _ => 0 end.

(** ** What one step of a thread does

    A [BStep] of thread [t] at program counter [p] does one of three things.
    It [waits]: the version is dirty or the lock is taken, and nothing changes.
    It [moves]: it reads shared memory and changes only its own program
    counter.  It [writes]: it takes the lock, or holds it and stores, so that
    the shared part of the state becomes some [wr ...]; these are the only steps
    that other threads can observe.  [bstep_does] is the only lemma that unfolds
    the [BStep] branch of [bstep]: the flow of control ([step_of]) and the
    preservation of [Inv] ([moves_ok], [writes_ok]) are read off the
    constructors.

    Argument order after the section closes: [waits s p],
    [after_check o v found], [moves fixed s o p p'], [wr s o l i v pm ks lv x],
    [writes s o p s0 p'], [does fixed s o t p s']. *)
Section Rel.
  Variables (fixed : bool) (s : bstate) (o : bop).
  Let k := op_key o.

  (** get_stable_version and lock() spin *)
  Definition waits (p : bpc) : Prop :=
    match p with
    | PStable0 | PCheck1 _ _ | PFinal _ _ _ | PRemFinal _ => stable s = false
    | PLock _ _ => b_locked s = true
    | _ => False
    end.

  (** where each operation goes with the slot that get_lv_of returned *)
  Definition after_check (v : N) (found : option nat) : bpc :=
    match o, found with
    | OpGet _, None => PDone RNotExist
    | OpGet _, Some sl => PLoadLv v sl
    | OpRem _, None => PRemFinal v
    | OpUput _ _, Some _ => PDone RUnique
    | _, _ => PLock v found
    end.

  Inductive moves : bpc -> bpc -> Prop :=
  (* get_lv_of: stable version, permutation, one key per step, second stable version *)
  | M_stable_version : stable s = true -> moves PStable0 (PPerm (b_vins s))
  | M_load_perm v : moves (PPerm v) (PSearch v (b_perm s))
  | M_search_end v : moves (PSearch v []) (PCheck1 v None)
  | M_search_hit v sl rest : b_keys s sl = k -> moves (PSearch v (sl :: rest)) (PCheck1 v (Some sl))
  | M_search_past v sl rest : k < b_keys s sl -> moves (PSearch v (sl :: rest)) (PCheck1 v None)
  | M_search_next v sl rest : b_keys s sl < k -> moves (PSearch v (sl :: rest)) (PSearch v rest)
  | M_recheck_changed v found : stable s = true -> b_vins s <> v -> moves (PCheck1 v found) (PPerm (b_vins s))
  | M_recheck_same v found : stable s = true -> b_vins s = v -> moves (PCheck1 v found) (after_check v found)
  (* get: the slot word, then the final check; [fixed] retries on a cleared word *)
  | M_load_lv v sl : moves (PLoadLv v sl) (PFinal v sl (b_lvs s sl))
  | M_get_changed v sl w : stable s = true -> b_vins s <> v -> moves (PFinal v sl w) PStable0
  | M_get_cleared v sl : fixed = true -> stable s = true -> b_vins s = v -> moves (PFinal v sl 0) PStable0
  | M_get_ok v sl w : fixed = false \/ w <> 0 -> stable s = true -> b_vins s = v ->
      moves (PFinal v sl w) (PDone (ROkVal w))
  (* remove of a key that was not found: the final check *)
  | M_rem_changed v : stable s = true -> b_vins s <> v -> moves (PRemFinal v) PStable0
  | M_rem_not_found v : stable s = true -> b_vins s = v -> moves (PRemFinal v) (PDone RNotFound)
  (* under the lock: the insert counter against the validated one, then get_lv_of_without_lock *)
  | M_validate_changed v found : b_vins s <> v -> moves (PValidate v found) PUnlockRetry
  | M_validate_absent v : b_vins s = v -> moves (PValidate v None) PInsDel
  | M_validate_found v sl : b_vins s = v -> moves (PValidate v (Some sl)) (PRelook v)
  | M_relook_gone v : find_rank (b_keys s) (b_perm s) k 0 = None ->
      moves (PRelook v) (match o with OpRem _ => PUnlockPlain RNotFound | _ => PUnlockRetry end)
  | M_relook_found v r sl : find_rank (b_keys s) (b_perm s) k 0 = Some (r, sl) ->
      moves (PRelook v) (match o with OpRem _ => PClear sl r | _ => POverwrite sl end).

  (** the shared part after a write; [x] is the step's [lin_of] *)
  Definition wr (l i : bool) (v : N) (pm : list nat) (ks lv : nat -> N) (x : option (option N)) : bstate :=
    {| b_locked := l; b_insdel := i; b_vins := v; b_perm := pm; b_keys := ks; b_lvs := lv;
       bm := bind_bm (bm s) k x; b_thr := bind_thr (b_thr s) k x |}.

  Inductive writes : bpc -> bstate -> bpc -> Prop :=
  | W_lock v found : b_locked s = false ->
      writes (PLock v found) (wr true (b_insdel s) (b_vins s) (b_perm s) (b_keys s) (b_lvs s) None)
             (PValidate v found)
  | W_unlock_retry :
      writes PUnlockRetry (wr false (b_insdel s) (b_vins s) (b_perm s) (b_keys s) (b_lvs s) None) PStable0
  (* insert_lv into a node that does not split: dirty bit, key, value word, permutation, unlock *)
  | W_set_inserting : (length (b_perm s) < 15)%nat ->
      writes PInsDel (wr (b_locked s) true (b_vins s) (b_perm s) (b_keys s) (b_lvs s) None)
             (PStoreKey (free_slot (b_perm s) 0 15) (rank_of (b_keys s) (b_perm s) k 0))
  | W_set_key sl r :
      writes (PStoreKey sl r)
             (wr (b_locked s) (b_insdel s) (b_vins s) (b_perm s) (updf (b_keys s) sl k) (b_lvs s) None)
             (PStoreLv sl r)
  | W_set_lv sl r : is_ins_op o = true ->
      writes (PStoreLv sl r)
             (wr (b_locked s) (b_insdel s) (b_vins s) (b_perm s) (b_keys s) (updf (b_lvs s) sl (op_val o)) None)
             (PStorePerm sl r)
  | W_insert_rank sl r : is_ins_op o = true ->
      writes (PStorePerm sl r)
             (wr (b_locked s) (b_insdel s) (b_vins s) (insert_at r sl (b_perm s)) (b_keys s) (b_lvs s)
                 (Some (Some (op_val o))))
             PUnlockIns
  | W_unlock_inserted :
      writes PUnlockIns (wr false false (b_vins s + 1) (b_perm s) (b_keys s) (b_lvs s) None) (PDone ROk)
  (* put on a key that is there: set_value *)
  | W_set_value sl : is_put_op o = true ->
      writes (POverwrite sl)
             (wr (b_locked s) (b_insdel s) (b_vins s) (b_perm s) (b_keys s) (updf (b_lvs s) sl (op_val o))
                 (Some (Some (op_val o))))
             (PUnlockPlain ROk)
  (* delete_at: init_lv, then delete_rank *)
  | W_init_lv sl r :
      writes (PClear sl r)
             (wr (b_locked s) (b_insdel s) (b_vins s) (b_perm s) (b_keys s) (updf (b_lvs s) sl 0) (Some None))
             (PShrink r)
  | W_delete_rank r :
      writes (PShrink r)
             (wr (b_locked s) (b_insdel s) (b_vins s) (remove_at r (b_perm s)) (b_keys s) (b_lvs s) None)
             (PUnlockPlain ROk)
  | W_unlock r :
      writes (PUnlockPlain r) (wr false (b_insdel s) (b_vins s) (b_perm s) (b_keys s) (b_lvs s) None) (PDone r).

  (** [t] is there only for [set_pc]; a spinning thread leaves the state as it
      is, so [Inv] after [D_wait] is [step_ok_refl] *)
  Inductive does (t : nat) (p : bpc) : bstate -> Prop :=
  | D_wait : waits p -> does t p s
  | D_move p' : moves p p' -> does t p (set_pc s t p')
  | D_write s0 p' : writes p s0 p' -> does t p (set_pc s0 t p').
End Rel.

Lemma bstep_does fixed s t s' :
  bstep fixed s (BStep t) = Some s' ->
  exists o, t_op (b_thr s t) = Some o /\ does fixed s o t (t_pc (b_thr s t)) s'.
Proof.
  cbn [bstep]. destruct (t_op (b_thr s t)) as [o|]; [|discriminate].
  intros H. exists o. split; [reflexivity|]. revert H.
  destruct (t_pc (b_thr s t)) as [| |v|v rest|v found|v sl|v sl w|v|v found|v found| |v| |sl r|sl r|sl r|
                                   |sl|sl r|r|r|r]; try discriminate;
    (* the steps without a branch *)
    try (intros [= <-]; first [apply D_move|eapply D_write]; constructor; fail);
    (* the three version checks of the readers: dirty, changed, or unchanged (left to the bullets) *)
    try (destruct (stable s) eqn:St; cbn [negb]; [|intros [= <-]; apply D_wait; exact St];
         destruct (N.eqb_spec (b_vins s) v) as [E|E]; cbn [negb];
         [|intros [= <-]; apply D_move; constructor; assumption]).
  - (* PStable0 *)
    destruct (stable s) eqn:St; intros [= <-]; [apply D_move; constructor; exact St|apply D_wait; exact St].
  - (* PSearch *)
    destruct rest as [|sl rest]; [intros [= <-]; apply D_move; constructor|]. unfold search_step.
    destruct (N.eqb_spec (b_keys s sl) (op_key o)) as [E|E];
      [|destruct (N.ltb_spec (op_key o) (b_keys s sl)) as [L|L]]; intros [= <-]; apply D_move;
      constructor; solve [assumption|lia].
  - (* PCheck1 *)
    intros H. pose proof (D_move fixed s o t _ _ (M_recheck_same fixed s o v found St E)) as D.
    unfold after_check in D. destruct o, found; injection H as <-; exact D.
  - (* PFinal *)
    destruct fixed; cbn [andb]; [destruct (N.eqb_spec w 0) as [W|W]|]; intros [= <-]; apply D_move;
      [subst w; apply M_get_cleared|apply M_get_ok|apply M_get_ok]; auto.
  - (* PRemFinal *)
    intros [= <-]. apply D_move. constructor; assumption.
  - (* PLock *)
    destruct (b_locked s) eqn:L; intros [= <-]; [apply D_wait; exact L|]. eapply D_write. constructor. exact L.
  - (* PValidate *)
    destruct (N.eqb_spec (b_vins s) v) as [E|E]; cbn [negb];
      [|intros [= <-]; apply D_move; constructor; assumption].
    destruct found; intros [= <-]; apply D_move; constructor; exact E.
  - (* PRelook *)
    destruct (find_rank (b_keys s) (b_perm s) (op_key o) 0) as [[r sl]|] eqn:E; intros H;
      [pose proof (D_move fixed s o t _ _ (M_relook_found fixed s o v r sl E)) as D
      |pose proof (D_move fixed s o t _ _ (M_relook_gone fixed s o v E)) as D];
      destruct o; injection H as <-; exact D.
  - (* PInsDel *)
    destruct (Nat.leb 15 (length (b_perm s))) eqn:Hlen; [discriminate|]. apply Nat.leb_gt in Hlen.
    intros [= <-]. eapply D_write. constructor. exact Hlen.
  - (* PStoreLv *)
    destruct o as [k|k v|k v|k]; try discriminate; intros [= <-]; eapply D_write; constructor; reflexivity.
  - (* PStorePerm *)
    destruct o as [k|k v|k v|k]; try discriminate; intros [= <-]; eapply D_write; constructor; reflexivity.
  - (* POverwrite *)
    destruct o as [k|k v|k v|k]; try discriminate; intros [= <-]. eapply D_write. constructor. reflexivity.
Qed.

(** ** The flow of control *)

Definition decided (p : bpc) : bool :=
  match p with PUnlockIns | PDone ROk | PUnlockPlain ROk | PShrink _ => true | _ => false end.

Definition pc_next (o : bop) (p p' : bpc) : Prop :=
  match p with
  | PIdle | PDone _ => False
  | PStorePerm _ _ => p' = PUnlockIns /\ is_ins_op o = true
  | PUnlockIns => p' = PDone ROk
  | PUnlockPlain r => p' = PDone r
  | PClear _ _ => exists rk, p' = PShrink rk
  | PShrink _ => p' = PUnlockPlain ROk
  | POverwrite _ => p' = PUnlockPlain ROk /\ is_put_op o = true
  | _ => decided p' = false
  end.

(** a thread is at a [decided] program counter exactly from its linearization step to its return *)
Lemma pc_next_decided o p p' : pc_next o p p' -> decided p' = decided p || is_some (lin_of o p).
Proof.
  destruct p; cbn [pc_next lin_of decided is_some orb]; try contradiction; try (intros ->; reflexivity).
  - intros [-> H]. destruct o; try discriminate H; reflexivity.
  - intros [-> H]. destruct o; try discriminate H; reflexivity.
  - intros [rk ->]. reflexivity.
  - intros ->. destruct r; reflexivity.
Qed.

(** the coarse view of a step: all that [bstep_other], [bstep_seen_grows],
    [bstep_vins], BorderUniqueProofs and VersionProtoProofs need of it *)
Definition step_of (s : bstate) (t : nat) (o : bop) (s' : bstate) : Prop :=
  let p := t_pc (b_thr s t) in
  pc_next o p (t_pc (b_thr s' t)) /\
  bm s' = bind_bm (bm s) (op_key o) (lin_of o p) /\
  b_vins s' = (match p with PUnlockIns => b_vins s + 1 | _ => b_vins s end) /\
  forall t', t_op (b_thr s' t') = t_op (b_thr s t') /\
             t_seen (b_thr s' t') = t_seen (bind_thr (b_thr s) (op_key o) (lin_of o p) t') /\
             (t' <> t -> t_pc (b_thr s' t') = t_pc (b_thr s t')).

Lemma step_of_set_pc s t o s0 p' :
  pc_next o (t_pc (b_thr s t)) p' ->
  b_thr s0 = bind_thr (b_thr s) (op_key o) (lin_of o (t_pc (b_thr s t))) ->
  bm s0 = bind_bm (bm s) (op_key o) (lin_of o (t_pc (b_thr s t))) ->
  b_vins s0 = (match t_pc (b_thr s t) with PUnlockIns => b_vins s + 1 | _ => b_vins s end) ->
  step_of s t o (set_pc s0 t p').
Proof.
  intros Hp Et Em Ev. unfold step_of. rewrite set_pc_pc.
  split; [exact Hp|]. split; [exact Em|]. split; [exact Ev|]. intros t'.
  rewrite set_pc_op, set_pc_seen, Et, bind_thr_op. split; [reflexivity|]. split; [reflexivity|].
  intros Hne. rewrite (set_pc_other _ _ _ _ Hne), Et. apply bind_thr_pc.
Qed.

Lemma waits_flow s o p : waits s p -> lin_of o p = None /\ pc_next o p p /\ p <> PUnlockIns.
Proof. destruct p; try contradiction; repeat split; discriminate. Qed.

Lemma moves_flow fixed s o p p' : moves fixed s o p p' -> lin_of o p = None /\ pc_next o p p' /\ p <> PUnlockIns.
Proof.
  destruct 1; cbn [lin_of pc_next decided after_check]; repeat split; try discriminate; try reflexivity.
  - destruct o, found; reflexivity.
  - destruct o; reflexivity.
  - destruct o; reflexivity.
Qed.

Lemma writes_flow s o p s0 p' :
  writes s o p s0 p' ->
  pc_next o p p' /\ b_thr s0 = bind_thr (b_thr s) (op_key o) (lin_of o p) /\
  bm s0 = bind_bm (bm s) (op_key o) (lin_of o p) /\
  b_vins s0 = (match p with PUnlockIns => b_vins s + 1 | _ => b_vins s end).
Proof.
  destruct 1; cbn [lin_of pc_next decided wr b_thr bm b_vins]; try (repeat split; eauto; fail).
  - (* W_insert_rank *) destruct o; try discriminate; repeat split; reflexivity.
  - (* W_set_value *) destruct o; try discriminate; repeat split; reflexivity.
Qed.

Lemma does_step_of fixed s t o s' : does fixed s o t (t_pc (b_thr s t)) s' -> step_of s t o s'.
Proof.
  assert (Hv : t_pc (b_thr s t) <> PUnlockIns ->
               b_vins s = match t_pc (b_thr s t) with PUnlockIns => b_vins s + 1 | _ => b_vins s end).
  { destruct (t_pc (b_thr s t)); try reflexivity. intros H. contradiction. }
  destruct 1 as [W|p' M|s0 p' W].
  - destruct (waits_flow s o _ W) as (Hl & Hn & Hu). unfold step_of. rewrite Hl.
    split; [exact Hn|]. split; [reflexivity|]. split; [exact (Hv Hu)|]. auto.
  - destruct (moves_flow _ _ _ _ _ M) as (Hl & Hn & Hu).
    apply step_of_set_pc; rewrite ?Hl; [exact Hn|reflexivity|reflexivity|exact (Hv Hu)].
  - destruct (writes_flow _ _ _ _ _ W) as (Hn & E1 & E2 & E3). apply step_of_set_pc; assumption.
Qed.

Lemma bstep_step fixed s t s' :
  bstep fixed s (BStep t) = Some s' -> exists o, t_op (b_thr s t) = Some o /\ step_of s t o s'.
Proof.
  intros H. apply bstep_does in H as (o & Ho & D). exists o. split; [exact Ho|]. exact (does_step_of _ _ _ _ _ D).
Qed.

Definition ev_thread (e : bev) : nat := match e with BInvoke t _ | BStep t | BReturn t => t end.

Lemma bstep_other fixed s e s' t' :
  bstep fixed s e = Some s' -> t' <> ev_thread e ->
  t_op (b_thr s' t') = t_op (b_thr s t') /\ t_pc (b_thr s' t') = t_pc (b_thr s t').
Proof.
  intros H Hne. destruct e as [t o|t|t]; cbn [ev_thread] in Hne.
  - apply bstep_invoke in H as (_ & _ & ->). cbn [with_thr b_thr]. rewrite updf_other by exact Hne. auto.
  - apply bstep_step in H as (o & _ & _ & _ & _ & H). destruct (H t') as (E1 & _ & E2). auto.
  - apply bstep_return in H as (_ & ->). cbn [with_thr b_thr]. rewrite updf_other by exact Hne. auto.
Qed.

Lemma bstep_seen_grows fixed s e s' t :
  bstep fixed s e = Some s' ->
  (forall o, e <> BInvoke t o) -> e <> BReturn t ->
  exists l, t_seen (b_thr s' t) = l ++ t_seen (b_thr s t).
Proof.
  intros H Hinv Hret. destruct e as [t' o|t'|t'].
  - apply bstep_invoke in H as (_ & _ & ->). exists []. cbn [with_thr b_thr app].
    rewrite updf_other; [reflexivity|]. intros ->. apply (Hinv o). reflexivity.
  - apply bstep_step in H as (o & _ & _ & _ & _ & H). destruct (H t) as (_ & -> & _).
    destruct (lin_of o _); [apply nb_seen_grows|exists []; reflexivity].
  - apply bstep_return in H as (_ & ->). exists []. cbn [with_thr b_thr app].
    rewrite updf_other; [reflexivity|]. intros ->. apply Hret. reflexivity.
Qed.

(** and nothing else enters the list: an element is the binding after the step
    or was there before it *)
Lemma step_seen fixed s e s' t' o' y :
  bstep fixed s e = Some s' -> t_op (b_thr s' t') = Some o' -> In y (t_seen (b_thr s' t')) ->
  y = bm s' (op_key o') \/ (t_op (b_thr s t') = Some o' /\ In y (t_seen (b_thr s t'))).
Proof.
  intros H. destruct e as [t o|t|t].
  - apply bstep_invoke in H as (_ & _ & ->). cbn [with_thr b_thr bm].
    destruct (Nat.eq_dec t' t) as [->|Hne]; [|rewrite updf_other by exact Hne; auto].
    rewrite updf_same. cbn [t_op t_seen In]. intros E [<-|[]]. left. congruence.
  - apply bstep_step in H as (o & _ & _ & -> & _ & H). destruct (H t') as (-> & -> & _).
    destruct (lin_of o _); [|auto]. cbn [bind_bm bind_thr].
    intros Ho' Hin. destruct (nb_seen_cases _ (bm s) _ _ _ _ _ Ho' Hin); auto.
  - apply bstep_return in H as (_ & ->). cbn [with_thr b_thr bm].
    destruct (Nat.eq_dec t' t) as [->|Hne]; [|rewrite updf_other by exact Hne; auto].
    rewrite updf_same. discriminate.
Qed.

Lemma bstep_vins fixed s e s' :
  bstep fixed s e = Some s' ->
  b_vins s' = match e with
              | BStep t => match t_pc (b_thr s t) with PUnlockIns => b_vins s + 1 | _ => b_vins s end
              | _ => b_vins s
              end.
Proof.
  intros H. destruct e as [t o|t|t].
  - apply bstep_invoke in H as (_ & _ & ->). reflexivity.
  - apply bstep_step in H as (o & _ & _ & _ & E & _). exact E.
  - apply bstep_return in H as (_ & ->). reflexivity.
Qed.

Lemma bstep_vins_mono fixed s e s' : bstep fixed s e = Some s' -> b_vins s <= b_vins s'.
Proof.
  intros H. rewrite (bstep_vins _ _ _ _ H). destruct e as [| t |]; try lia. destruct (t_pc (b_thr s t)); lia.
Qed.

Lemma brun_inv fixed (P : bstate -> Prop) :
  (forall s e s', P s -> bstep fixed s e = Some s' -> P s') ->
  forall tr s s', P s -> brun fixed s tr = Some s' -> P s'.
Proof. apply (run_inv (bstep fixed) (brun fixed)). intros s evs. destruct evs; reflexivity. Qed.

Lemma brun_app fixed s tr1 tr2 s' :
  brun fixed s (tr1 ++ tr2) = Some s' ->
  exists s1, brun fixed s tr1 = Some s1 /\ brun fixed s1 tr2 = Some s'.
Proof.
  rewrite (run_app (bstep fixed) (brun fixed)) by (intros s0 evs; destruct evs; reflexivity).
  destruct (brun fixed s tr1) as [s1|]; [eauto|discriminate].
Qed.

Lemma brun_vins_mono fixed tr s s' : brun fixed s tr = Some s' -> b_vins s <= b_vins s'.
Proof.
  apply (brun_inv fixed (fun x => b_vins s <= b_vins x)); [|lia].
  intros s1 e s2 H E. apply bstep_vins_mono in E. lia.
Qed.

(** ** The invariant *)

(** a cleared word = unbound: a remove between its two stores *)
Definition RepP (ks : nat -> N) (pm : list nat) (lv : nat -> N) (m : N -> option N) : Prop :=
  forall k,
    (forall sl, In sl pm -> ks sl = k -> m k = if lv sl =? 0 then None else Some (lv sl)) /\
    ((forall sl, In sl pm -> ks sl <> k) -> m k = None).

(** Argument order after the section closes: [absent pm ks k] and
    [insert_pos pm ks k r], against [ksorted ks pm], [find_rank ks pm] and
    [RepP ks pm lv m]. *)
Section ThreadInv.
  Variables (ins : bool) (vi : N) (pm : list nat) (ks lv : nat -> N) (m : N -> option N).

  (** "no insert completed or started writing keys since version [v] was validated" *)
  Definition Cnd (v : N) : Prop := vi = v /\ ins = false.
  Definition absent (k : N) : Prop := forall sl, In sl pm -> ks sl <> k.
  Definition some_seen (seen : list (option N)) : Prop := exists w, In (Some w) seen.
  (** [v <= vi] is carried for [since_frame]: a counter that has passed [v]
      never equals it again *)
  Definition found_ok (k : N) (seen : list (option N)) (v : N) (found : option nat) : Prop :=
    v <= vi /\
    (Cnd v -> match found with None => absent k | Some sl => ks sl = k /\ some_seen seen end).
  Definition insert_pos (k : N) (r : nat) : Prop :=
    (r <= length pm)%nat /\
    (forall a, In a (firstn r pm) -> ks a < k) /\
    (forall a, In a (skipn r pm) -> k < ks a).

  Definition TP (o : bop) (seen : list (option N)) (pc : bpc) : Prop :=
    let k := op_key o in
    match pc with
    | PIdle | PStable0 | PUnlockRetry | PRelook _ => True
    | PPerm v => v <= vi /\ (Cnd v -> forall sl, In sl pm -> ks sl = k -> some_seen seen)
    | PSearch v rest =>
      v <= vi /\
      (Cnd v -> ksorted ks rest /\ (forall sl, In sl pm -> ks sl = k -> In sl rest) /\
                (forall sl, In sl rest -> ks sl = k -> some_seen seen))
    | PCheck1 v found => found_ok k seen v found
    | PLoadLv v sl => is_get o /\ found_ok k seen v (Some sl)
    | PFinal v sl w => is_get o /\ v <= vi /\ (Cnd v -> w = 0 \/ In (Some w) seen)
    | PRemFinal v => is_rem o /\ found_ok k seen v None
    | PLock v found => found_ok k seen v found
    | PValidate v found => found_ok k seen v found
    | PInsDel => absent k
    | PStoreKey sl r => ~ In sl pm /\ insert_pos k r
    | PStoreLv sl r => ~ In sl pm /\ insert_pos k r /\ ks sl = k
    | PStorePerm sl r =>
      ~ In sl pm /\ insert_pos k r /\ ks sl = k /\
      match o with OpPut _ v | OpUput _ v => lv sl = v | _ => True end
    | PUnlockIns => res_ok o seen ROk
    | POverwrite sl => In sl pm /\ ks sl = k
    | PClear sl rk => is_rem o /\ (rk < length pm)%nat /\ nth rk pm 0%nat = sl /\ ks sl = k
    | PShrink rk =>
      is_rem o /\ (rk < length pm)%nat /\ ks (nth rk pm 0%nat) = k /\ lv (nth rk pm 0%nat) = 0 /\
      In None seen
    | PUnlockPlain r => res_ok o seen r
    | PDone r => res_ok o seen r
    end.

  Definition TI (th : bthread) : Prop :=
    match t_op th with
    | None => t_pc th = PIdle
    | Some o => op_ok o /\ In (m (op_key o)) (t_seen th) /\ TP o (t_seen th) (t_pc th)
    end.
End ThreadInv.

Lemma insert_pos_ext pm ks ks' k r :
  (forall a, In a pm -> ks' a = ks a) -> insert_pos pm ks k r -> insert_pos pm ks' k r.
Proof.
  intros He (H1 & H2 & H3). split; [exact H1|]. split.
  - intros a Ha. rewrite He by (eapply in_firstn; eauto). auto.
  - intros a Ha. rewrite He by (eapply in_skipn; eauto). auto.
Qed.

Lemma insert_pos_absent pm ks k r : insert_pos pm ks k r -> absent pm ks k.
Proof.
  intros (_ & H2 & H3) sl Hsl. rewrite <- (firstn_skipn r pm) in Hsl.
  apply in_app_or in Hsl as [H|H]; [specialize (H2 _ H)|specialize (H3 _ H)]; lia.
Qed.

Lemma not_Cnd ins vi v : ~ Cnd ins vi v -> vi <> v \/ ins = true.
Proof.
  unfold Cnd. intros H. destruct (N.eq_dec vi v) as [E|E]; [|left; exact E].
  destruct ins; [right; reflexivity|]. exfalso. apply H. auto.
Qed.

(** what is known under "no insert since [v]" may be weakened under the same
    condition; [since_frame] below does this across a step *)
Lemma since_mono ins vi v (P P' : Prop) :
  v <= vi /\ (Cnd ins vi v -> P) -> (Cnd ins vi v -> P -> P') -> v <= vi /\ (Cnd ins vi v -> P').
Proof. intros [H1 H2] H. split; [exact H1|]. intros Hc. apply (H Hc), H2, Hc. Qed.

Definition sview_cs (s : bstate) (p : bpc) : Prop :=
  b_locked s = true /\ b_insdel s = in_ins p /\
  (forall sl, In sl (b_perm s) -> b_lvs s sl = 0 ->
     match p with PShrink rk => sl = nth rk (b_perm s) 0%nat | _ => False end) /\
  (forall sl, ~ In sl (b_perm s) -> b_lvs s sl <> 0 ->
     match p with PStorePerm sl' _ => sl = sl' | _ => False end).

Definition sview_free (s : bstate) : Prop :=
  b_insdel s = false /\
  (forall sl, In sl (b_perm s) -> b_lvs s sl <> 0) /\
  (forall sl, ~ In sl (b_perm s) -> b_lvs s sl = 0).

(** the two views on the components of a state, as [TP] and [RepP] are, so that
    a writer states them of the values it stores: [sview_cs s p] is [cs_view]
    and [sview_free s] is [free_view] at the fields of [s], by conversion *)
Definition cs_view (l i : bool) (pm : list nat) (lv : nat -> N) (p : bpc) : Prop :=
  l = true /\ i = in_ins p /\
  (forall sl, In sl pm -> lv sl = 0 -> match p with PShrink rk => sl = nth rk pm 0%nat | _ => False end) /\
  (forall sl, ~ In sl pm -> lv sl <> 0 -> match p with PStorePerm sl' _ => sl = sl' | _ => False end).

Definition free_view (i : bool) (pm : list nat) (lv : nat -> N) : Prop :=
  i = false /\ (forall sl, In sl pm -> lv sl <> 0) /\ (forall sl, ~ In sl pm -> lv sl = 0).

Definition TIs (s : bstate) (th : bthread) : Prop :=
  TI (b_insdel s) (b_vins s) (b_perm s) (b_keys s) (b_lvs s) (bm s) th.

Record Inv (s : bstate) : Prop := {
  I_uniq : forall t1 t2, in_cs (t_pc (b_thr s t1)) = true -> in_cs (t_pc (b_thr s t2)) = true -> t1 = t2;
  I_holder : b_locked s = true -> exists t, in_cs (t_pc (b_thr s t)) = true;
  I_cs : forall t, in_cs (t_pc (b_thr s t)) = true -> sview_cs s (t_pc (b_thr s t));
  I_free : b_locked s = false -> sview_free s;
  I_sorted : ksorted (b_keys s) (b_perm s);
  I_rep : RepP (b_keys s) (b_perm s) (b_lvs s) (bm s);
  I_thr : forall t, TIs s (b_thr s t)
}.

Lemma inv_init : Inv binit.
Proof.
  constructor; cbn; try discriminate; auto.
  - intros _. repeat split; auto.
  - intros k. split; auto.
Qed.

Lemma inv_unlocked_nocs s t : Inv s -> b_locked s = false -> in_cs (t_pc (b_thr s t)) = false.
Proof.
  intros HI Hl. destruct (in_cs (t_pc (b_thr s t))) eqn:E; [|reflexivity].
  destruct (I_cs s HI t E) as [H _]. congruence.
Qed.

Lemma inv_cs_other s t t' :
  Inv s -> in_cs (t_pc (b_thr s t)) = true -> t' <> t -> in_cs (t_pc (b_thr s t')) = false.
Proof.
  intros HI Hc Hne. destruct (in_cs (t_pc (b_thr s t'))) eqn:E; [|reflexivity].
  exfalso. apply Hne. eapply I_uniq; eauto.
Qed.

Lemma inv_free_zero s sl :
  Inv s -> b_insdel s = false -> ~ In sl (b_perm s) -> b_lvs s sl = 0.
Proof.
  intros HI Hins Hnin. destruct (b_locked s) eqn:L.
  - destruct (I_holder s HI L) as [t Ht]. destruct (I_cs s HI t Ht) as (_ & Hi & _ & Hf).
    destruct (N.eq_dec (b_lvs s sl) 0) as [E|E]; [exact E|]. exfalso.
    specialize (Hf sl Hnin E). destruct (t_pc (b_thr s t)); try contradiction.
    cbn in Hi. congruence.
  - destruct (I_free s HI L) as (_ & _ & Hf). auto.
Qed.

Lemma rep_slot s sl :
  Inv s -> In sl (b_perm s) ->
  bm s (b_keys s sl) = if b_lvs s sl =? 0 then None else Some (b_lvs s sl).
Proof. intros HI Hsl. apply (I_rep s HI (b_keys s sl)); auto. Qed.

Lemma rep_bound s sl :
  Inv s -> In sl (b_perm s) -> b_lvs s sl <> 0 -> bm s (b_keys s sl) = Some (b_lvs s sl).
Proof.
  intros HI Hsl Hz. rewrite (rep_slot s sl HI Hsl).
  destruct (N.eqb_spec (b_lvs s sl) 0); [contradiction|reflexivity].
Qed.

Lemma word_of_slot s sl :
  Inv s -> b_insdel s = false -> b_lvs s sl = 0 \/ bm s (b_keys s sl) = Some (b_lvs s sl).
Proof.
  intros HI Hi. destruct (N.eq_dec (b_lvs s sl) 0) as [E|E]; [left; exact E|right].
  apply (rep_bound s sl HI); [|exact E].
  destruct (in_dec Nat.eq_dec sl (b_perm s)) as [Hsl|Hsl]; [exact Hsl|].
  exfalso. apply E, inv_free_zero; assumption.
Qed.

Lemma rep_absent s k : Inv s -> absent (b_perm s) (b_keys s) k -> bm s k = None.
Proof. intros HI. apply (I_rep s HI k). Qed.

Lemma some_seen_incl seen seen' : incl seen seen' -> some_seen seen -> some_seen seen'.
Proof. intros Hi [w H]. exists w. auto. Qed.

(** "in [t_seen]" = "was the binding at some instant between invocation and now"
    ([step_seen]) *)
Lemma inv_thr_facts s t o :
  Inv s -> t_op (b_thr s t) = Some o ->
  op_ok o /\ In (bm s (op_key o)) (t_seen (b_thr s t)) /\
  TP (b_insdel s) (b_vins s) (b_perm s) (b_keys s) (b_lvs s) o (t_seen (b_thr s t)) (t_pc (b_thr s t)).
Proof. intros HI Ho. pose proof (I_thr s HI t) as H. unfold TIs, TI in H. rewrite Ho in H. exact H. Qed.

Lemma inv_at_pc s t o p :
  Inv s -> t_op (b_thr s t) = Some o -> t_pc (b_thr s t) = p ->
  TP (b_insdel s) (b_vins s) (b_perm s) (b_keys s) (b_lvs s) o (t_seen (b_thr s t)) p.
Proof. intros HI Ho <-. apply (inv_thr_facts s t o HI Ho). Qed.

Lemma holder_view s t p :
  Inv s -> t_pc (b_thr s t) = p -> in_cs p = true -> sview_cs s p.
Proof. intros HI <- H. apply (I_cs s HI t H). Qed.

(** ** The frame condition *)

Definition bframe (s s' : bstate) : Prop :=
  b_vins s <= b_vins s' /\
  (forall v, v <= b_vins s -> b_vins s' = v -> b_insdel s' = false ->
     b_vins s = v /\ b_insdel s = false /\ (forall sl, b_keys s' sl = b_keys s sl) /\
     incl (b_perm s') (b_perm s)).

Lemma bframe_shrink s s' :
  b_vins s' = b_vins s -> b_insdel s' = b_insdel s -> b_keys s' = b_keys s ->
  incl (b_perm s') (b_perm s) -> bframe s s'.
Proof.
  intros E1 E2 E3 E4. split; [lia|]. intros v _ H1 H2. rewrite E1 in H1. rewrite E2 in H2.
  rewrite E3. auto.
Qed.

Lemma bframe_same s s' :
  b_vins s' = b_vins s -> b_insdel s' = b_insdel s -> b_keys s' = b_keys s -> b_perm s' = b_perm s ->
  bframe s s'.
Proof. intros E1 E2 E3 E4. apply bframe_shrink; auto. rewrite E4. apply incl_refl. Qed.

Lemma bframe_dirty s s' : b_vins s' = b_vins s -> b_insdel s' = true -> bframe s s'.
Proof. intros E1 E2. split; [lia|]. intros v _ _ H. congruence. Qed.

Lemma bframe_bump s s' : b_vins s' = b_vins s + 1 -> bframe s s'.
Proof. intros E. split; [lia|]. intros v Hle E1. lia. Qed.

(** what was known under "no insert since [v]" is still known after a step,
    as far as it is stable under shrinking the permutation *)
Lemma since_frame s s' v (P P' : Prop) :
  bframe s s' ->
  v <= b_vins s /\ (Cnd (b_insdel s) (b_vins s) v -> P) ->
  ((forall sl, b_keys s' sl = b_keys s sl) -> incl (b_perm s') (b_perm s) -> P -> P') ->
  v <= b_vins s' /\ (Cnd (b_insdel s') (b_vins s') v -> P').
Proof.
  intros [Hv F] [Hle HC] HP. split; [lia|]. intros [E1 E2].
  destruct (F v Hle E1 E2) as (A & B & Ck & Ip). apply (HP Ck Ip), HC. split; assumption.
Qed.

Lemma found_ok_frame s s' k seen seen' v found :
  bframe s s' -> incl seen seen' ->
  found_ok (b_insdel s) (b_vins s) (b_perm s) (b_keys s) k seen v found ->
  found_ok (b_insdel s') (b_vins s') (b_perm s') (b_keys s') k seen' v found.
Proof.
  intros F Hincl HP. apply (since_frame s s' v _ _ F HP). intros Ck Ip HC. destruct found as [sl|].
  - rewrite Ck. destruct HC as [H1 H2]. split; [exact H1|]. eapply some_seen_incl; eauto.
  - intros sl Hsl. rewrite Ck. apply HC, Ip, Hsl.
Qed.

Lemma TIs_frame s s' th th' :
  TIs s th -> bframe s s' ->
  t_op th' = t_op th -> t_pc th' = t_pc th -> incl (t_seen th) (t_seen th') ->
  in_cs (t_pc th) = false ->
  (forall o, t_op th = Some o -> In (bm s' (op_key o)) (t_seen th')) ->
  TIs s' th'.
Proof.
  destruct th as [op pc seen], th' as [op' pc' seen']. cbn [t_op t_pc t_seen].
  intros HT F -> -> Hincl Hcs Hm. unfold TIs, TI in *. cbn [t_op t_pc t_seen] in *.
  destruct op as [o|]; [|exact HT]. destruct HT as (Hok & _ & HP).
  split; [exact Hok|]. split; [apply Hm; reflexivity|].
  destruct pc; cbn [in_cs] in Hcs; try discriminate; cbn [TP] in *; auto.
  - apply (since_frame s s' v _ _ F HP). intros Ck Ip HC sl Hsl Hk.
    eapply some_seen_incl; [exact Hincl|]. apply (HC sl); [apply Ip; exact Hsl|]. rewrite <- Ck. exact Hk.
  - apply (since_frame s s' v _ _ F HP). intros Ck Ip (S1 & S2 & S3). split; [|split].
    + eapply ksorted_ext; [|exact S1]. intros; apply Ck.
    + intros sl Hsl Hk. apply S2; [apply Ip; exact Hsl|]. rewrite <- Ck. exact Hk.
    + intros sl Hsl Hk. eapply some_seen_incl; [exact Hincl|]. apply (S3 sl Hsl). rewrite <- Ck. exact Hk.
  - eapply found_ok_frame; eauto.
  - destruct HP as [Hg HP]. split; [exact Hg|]. eapply found_ok_frame; eauto.
  - destruct HP as [Hg HP]. split; [exact Hg|]. apply (since_frame s s' v _ _ F HP). intros _ _ [H|H]; auto.
  - destruct HP as [Hg HP]. split; [exact Hg|]. eapply found_ok_frame; eauto.
  - eapply found_ok_frame; eauto.
  - eapply res_ok_incl; eauto.
Qed.

(** ** Step schemes *)

Definition step_ok (s s' : bstate) : Prop := Inv s' /\ bframe s s'.

Lemma step_ok_refl s : Inv s -> step_ok s s.
Proof. intros HI. split; [exact HI|apply bframe_same; reflexivity]. Qed.

Lemma inv_local_step s t th' :
  Inv s ->
  in_cs (t_pc th') = in_cs (t_pc (b_thr s t)) -> in_ins (t_pc th') = in_ins (t_pc (b_thr s t)) ->
  plain (t_pc (b_thr s t)) = true ->
  TIs s th' ->
  step_ok s (with_thr s (b_locked s) (updf (b_thr s) t th')).
Proof.
  intros HI Hcs Hins Hp HT. set (s' := with_thr _ _ _).
  assert (Et : b_thr s' t = th') by apply updf_same.
  assert (Eo : forall t', t' <> t -> b_thr s' t' = b_thr s t') by (intros t' Hne; apply updf_other; exact Hne).
  assert (Hpc : forall t', in_cs (t_pc (b_thr s' t')) = in_cs (t_pc (b_thr s t')))
    by (apply (updf_forall (fun j th => in_cs (t_pc th) = in_cs (t_pc (b_thr s j)))); [reflexivity|exact Hcs]).
  split; [|apply bframe_same; reflexivity]. constructor.
  - intros t1 t2. rewrite !Hpc. apply (I_uniq s HI).
  - intros L. destruct (I_holder s HI L) as [t0 H0]. exists t0. rewrite Hpc. exact H0.
  - intros t'. rewrite Hpc. intros Hc.
    destruct (Nat.eq_dec t' t) as [->|Hne]; [|rewrite Eo by auto; exact (I_cs s HI t' Hc)].
    destruct (I_cs s HI t Hc) as (V1 & V2 & V3 & V4). rewrite Et.
    split; [exact V1|]. split; [rewrite Hins; exact V2|]. split.
    + intros sl H1 H2. specialize (V3 sl H1 H2).
      destruct (t_pc (b_thr s t)); try contradiction. discriminate Hp.
    + intros sl H1 H2. specialize (V4 sl H1 H2).
      destruct (t_pc (b_thr s t)); try contradiction. discriminate Hp.
  - exact (I_free s HI).
  - exact (I_sorted s HI).
  - exact (I_rep s HI).
  - apply (updf_forall (fun _ th => TIs s' th)); [intros j _; apply (I_thr s HI)|exact HT].
Qed.

Lemma inv_lock_step s t th' :
  Inv s -> b_locked s = false ->
  in_cs (t_pc th') = true -> in_ins (t_pc th') = false ->
  TIs s th' ->
  step_ok s (with_thr s true (updf (b_thr s) t th')).
Proof.
  intros HI L Hcs Hins HT. set (s' := with_thr _ _ _).
  assert (Et : b_thr s' t = th') by apply updf_same.
  assert (Eo : forall t', t' <> t -> b_thr s' t' = b_thr s t') by (intros t' Hne; apply updf_other; exact Hne).
  assert (Hoth : forall t', in_cs (t_pc (b_thr s' t')) = true -> t' = t).
  { intros t' H. destruct (Nat.eq_dec t' t) as [|Hne]; [assumption|].
    rewrite Eo in H by auto. rewrite (inv_unlocked_nocs s t' HI L) in H. discriminate. }
  pose proof (I_free s HI L) as (F1 & F2 & F3).
  split; [|apply bframe_same; reflexivity]. constructor.
  - intros t1 t2 H1 H2. rewrite (Hoth _ H1), (Hoth _ H2). reflexivity.
  - intros _. exists t. rewrite Et. exact Hcs.
  - intros t' H. pose proof (Hoth _ H). subst t'. rewrite Et.
    split; [reflexivity|]. split; [rewrite Hins; exact F1|]. split.
    + intros sl H1 H2. exfalso. apply (F2 sl H1 H2).
    + intros sl H1 H2. exfalso. apply H2, F3, H1.
  - discriminate.
  - exact (I_sorted s HI).
  - exact (I_rep s HI).
  - apply (updf_forall (fun _ th => TIs s' th)); [intros j _; apply (I_thr s HI)|exact HT].
Qed.

(** A step of the lock holder.  The other threads are outside the critical
    section, so [TIs_frame] takes what is known of them across [bframe]; what
    is left to the caller are the five facts about the new shared part. *)
Lemma inv_holder_step s t o p p' x l' i' v' pm' ks' lv' :
  Inv s -> t_op (b_thr s t) = Some o -> t_pc (b_thr s t) = p -> in_cs p = true ->
  let s' := set_pc (wr s o l' i' v' pm' ks' lv' x) t p' in
  bframe s s' ->
  (if in_cs p' then cs_view l' i' pm' lv' p' else l' = false /\ free_view i' pm' lv') ->
  ksorted ks' pm' -> RepP ks' pm' lv' (bind_bm (bm s) (op_key o) x) ->
  TP i' v' pm' ks' lv' o
     (match x with Some y => y :: t_seen (b_thr s t) | None => t_seen (b_thr s t) end) p' ->
  step_ok s s'.
Proof.
  intros HI Ho Hpc Hc s' F Hview Hsort Hrep HP. rewrite <- Hpc in Hc.
  destruct (inv_thr_facts s t o HI Ho) as (Hok & Hin & _).
  assert (Ep : t_pc (b_thr s' t) = p') by apply set_pc_pc.
  assert (Eo : forall t', t' <> t -> b_thr s' t' = bind_thr (b_thr s) (op_key o) x t')
    by (intros t'; apply set_pc_other).
  assert (Hoth : forall t', in_cs (t_pc (b_thr s' t')) = true -> t' = t).
  { intros t' H. destruct (Nat.eq_dec t' t) as [|Hne]; [assumption|].
    rewrite (Eo t' Hne), bind_thr_pc, (inv_cs_other s t t' HI Hc Hne) in H. discriminate. }
  split; [|exact F]. constructor.
  - intros t1 t2 H1 H2. rewrite (Hoth _ H1), (Hoth _ H2). reflexivity.
  - intros L. change (l' = true) in L. exists t. rewrite Ep. destruct (in_cs p'); [reflexivity|].
    destruct Hview as [L' _]. congruence.
  - intros t' H. pose proof (Hoth _ H). subst t'. rewrite Ep in *. rewrite H in Hview. exact Hview.
  - intros L. change (l' = false) in L. destruct (in_cs p').
    + destruct Hview as [L' _]. congruence.
    + apply Hview.
  - exact Hsort.
  - exact Hrep.
  - intros t'. destruct (Nat.eq_dec t' t) as [->|Hne].
    + unfold TIs, TI, s'. rewrite set_pc_op, set_pc_seen, set_pc_pc.
      cbn [set_pc wr b_thr bm]. rewrite bind_thr_op, Ho.
      split; [exact Hok|]. destruct x as [y|]; cbn [bind_bm bind_thr] in *.
      * rewrite (nb_seen_self (b_thr s) (op_key o) y t o Ho eq_refl). split; [|exact HP].
        rewrite updm_same. cbn; auto.
      * auto.
    + rewrite (Eo t' Hne). apply (TIs_frame s s' (b_thr s t') _ (I_thr s HI t') F).
      * apply bind_thr_op.
      * apply bind_thr_pc.
      * apply bind_thr_seen_incl.
      * apply (inv_cs_other s t t' HI Hc Hne).
      * intros o' Ho'. destruct (inv_thr_facts s t' o' HI Ho') as (_ & Hin' & _).
        destruct x as [y|]; [apply nb_seen_bm; auto|exact Hin'].
Qed.

Lemma holder_release s t o p p' i' v' :
  Inv s -> t_op (b_thr s t) = Some o -> t_pc (b_thr s t) = p -> in_cs p = true -> plain p = true ->
  in_cs p' = false -> i' = false ->
  let s' := set_pc (wr s o false i' v' (b_perm s) (b_keys s) (b_lvs s) None) t p' in
  bframe s s' ->
  TP i' v' (b_perm s) (b_keys s) (b_lvs s) o (t_seen (b_thr s t)) p' ->
  step_ok s s'.
Proof.
  intros HI Ho Hpc Hc Hp Hc' Hi s' F HP.
  destruct (holder_view s t p HI Hpc Hc) as (_ & _ & V3 & V4).
  apply (inv_holder_step s t o p p' None _ _ _ _ _ _ HI Ho Hpc Hc F);
    [rewrite Hc'|apply (I_sorted s HI)|apply (I_rep s HI)|exact HP].
  split; [reflexivity|]. split; [exact Hi|]. split.
  - intros sl H1 H2. specialize (V3 sl H1 H2). destruct p; try contradiction; discriminate.
  - intros sl H1. destruct (N.eq_dec (b_lvs s sl) 0) as [E|E]; [exact E|].
    specialize (V4 sl H1 E). destruct p; try contradiction; discriminate.
Qed.

(** ** Steps that only move the stepping thread *)

Lemma inv_set_pc s t o p p' :
  Inv s -> t_op (b_thr s t) = Some o -> t_pc (b_thr s t) = p ->
  in_cs p' = in_cs p -> in_ins p' = in_ins p -> plain p = true ->
  TP (b_insdel s) (b_vins s) (b_perm s) (b_keys s) (b_lvs s) o (t_seen (b_thr s t)) p' ->
  step_ok s (set_pc s t p').
Proof.
  intros HI Ho <- H1 H2 H3 HP. destruct (inv_thr_facts s t o HI Ho) as (Hok & Hin & _).
  apply (inv_local_step s t {| t_op := t_op (b_thr s t); t_pc := p'; t_seen := t_seen (b_thr s t) |});
    try assumption.
  unfold TIs, TI. cbn [t_op t_pc t_seen]. rewrite Ho. auto.
Qed.

Lemma stable_true s : stable s = true -> b_locked s = false /\ b_insdel s = false.
Proof. unfold stable. destruct (b_locked s), (b_insdel s); cbn; intuition discriminate. Qed.

Lemma stable_some_seen s t o :
  Inv s -> t_op (b_thr s t) = Some o -> b_locked s = false ->
  forall sl, In sl (b_perm s) -> b_keys s sl = op_key o -> some_seen (t_seen (b_thr s t)).
Proof.
  intros HI Ho L sl Hsl Hk. destruct (inv_thr_facts s t o HI Ho) as (_ & Hin & _).
  pose proof (I_free s HI L) as (_ & F2 & _).
  exists (b_lvs s sl). rewrite <- (rep_bound s sl HI Hsl (F2 sl Hsl)), Hk. exact Hin.
Qed.

Lemma absent_none_seen s t o :
  Inv s -> t_op (b_thr s t) = Some o ->
  absent (b_perm s) (b_keys s) (op_key o) -> In None (t_seen (b_thr s t)).
Proof.
  intros HI Ho Hab. destruct (inv_thr_facts s t o HI Ho) as (_ & Hin & _).
  rewrite <- (rep_absent s _ HI Hab). exact Hin.
Qed.

Lemma moves_class fixed s o p p' :
  moves fixed s o p p' -> in_cs p' = in_cs p /\ in_ins p' = in_ins p /\ plain p = true.
Proof.
  destruct 1; cbn [in_cs in_ins plain after_check]; repeat split; try reflexivity;
    try destruct o; try destruct found; reflexivity.
Qed.

Lemma moves_ok s t o p p' :
  Inv s -> t_op (b_thr s t) = Some o -> t_pc (b_thr s t) = p -> moves true s o p p' ->
  step_ok s (set_pc s t p').
Proof.
  intros HI Ho Hpc M. destruct (moves_class _ _ _ _ _ M) as (C1 & C2 & C3).
  apply (inv_set_pc s t o p p' HI Ho Hpc C1 C2 C3). pose proof (inv_at_pc s t o p HI Ho Hpc) as HP.
  destruct (inv_thr_facts s t o HI Ho) as (_ & Hin & _).
  destruct M as [St|v|v|v sl rest E|v sl rest L|v sl rest L|v found St E|v found St E
                 |v sl|v sl w St E|v sl _ St E|v sl w [W|W] St E
                 |v St E|v St E
                 |v found E|v E|v sl E|v E|v r sl E];
    cbn [TP] in HP; try apply stable_true in St as [Lk Hi].
  - (* M_stable_version *)
    split; [lia|]. intros _ x Hx Hk. eapply stable_some_seen; eauto.
  - (* M_load_perm *)
    apply (since_mono _ _ _ _ _ HP). intros Hc H. split; [apply (I_sorted s HI)|]. split; [auto|exact H].
  - (* M_search_end *)
    apply (since_mono _ _ _ _ _ HP). intros Hc (_ & S2 & _) x Hx Hk. apply (S2 x Hx Hk).
  - (* M_search_hit *)
    apply (since_mono _ _ _ _ _ HP). intros Hc (_ & _ & S3). split; [exact E|]. apply (S3 sl); cbn; auto.
  - (* M_search_past: the rest of the snapshot is sorted, so its keys are larger still *)
    apply (since_mono _ _ _ _ _ HP). intros Hc ([S1 S2] & S3 & _) x Hx Hk.
    destruct (S3 x Hx Hk) as [<-|Hr]; [lia|]. specialize (S1 x Hr). lia.
  - (* M_search_next *)
    apply (since_mono _ _ _ _ _ HP). intros Hc ([S1 S2] & S3 & S4). split; [exact S2|]. split.
    + intros x Hx Hk. destruct (S3 x Hx Hk) as [<-|Hr]; [lia|exact Hr].
    + intros x Hx Hk. apply (S4 x); cbn; auto.
  - (* M_recheck_changed *)
    split; [lia|]. intros _ x Hx Hk. eapply stable_some_seen; eauto.
  - (* M_recheck_same: the search result is the truth at this instant *)
    assert (Hc : Cnd (b_insdel s) (b_vins s) v) by (split; assumption).
    assert (Hnone : found = None -> In None (t_seen (b_thr s t))).
    { intros ->. destruct HP as [_ HP]. eapply absent_none_seen; eauto. }
    assert (Hsome : forall sl, found = Some sl -> some_seen (t_seen (b_thr s t))).
    { intros sl ->. destruct HP as [_ HP]. apply (HP Hc). }
    unfold after_check. destruct o, found; cbn [TP res_ok is_get is_rem]; eauto.
    eapply Hsome; reflexivity.
  - (* M_load_lv *)
    destruct HP as [Hg HP]. split; [exact Hg|]. apply (since_mono _ _ _ _ _ HP). intros Hc [Hk _].
    destruct (word_of_slot s sl HI (proj2 Hc)) as [E|E]; [left; exact E|right]. rewrite <- E, Hk. exact Hin.
  - (* M_get_changed *) exact I.
  - (* M_get_cleared *) exact I.
  - (* M_get_ok of the original reader *) discriminate W.
  - (* M_get_ok of the repaired one: the word is not the cleared one, so it was a binding *)
    destruct HP as (Hg & Hle & HC). cbn [TP].
    destruct o; try contradiction. cbn [res_ok]. split; [exact W|].
    destruct (HC (conj E Hi)) as [E0|E0]; [contradiction|exact E0].
  - (* M_rem_changed *) exact I.
  - (* M_rem_not_found *)
    destruct HP as (Hg & Hle & HC). cbn [TP].
    destruct o; try contradiction. cbn [res_ok]. eapply absent_none_seen; eauto. apply HC. split; assumption.
  - (* M_validate_changed *) exact I.
  - (* M_validate_absent: under the lock and at the validated version, the search result is the truth *)
    destruct HP as [Hle HC]. destruct (holder_view s t _ HI Hpc eq_refl) as (_ & Hi & _). cbn [in_ins] in Hi.
    apply HC. split; assumption.
  - (* M_validate_found *) exact I.
  - (* M_relook_gone *)
    rewrite find_rank_none in E. pose proof (absent_none_seen s t o HI Ho E) as Hn.
    destruct o; cbn [TP res_ok]; auto.
  - (* M_relook_found *)
    apply find_rank_some in E as (i & -> & Hi & Hn & Hsl & Hk). cbn [Nat.add].
    destruct o; cbn [TP is_rem]; auto.
Qed.

(** ** The representation relation under the writers' stores *)

Lemma RepP_ext ks ks' pm lv lv' m :
  (forall a, In a pm -> ks' a = ks a) -> (forall a, In a pm -> lv' a = lv a) ->
  RepP ks pm lv m -> RepP ks' pm lv' m.
Proof.
  intros Hk Hl R k. destruct (R k) as [R1 R2]. split.
  - intros sl Hsl E. rewrite Hk in E by exact Hsl. rewrite Hl by exact Hsl. auto.
  - intros H. apply R2. intros sl Hsl. rewrite <- Hk by exact Hsl. auto.
Qed.

Lemma RepP_insert ks pm lv m k r sl :
  RepP ks pm lv m -> absent pm ks k -> ks sl = k -> lv sl <> 0 ->
  RepP ks (insert_at r sl pm) lv (updm m k (Some (lv sl))).
Proof.
  intros R Hab Hk Hv k'. destruct (R k') as [R1 R2]. split.
  - intros x Hx E. apply in_insert_at in Hx as [->|Hx].
    + rewrite Hk in E. subst k'. rewrite updm_same.
      destruct (N.eqb_spec (lv sl) 0); [contradiction|reflexivity].
    + destruct (N.eq_dec k' k) as [->|Hne]; [exfalso; eapply Hab; eauto|].
      rewrite updm_other by exact Hne. auto.
  - intros H. destruct (N.eq_dec k' k) as [->|Hne].
    + exfalso. apply (H sl); [apply in_insert_at; auto|exact Hk].
    + rewrite updm_other by exact Hne. apply R2. intros x Hx. apply H. apply in_insert_at; auto.
Qed.

Lemma RepP_store ks pm lv m k sl w :
  RepP ks pm lv m -> ksorted ks pm -> In sl pm -> ks sl = k ->
  RepP ks pm (updf lv sl w) (updm m k (if w =? 0 then None else Some w)).
Proof.
  intros R Hs Hsl Hk k'. destruct (R k') as [R1 R2]. split.
  - intros x Hx E. destruct (N.eq_dec k' k) as [->|Hne].
    + assert (x = sl) by (eapply ksorted_inj; eauto; congruence). subst x.
      rewrite updm_same, updf_same. reflexivity.
    + rewrite updm_other by exact Hne. rewrite updf_other by congruence. auto.
  - intros H. destruct (N.eq_dec k' k) as [->|Hne]; [exfalso; eapply H; eauto|].
    rewrite updm_other by exact Hne. auto.
Qed.

Lemma RepP_shrink ks pm lv m rk :
  RepP ks pm lv m -> (rk < length pm)%nat -> lv (nth rk pm 0%nat) = 0 ->
  RepP ks (remove_at rk pm) lv m.
Proof.
  intros R Hrk Hz k'. destruct (R k') as [R1 R2]. split.
  - intros x Hx E. apply R1; [eapply in_remove_at_incl; eauto|exact E].
  - intros H. destruct (N.eq_dec (ks (nth rk pm 0%nat)) k') as [E|E].
    + rewrite (R1 _ (nth_In pm 0%nat Hrk) E), Hz. reflexivity.
    + apply R2. intros x Hx. apply (in_remove_at 0%nat rk x pm Hrk) in Hx as [->|Hx]; auto.
Qed.

(** ** Steps that write *)

Lemma writes_ok s t o p s0 p' :
  Inv s -> t_op (b_thr s t) = Some o -> t_pc (b_thr s t) = p -> writes s o p s0 p' ->
  step_ok s (set_pc s0 t p').
Proof.
  intros HI Ho Hpc W. pose proof (inv_at_pc s t o p HI Ho Hpc) as HP.
  destruct (inv_thr_facts s t o HI Ho) as (Hok & Hin & _).
  destruct W as [v found L| |Hlen|sl r|sl r Hv|sl r Hv| |sl Hv|sl r|r|r]; cbn [TP] in HP;
    try (destruct (holder_view s t _ HI Hpc eq_refl) as (V1 & V2 & V3 & V4); cbn [in_ins] in V2).
  - (* W_lock *)
    apply (inv_lock_step s t {| t_op := t_op (b_thr s t); t_pc := PValidate v found;
                                t_seen := t_seen (b_thr s t) |} HI L); try reflexivity.
    unfold TIs, TI. cbn [t_op t_pc t_seen]. rewrite Ho. auto.
  - (* W_unlock_retry *)
    apply (holder_release s t o _ _ _ _ HI Ho Hpc eq_refl eq_refl);
      [reflexivity|exact V2|apply bframe_same; reflexivity|exact I].
  - (* W_set_inserting *)
    apply (inv_holder_step s t o _ _ None _ _ _ _ _ _ HI Ho Hpc eq_refl).
    + apply bframe_dirty; reflexivity.
    + repeat split; auto.
    + apply (I_sorted s HI).
    + apply (I_rep s HI).
    + cbn [TP]. split.
      * apply free_slot_free; [|exact Hlen]. eapply ksorted_NoDup. apply (I_sorted s HI).
      * apply rank_of_spec; [apply (I_sorted s HI)|exact HP].
  - (* W_set_key: the slot is outside the permutation *)
    destruct HP as [Hnin Hpos].
    assert (He : forall a, In a (b_perm s) -> updf (b_keys s) sl (op_key o) a = b_keys s a).
    { intros a Ha. apply updf_other. intros ->. contradiction. }
    apply (inv_holder_step s t o _ _ None _ _ _ _ _ _ HI Ho Hpc eq_refl).
    + apply bframe_dirty; [reflexivity|exact V2].
    + repeat split; auto.
    + eapply ksorted_ext; [exact He|]. apply (I_sorted s HI).
    + eapply RepP_ext; [exact He|reflexivity|]. apply (I_rep s HI).
    + cbn [TP]. split; [exact Hnin|]. split; [eapply insert_pos_ext; eauto|]. apply updf_same.
  - (* W_set_lv *)
    destruct HP as (Hnin & Hpos & Hk).
    assert (He : forall a, In a (b_perm s) -> updf (b_lvs s) sl (op_val o) a = b_lvs s a).
    { intros a Ha. apply updf_other. intros ->. contradiction. }
    apply (inv_holder_step s t o _ _ None _ _ _ _ _ _ HI Ho Hpc eq_refl).
    + apply bframe_dirty; [reflexivity|exact V2].
    + repeat split; auto.
      * intros a Ha. rewrite He by exact Ha. apply V3. exact Ha.
      * intros a Ha Hz. destruct (Nat.eq_dec a sl) as [E|E]; [exact E|].
        rewrite updf_other in Hz by exact E. exfalso. apply (V4 a Ha Hz).
    + apply (I_sorted s HI).
    + eapply RepP_ext; [reflexivity|exact He|]. apply (I_rep s HI).
    + cbn [TP]. split; [exact Hnin|]. split; [exact Hpos|]. split; [exact Hk|].
      rewrite updf_same. destruct o; cbn [op_val]; auto.
  - (* W_insert_rank *)
    destruct HP as (Hnin & Hpos & Hk & Hlv).
    assert (Hv' : b_lvs s sl = op_val o /\ op_val o <> 0 /\ res_ok o (Some (op_val o) :: t_seen (b_thr s t)) ROk).
    { destruct o; try discriminate Hv; cbn [op_val op_ok res_ok In] in *; auto. }
    destruct Hv' as (Hv1 & Hv0 & Hres).
    apply (inv_holder_step s t o _ _ (Some (Some (op_val o))) _ _ _ _ _ _ HI Ho Hpc eq_refl).
    + apply bframe_dirty; [reflexivity|exact V2].
    + repeat split; auto.
      * intros a Ha Hz. apply in_insert_at in Ha as [->|Ha]; [congruence|]. apply (V3 a Ha Hz).
      * intros a Ha Hz. apply Ha. apply in_insert_at. left.
        apply V4; [|exact Hz]. intros Hin'. apply Ha. apply in_insert_at. auto.
    + destruct Hpos as (P1 & P2 & P3).
      apply ksorted_insert_at; [apply (I_sorted s HI)| |]; rewrite Hk; assumption.
    + cbn [bind_bm]. rewrite <- Hv1. apply RepP_insert; auto.
      * apply (I_rep s HI).
      * eapply insert_pos_absent; eauto.
      * congruence.
    + exact Hres.
  - (* W_unlock_inserted *)
    apply (holder_release s t o _ _ _ _ HI Ho Hpc eq_refl eq_refl);
      [reflexivity|reflexivity|apply bframe_bump; reflexivity|exact HP].
  - (* W_set_value *)
    destruct HP as (Hsl & Hk).
    assert (Hv' : op_val o <> 0 /\ res_ok o (Some (op_val o) :: t_seen (b_thr s t)) ROk).
    { destruct o; try discriminate Hv; cbn [op_val op_ok res_ok In] in *; auto. }
    destruct Hv' as (Hv0 & Hres).
    apply (inv_holder_step s t _ _ _ (Some (Some (op_val o))) _ _ _ _ _ _ HI Ho Hpc eq_refl).
    + apply bframe_same; reflexivity.
    + repeat split; auto.
      * intros a Ha Hz. destruct (Nat.eq_dec a sl) as [->|E].
        -- rewrite updf_same in Hz. contradiction.
        -- rewrite updf_other in Hz by exact E. apply (V3 a Ha Hz).
      * intros a Ha Hz. rewrite updf_other in Hz by (intros ->; contradiction). apply (V4 a Ha Hz).
    + apply (I_sorted s HI).
    + pose proof (RepP_store _ _ _ _ _ sl (op_val o) (I_rep s HI) (I_sorted s HI) Hsl Hk) as R.
      destruct (N.eqb_spec (op_val o) 0); [contradiction|exact R].
    + exact Hres.
  - (* W_init_lv *)
    destruct HP as (Hrem & Hrk & Hn & Hk).
    assert (Hsl : In sl (b_perm s)) by (rewrite <- Hn; apply nth_In; exact Hrk).
    apply (inv_holder_step s t o _ _ (Some None) _ _ _ _ _ _ HI Ho Hpc eq_refl).
    + apply bframe_same; reflexivity.
    + repeat split; auto.
      * intros a Ha Hz. destruct (Nat.eq_dec a sl) as [->|E]; [symmetry; exact Hn|].
        rewrite updf_other in Hz by exact E. exfalso. apply (V3 a Ha Hz).
      * intros a Ha Hz. rewrite updf_other in Hz by (intros ->; contradiction). apply (V4 a Ha Hz).
    + apply (I_sorted s HI).
    + apply (RepP_store _ _ _ _ (op_key o) sl 0 (I_rep s HI) (I_sorted s HI) Hsl Hk).
    + cbn [TP In]. rewrite Hn, updf_same. repeat split; auto.
  - (* W_delete_rank *)
    destruct HP as (Hrem & Hrk & Hk & Hz & Hnone).
    apply (inv_holder_step s t o _ _ None _ _ _ _ _ _ HI Ho Hpc eq_refl).
    + apply bframe_shrink; try reflexivity. intros a. apply in_remove_at_incl.
    + repeat split; auto.
      * intros a Ha Hza. pose proof (V3 a (in_remove_at_incl _ _ _ Ha) Hza) as E. subst a.
        eapply nth_notin_remove_at; [exact (ksorted_NoDup _ _ (I_sorted s HI))|exact Hrk|exact Ha].
      * intros a Ha Hza. destruct (in_dec Nat.eq_dec a (b_perm s)) as [Hin'|Hin'].
        -- apply (in_remove_at 0%nat r a _ Hrk) in Hin' as [->|Hin']; [congruence|contradiction].
        -- apply (V4 a Hin' Hza).
    + apply ksorted_remove_at, (I_sorted s HI).
    + apply RepP_shrink; auto. apply (I_rep s HI).
    + cbn [TP]. destruct o; try contradiction. exact Hnone.
  - (* W_unlock *)
    apply (holder_release s t o _ _ _ _ HI Ho Hpc eq_refl eq_refl);
      [reflexivity|exact V2|apply bframe_same; reflexivity|exact HP].
Qed.

(** ** Every event preserves the invariant *)

Theorem inv_step_frame s e s' : Inv s -> bstep true s e = Some s' -> step_ok s s'.
Proof.
  intros HI H. destruct e as [t o|t|t].
  - apply bstep_invoke in H as (Hpc & Hok & ->).
    apply (inv_local_step s t _ HI); cbn [t_pc]; rewrite ?Hpc; try reflexivity.
    unfold TIs, TI. cbn. auto.
  - apply bstep_does in H as (o & Ho & [W|p' M|s0 p' W]).
    + apply step_ok_refl, HI.
    + eapply moves_ok; eauto.
    + eapply writes_ok; eauto.
  - apply bstep_return in H as ((r & Hpc) & ->).
    apply (inv_local_step s t _ HI); cbn [t_pc idle_thread]; rewrite ?Hpc; reflexivity.
Qed.

Corollary inv_step s e s' : Inv s -> bstep true s e = Some s' -> Inv s'.
Proof. intros HI H. apply (inv_step_frame s e s' HI H). Qed.

Corollary bstep_frame s e s' : Inv s -> bstep true s e = Some s' -> bframe s s'.
Proof. intros HI H. apply (inv_step_frame s e s' HI H). Qed.

Theorem inv_run tr s s' : Inv s -> brun true s tr = Some s' -> Inv s'.
Proof. apply (brun_inv true Inv inv_step). Qed.

Corollary inv_reachable tr s : brun true binit tr = Some s -> Inv s.
Proof. apply inv_run. exact inv_init. Qed.

(** ** Facts from [Inv] *)

Lemma inv_op_of_pc s t : Inv s -> t_pc (b_thr s t) <> PIdle -> exists o, t_op (b_thr s t) = Some o.
Proof.
  intros HI Hne. pose proof (I_thr s HI t) as H. unfold TIs, TI in H.
  destruct (t_op (b_thr s t)) as [o|]; [eauto|congruence].
Qed.

Lemma inv_cs_op s t p :
  Inv s -> t_pc (b_thr s t) = p -> in_cs p = true -> b_locked s = true /\ exists o, t_op (b_thr s t) = Some o.
Proof.
  intros HI <- Hcs. split; [apply (I_cs s HI t Hcs)|].
  apply (inv_op_of_pc s t HI). intros E. rewrite E in Hcs. discriminate Hcs.
Qed.

Lemma inv_done_res s t o r :
  Inv s -> t_op (b_thr s t) = Some o -> t_pc (b_thr s t) = PDone r -> res_ok o (t_seen (b_thr s t)) r.
Proof. apply inv_at_pc. Qed.

Lemma inv_clear_bound s t o sl rk :
  Inv s -> t_op (b_thr s t) = Some o -> t_pc (b_thr s t) = PClear sl rk ->
  is_rem o /\ b_lvs s sl <> 0 /\ bm s (op_key o) = Some (b_lvs s sl).
Proof.
  intros HI Ho Hpc. destruct (inv_at_pc s t o _ HI Ho Hpc) as (Hrem & Hrk & Hn & Hk).
  destruct (holder_view s t _ HI Hpc eq_refl) as (_ & _ & V3 & _).
  assert (Hsl : In sl (b_perm s)) by (rewrite <- Hn; apply nth_In; exact Hrk).
  assert (Hz : b_lvs s sl <> 0) by (intros Hz; apply (V3 sl Hsl Hz)).
  rewrite <- Hk. auto using rep_bound.
Qed.

Lemma inv_overwrite_bound s t o sl :
  Inv s -> t_op (b_thr s t) = Some o -> t_pc (b_thr s t) = POverwrite sl ->
  b_lvs s sl <> 0 /\ bm s (op_key o) = Some (b_lvs s sl).
Proof.
  intros HI Ho Hpc. destruct (inv_at_pc s t o _ HI Ho Hpc) as (Hsl & Hk).
  destruct (holder_view s t _ HI Hpc eq_refl) as (_ & _ & V3 & _).
  assert (Hz : b_lvs s sl <> 0) by (intros Hz; apply (V3 sl Hsl Hz)).
  rewrite <- Hk. auto using rep_bound.
Qed.

Lemma inv_storeperm_unbound s t o sl r :
  Inv s -> t_op (b_thr s t) = Some o -> t_pc (b_thr s t) = PStorePerm sl r -> bm s (op_key o) = None.
Proof.
  intros HI Ho Hpc. destruct (inv_at_pc s t o _ HI Ho Hpc) as (_ & Hpos & _).
  apply (rep_absent s _ HI). eapply insert_pos_absent; eauto.
Qed.

Lemma rep_find_rank s k :
  Inv s ->
  bm s k = match find_rank (b_keys s) (b_perm s) k 0 with
           | Some (_, sl) => if b_lvs s sl =? 0 then None else Some (b_lvs s sl)
           | None => None
           end.
Proof.
  intros HI. destruct (find_rank (b_keys s) (b_perm s) k 0) as [[rk sl]|] eqn:E.
  - destruct (find_rank_in _ _ _ _ _ _ E) as [Hsl <-]. apply (rep_slot s sl HI Hsl).
  - apply (rep_absent s k HI). rewrite find_rank_none in E. exact E.
Qed.

Lemma rep_find_rank_free s k :
  Inv s -> b_locked s = false ->
  bm s k = match find_rank (b_keys s) (b_perm s) k 0 with
           | Some (_, sl) => Some (b_lvs s sl)
           | None => None
           end.
Proof.
  intros HI L. rewrite (rep_find_rank s k HI).
  destruct (find_rank (b_keys s) (b_perm s) k 0) as [[rk sl]|] eqn:E; [|reflexivity].
  destruct (find_rank_in _ _ _ _ _ _ E) as [Hsl _]. destruct (I_free s HI L) as (_ & F2 & _).
  destruct (N.eqb_spec (b_lvs s sl) 0) as [Z|Z]; [destruct (F2 sl Hsl Z)|reflexivity].
Qed.

Lemma inv_mutex s :
  Inv s ->
  (b_locked s = true <->
   exists t, in_cs (t_pc (b_thr s t)) = true /\ forall t', in_cs (t_pc (b_thr s t')) = true -> t' = t).
Proof.
  intros HI. split.
  - intros L. destruct (I_holder s HI L) as [t Ht]. exists t. split; [exact Ht|].
    intros t' Ht'. eapply I_uniq; eauto.
  - intros (t & Ht & _). apply (I_cs s HI t Ht).
Qed.

(** ** The original reader

    on this schedule it returns OK with the cleared word, which was never a
    binding of the key ([C01_original_reader_null_refuted] in Properties_C01.v) *)
Definition refuting_trace : list bev :=
  [BInvoke 0 (OpPut 5 7)] ++ repeat (BStep 0) 11 ++ [BReturn 0] ++
  [BInvoke 1 (OpGet 5); BInvoke 2 (OpRem 5)] ++ repeat (BStep 1) 4 ++ repeat (BStep 2) 7 ++
  [BStep 2] ++ [BStep 1] ++ repeat (BStep 2) 2 ++ [BStep 1].

(** the repaired reader on the same schedule goes back to the start *)
Example fixed_reader_retries :
  match brun true binit refuting_trace with
  | Some s => t_pc (b_thr s 1%nat) = PStable0
  | None => False
  end.
Proof. vm_compute. reflexivity. Qed.
