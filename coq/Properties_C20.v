(** * C20 -- mem_usage reports, per tree depth, the node count and the used /
    reserved bytes of the nodes at that depth.  Property theorems only. *)
From Coq Require Import NArith List Lia.
From Yk Require Import SysDefs MemDefs MemProofs.
Local Open Scope N_scope.

(** the accumulation as coded (stack of per-level counters grown during a
    depth-first walk through interiors, borders and next-layer roots) equals the
    per-depth sums over the list of all nodes -- for every tree, without any
    well-formedness hypothesis *)
Theorem C20_mem_usage_is_shape_stats : forall tr, mem_usage tr = shape_stats tr.
Proof. exact mem_usage_shape. Qed.
Print Assumptions C20_mem_usage_is_shape_stats.

(** used bytes never exceed reserved bytes, at every depth ([tree_bounded] is not used: the model's
    subtractions are truncated, see [MemProofs.used_le_reserved_all]) *)
Theorem C20_used_le_reserved : forall tr,
  tree_bounded tr -> forall n u r, In (n, u, r) (mem_usage tr) -> u <= r.
Proof. intros tr _. apply used_le_reserved_all. Qed.
Print Assumptions C20_used_le_reserved.

(** one entry per tree depth; its node count is the number of nodes at that depth *)
Theorem C20_node_counts : forall tr d,
  fst (fst (nth d (shape_stats tr) (0, 0, 0)))
  = N.of_nat (length (filter (fun x : node => Nat.eqb (fst (fst (fst x))) d) (shape_nodes tr))).
Proof. intros tr d. rewrite nth_shape_stats. apply stat_at_count. Qed.
Print Assumptions C20_node_counts.

(** reserved bytes at a depth = 320 per node + the value footprints held by the
    borders at that depth *)
Theorem C20_reserved_reading : forall tr d,
  snd (nth d (shape_stats tr) (0, 0, 0))
  = 320 * N.of_nat (length (filter (fun x : node => Nat.eqb (fst (fst (fst x))) d) (shape_nodes tr)))
    + vf_at (shape_nodes tr) d.
Proof. intros tr d. rewrite nth_shape_stats. apply stat_at_reserved. Qed.
Print Assumptions C20_reserved_reading.

(** the used bytes [mem_usage] counts for a border with [occ] occupied slots holding [vf] value
    bytes, [sizeof_border - (15 - occ) * sizeof_lv + vf] (MemDefs.v), are monotone in both *)
Theorem C20_used_monotone : forall occ occ' vf vf',
  occ <= occ' -> occ' <= 15 -> vf <= vf' ->
  sizeof_border - (15 - occ) * sizeof_lv + vf <= sizeof_border - (15 - occ') * sizeof_lv + vf'.
Proof. intros. unfold sizeof_border, sizeof_lv. lia. Qed.
Print Assumptions C20_used_monotone.

(** non-vacuity: a storage with 20 one-byte keys and 20 ten-byte keys sharing an
    8-byte prefix: layer 0 has an interior root over two borders, one border
    links to a second layer which again has an interior root over two borders
    -- four depths; the tree is bounded and both descriptions agree on it *)
Definition c20_ops : list op :=
  OCreate [115] ::
  map (fun i => OPut [115] [N.of_nat i] [1; 2; 3] 8 false false) (seq 1 20) ++
  map (fun i => OPut [115] [1; 2; 3; 4; 5; 6; 7; 8; N.of_nat i; 7] [1; 2; 3; 4; 5] 8 false false) (seq 1 20).

Example C20_nonvacuous :
  exists tr,
    trees_get (sy_trees (fst (exec_all sys_init c20_ops))) 1 = Some tr /\
    tree_bounded tr /\
    length (t_layers tr) = 2%nat /\
    mem_usage tr = [(1, 208, 320); (2, 788, 860); (1, 208, 320); (2, 820, 900)] /\
    (3 <= length (mem_usage tr))%nat /\
    mem_usage tr = shape_stats tr /\
    length (shape_nodes tr) = 6%nat.
Proof.
  (* one evaluation of the run; everything else follows from its result *)
  assert (match trees_get (sy_trees (fst (exec_all sys_init c20_ops))) 1 with
          | Some tr => (tree_boundedb tr, length (t_layers tr), mem_usage tr, length (shape_nodes tr))
          | None => (false, 0%nat, nil, 0%nat)
          end = (true, 2%nat, [(1, 208, 320); (2, 788, 860); (1, 208, 320); (2, 820, 900)], 6%nat)) as H
    by (vm_compute; reflexivity).
  destruct (trees_get (sy_trees (fst (exec_all sys_init c20_ops))) 1) as [tr|]; [|discriminate H].
  injection H as Hb Hl Hm Hn. exists tr. split; [reflexivity|].
  split; [exact (tree_boundedb_sound tr Hb)|]. split; [exact Hl|]. split; [exact Hm|].
  split; [rewrite Hm; repeat constructor|]. split; [apply mem_usage_shape|exact Hn].
Qed.
