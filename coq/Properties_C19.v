(** * C19 -- the leaf permutation word always encodes a valid ordering of
    occupied slots.  Property theorems only. *)
From Coq Require Import NArith Lia List.
From Yk Require Import ListAux Word64 PermDefs PermProofs.
Local Open Scope N_scope.

(** inserting slot [p] at rank [r] shifts exactly the later ranks by one and
    places [p] there; the result is a valid word *)
Theorem C19_insert_rank : forall w r p,
  Valid w -> get_cnk w < 15 -> r <= get_cnk w -> p < 15 -> ~ In p (perm_list w) ->
  perm_list (insert_rank w r p) = insert_at (N.to_nat r) p (perm_list w) /\
  get_cnk (insert_rank w r p) = get_cnk w + 1 /\
  Valid (insert_rank w r p).
Proof.
  intros w r p Hv Hc Hr Hp Hn. split; [|split].
  - apply insert_rank_list; lia.
  - apply insert_rank_cnk; exact Hc.
  - apply insert_rank_valid; assumption.
Qed.
Print Assumptions C19_insert_rank.

(** deleting a rank closes the gap *)
Theorem C19_delete_rank : forall w r,
  Valid w -> r < get_cnk w ->
  perm_list (delete_rank w r) = remove_at (N.to_nat r) (perm_list w) /\
  get_cnk (delete_rank w r) = get_cnk w - 1 /\
  Valid (delete_rank w r).
Proof.
  intros w r Hv Hr. split; [|split].
  - apply delete_rank_list; [apply Hv|exact Hr].
  - apply delete_rank_cnk. lia.
  - apply delete_rank_valid; assumption.
Qed.
Print Assumptions C19_delete_rank.

(** the reported free slot is never one in use (and is the lowest free one) *)
Theorem C19_empty_slot_free : forall w,
  get_cnk w < 15 ->
  ~ In (get_empty_slot w) (perm_list w) /\ get_empty_slot w < 15 /\
  (forall k, k < get_empty_slot w -> In k (perm_list w)).
Proof. exact get_empty_slot_free. Qed.
Print Assumptions C19_empty_slot_free.

(** the split initialiser produces the identity on the moved entries *)
Theorem C19_split_dest_identity : forall num,
  1 <= num -> num <= 15 ->
  perm_list (split_dest num) = map N.of_nat (seq 0 (N.to_nat num)) /\ Valid (split_dest num).
Proof. intros num H1 H2. split; [apply split_dest_list|apply split_dest_valid]; assumption. Qed.
Print Assumptions C19_split_dest_identity.

(** reading a rank returns that element of the ordering *)
Theorem C19_index_of_rank : forall w r d,
  r < get_cnk w -> get_index_of_rank w r = nth (N.to_nat r) (perm_list w) d.
Proof.
  intros w r d Hr. rewrite get_index_of_rank_nib, perm_list_nth by lia.
  rewrite Nnat.N2Nat.id. reflexivity.
Qed.
Print Assumptions C19_index_of_rank.

(** no shift the two update functions perform is >= 64 (no undefined behaviour) *)
Theorem C19_no_ub_shift : forall w r,
  (get_cnk w < 15 -> r <= get_cnk w -> Forall (fun s => s < 64) (insert_rank_shifts w r)) /\
  (r < get_cnk w -> Forall (fun s => s < 64) (delete_rank_shifts w r)).
Proof. intros w r. split; [apply insert_rank_no_ub|apply delete_rank_no_ub]. Qed.
Print Assumptions C19_no_ub_shift.

(** the empty word is valid (that every update is one word is in the types: the functions are N -> N) *)
Theorem C19_init_valid : Valid 0.
Proof. exact init_valid. Qed.
Print Assumptions C19_init_valid.

(** non-vacuity: a concrete 5-entry word meets every hypothesis above *)
Example C19_nonvacuous :
  let w := 0x0000000000a17305 in
  Valid w /\ get_cnk w = 5 /\ perm_list w = [0; 3; 7; 1; 10] /\
  get_empty_slot w = 2 /\
  perm_list (insert_rank w 2 2) = [0; 3; 2; 7; 1; 10] /\
  perm_list (delete_rank w 4) = [0; 3; 7; 1].
Proof.
  cbv zeta. split; [apply perm_validb_sound; vm_compute; reflexivity|].
  repeat split; vm_compute; reflexivity.
Qed.
