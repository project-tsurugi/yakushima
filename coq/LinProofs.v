(** * LinProofs: the executable checker [lin_check] (used extracted, as the
    oracle that judges the per-key projections of histories recorded on real
    runs) is sound and complete w.r.t. the declarative definition of per-key
    linearizability.  Completeness needs [h_inv o <= h_res o] for every
    operation: [minimal o pending] quantifies over all of [pending] including
    [o] itself, so the search can only pick [o] when [precedes o o = false],
    and neither [respects_rt] nor [run_seq] forces that ([wf_needed]). *)
From Coq Require Import Permutation.
From Yk Require Import LinDefs.
Local Open Scope N_scope.

Definition linearizable (init : option N) (h : list hop) : Prop :=
  exists l, Permutation l h /\ respects_rt l = true /\ run_seq init l = true.

Definition hop_wf (o : hop) : Prop := h_inv o <= h_res o.

(** ** [remove_nth_hop], and [lin_search] unfolded one step *)

Lemma remove_nth_perm : forall i l o,
  nth_error l i = Some o -> Permutation (o :: remove_nth_hop i l) l.
Proof.
  induction i as [|i IH]; intros [|a r] o H; cbn in H; try discriminate.
  - injection H as ->. cbn. apply Permutation_refl.
  - cbn [remove_nth_hop].
    eapply perm_trans; [apply perm_swap|].
    apply perm_skip. apply IH. exact H.
Qed.

Lemma lin_search_nil : forall fuel st, lin_search fuel st [] = true.
Proof. intros [|f] st; reflexivity. Qed.

Lemma lin_search_S : forall f st pending,
  pending <> [] ->
  lin_search (S f) st pending =
  existsb (fun i =>
             match nth_error pending i with
             | None => false
             | Some o =>
               minimal o pending &&
               match apply_op st o with
               | Some st' => lin_search f st' (remove_nth_hop i pending)
               | None => false
               end
             end) (seq 0 (length pending)).
Proof. intros f st [|p ps] H; [congruence|reflexivity]. Qed.

Lemma lin_search_O : forall st pending,
  pending <> [] -> lin_search O st pending = false.
Proof. intros st [|p ps] H; [congruence|reflexivity]. Qed.

Lemma precedes_refl_false : forall o, hop_wf o -> precedes o o = false.
Proof. intros o H. apply N.ltb_ge. exact H. Qed.

(** ** Soundness *)

Lemma lin_search_sound : forall fuel st pending,
  lin_search fuel st pending = true ->
  exists l, Permutation l pending /\ respects_rt l = true /\ run_seq st l = true.
Proof.
  induction fuel as [|f IH]; intros st pending H;
    (destruct pending as [|p ps]; [exists []; repeat split; constructor|]).
  - rewrite lin_search_O in H by discriminate. discriminate.
  - rewrite lin_search_S in H by discriminate.
    remember (p :: ps) as pending eqn:Epend. clear Epend p ps.
    apply existsb_exists in H. destruct H as [i [_ H]].
    destruct (nth_error pending i) as [o|] eqn:Hnth; [|discriminate].
    apply andb_true_iff in H. destruct H as [Hmin H].
    destruct (apply_op st o) as [st'|] eqn:Happ; [|discriminate].
    apply IH in H. destruct H as [l' [Hperm [Hrt Hrun]]].
    pose proof (remove_nth_perm _ _ _ Hnth) as Hrem.
    exists (o :: l'). split; [|split].
    + eapply perm_trans; [apply perm_skip; exact Hperm | exact Hrem].
    + cbn [respects_rt]. apply andb_true_iff. split; [|exact Hrt].
      apply forallb_forall. intros x Hx.
      unfold minimal in Hmin. rewrite forallb_forall in Hmin. apply Hmin.
      eapply Permutation_in; [exact Hrem|]. right.
      eapply Permutation_in; [exact Hperm|exact Hx].
    + cbn [run_seq]. rewrite Happ. exact Hrun.
Qed.

Theorem lin_check_sound : forall init h, lin_check init h = true -> linearizable init h.
Proof. intros init h H. apply lin_search_sound in H. exact H. Qed.

(** ** Completeness *)

Lemma lin_search_complete : forall l pending st fuel,
  Permutation l pending ->
  Forall hop_wf l ->
  respects_rt l = true ->
  run_seq st l = true ->
  (length pending <= fuel)%nat ->
  lin_search fuel st pending = true.
Proof.
  induction l as [|o r IH]; intros pending st fuel Hperm Hwf Hrt Hrun Hfuel.
  - apply Permutation_nil in Hperm. subst pending. apply lin_search_nil.
  - assert (Hin : In o pending).
    { eapply Permutation_in; [exact Hperm|]. left. reflexivity. }
    apply In_nth_error in Hin. destruct Hin as [i Hnth].
    pose proof (remove_nth_perm _ _ _ Hnth) as Hrem.
    assert (Hne : pending <> []).
    { intros ->. destruct i; discriminate. }
    assert (Hlen : length pending = S (length (remove_nth_hop i pending))).
    { apply Permutation_length in Hrem. cbn [length] in Hrem. symmetry. exact Hrem. }
    destruct fuel as [|f]; [rewrite Hlen in Hfuel; inversion Hfuel|].
    rewrite lin_search_S by exact Hne.
    apply existsb_exists. exists i. split.
    + apply in_seq. split; [apply Nat.le_0_l|].
      cbn [plus]. apply nth_error_Some. rewrite Hnth. discriminate.
    + rewrite Hnth.
      cbn [respects_rt] in Hrt. apply andb_true_iff in Hrt. destruct Hrt as [Hhd Hrt].
      cbn [run_seq] in Hrun.
      destruct (apply_op st o) as [st'|] eqn:Happ; [|discriminate].
      inversion Hwf as [|? ? Hwo Hwr]; subst.
      apply andb_true_iff. split.
      * unfold minimal. apply forallb_forall. intros x Hx.
        assert (Hx' : In x (o :: r)).
        { eapply Permutation_in; [apply Permutation_sym; exact Hperm|exact Hx]. }
        destruct Hx' as [<-|Hx'].
        -- rewrite precedes_refl_false by exact Hwo. reflexivity.
        -- rewrite forallb_forall in Hhd. apply Hhd. exact Hx'.
      * apply IH; try assumption.
        -- eapply Permutation_cons_inv with (a := o).
           eapply perm_trans; [exact Hperm|apply Permutation_sym; exact Hrem].
        -- rewrite Hlen in Hfuel. apply le_S_n. exact Hfuel.
Qed.

Theorem lin_check_complete : forall init h,
  Forall (fun o => h_inv o <= h_res o) h ->
  linearizable init h -> lin_check init h = true.
Proof.
  intros init h Hwf [l [Hperm [Hrt Hrun]]].
  unfold lin_check.
  apply lin_search_complete with (l := l); try assumption.
  - rewrite Forall_forall in *. intros x Hx. apply Hwf.
    eapply Permutation_in; [exact Hperm|exact Hx].
  - apply le_n.
Qed.

Corollary lin_check_iff : forall init h,
  Forall (fun o => h_inv o <= h_res o) h ->
  (lin_check init h = true <-> linearizable init h).
Proof.
  intros init h Hwf. split.
  - apply lin_check_sound.
  - apply lin_check_complete. exact Hwf.
Qed.

(** ** The well-formedness hypothesis is necessary *)

Example wf_needed :
  let o := {| h_inv := 2; h_res := 1; h_kind := KPut 7; h_out := RsOK |} in
  linearizable None [o] /\ lin_check None [o] = false.
Proof.
  cbn zeta. split.
  - eexists. split; [apply Permutation_refl|]. split; vm_compute; reflexivity.
  - vm_compute. reflexivity.
Qed.

(** ** Non-vacuity *)

(** listed in an order that is not itself a linearization *)
Definition ex_good : list hop :=
  [ {| h_inv := 7; h_res := 8; h_kind := KGet;   h_out := RsNotExist |};
    {| h_inv := 2; h_res := 3; h_kind := KGet;   h_out := RsVal 1 |};
    {| h_inv := 5; h_res := 6; h_kind := KRem;   h_out := RsOK |};
    {| h_inv := 1; h_res := 4; h_kind := KPut 1; h_out := RsOK |} ].

(** the get invoked at 5, after the remove responded, still returns 1 *)
Definition ex_bad : list hop :=
  [ {| h_inv := 1; h_res := 2; h_kind := KPut 1; h_out := RsOK |};
    {| h_inv := 3; h_res := 4; h_kind := KRem;   h_out := RsOK |};
    {| h_inv := 5; h_res := 6; h_kind := KGet;   h_out := RsVal 1 |};
    {| h_inv := 7; h_res := 8; h_kind := KGet;   h_out := RsNotExist |} ].

Lemma ex_good_wf : Forall (fun o => h_inv o <= h_res o) ex_good.
Proof. repeat constructor; discriminate. Qed.

Lemma ex_bad_wf : Forall (fun o => h_inv o <= h_res o) ex_bad.
Proof. repeat constructor; discriminate. Qed.

Example ex_good_check : lin_check None ex_good = true.
Proof. vm_compute. reflexivity. Qed.

Example ex_bad_check : lin_check None ex_bad = false.
Proof. vm_compute. reflexivity. Qed.

Example ex_good_linearizable : linearizable None ex_good.
Proof. apply lin_check_sound. exact ex_good_check. Qed.

Example ex_bad_not_linearizable : ~ linearizable None ex_bad.
Proof.
  intros H. apply (lin_check_complete _ _ ex_bad_wf) in H.
  rewrite ex_bad_check in H. discriminate.
Qed.

Print Assumptions lin_check_sound.
Print Assumptions lin_check_complete.
Print Assumptions lin_check_iff.
