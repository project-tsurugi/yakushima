(** * C13 -- storages are a map of independent maps: the sequential system
    (outer tree of storage names + one user tree per storage) refines the
    map-of-maps specification for every operation sequence
    ([C13_refines_map_of_maps] without, [C13_refines_map_of_maps_all_ops] with scan and
    list_storages); after a sequence without these two, writes to one storage do not show
    through another and unknown names are rejected.  At the end, for one border node and
    every interleaving: of concurrent creates (deletes) of one name exactly one succeeds. *)
From Coq Require Import NArith List Bool.
From Yk Require Import KeyDefs KeyProofs TreeDefs ScanDefs SysDefs SpecDefs StoreProofs SysProofs.
Import ListNotations.
Local Open Scope N_scope.

Theorem C13_refines_map_of_maps : forall ops,
  Forall (fun o => noscan o = true) ops -> Forall op_bytes ops ->
  map abs_out (snd (exec_all sys_init ops)) = snd (spec_exec_all spec_init ops).
Proof. exact sys_refines_spec. Qed.
Print Assumptions C13_refines_map_of_maps.

Theorem C13_isolation : forall ops o n1 n2 k,
  Forall (fun o => noscan o = true) ops -> Forall op_bytes ops ->
  bytes n1 -> bytes n2 -> writes_to o n1 -> n1 <> n2 ->
  let s := fst (exec_all sys_init ops) in
  snd (exec (fst (exec s o)) (OGet n2 k)) = snd (exec s (OGet n2 k)).
Proof. exact sys_isolation. Qed.
Print Assumptions C13_isolation.

Theorem C13_unknown_storage : forall ops o n,
  Forall (fun o => noscan o = true) ops -> Forall op_bytes ops ->
  bytes n -> data_op_on o n ->
  ssys_get (sp_map (fst (spec_exec_all spec_init ops))) n = None ->
  let s := fst (exec_all sys_init ops) in
  exec s o = (s, RStatus St_WARN_STORAGE_NOT_EXIST).
Proof. exact sys_unknown_storage. Qed.
Print Assumptions C13_unknown_storage.

(** creates (one duplicate), puts into two storages under the shared key [1;2]
    (one unique-restricted, one long key), a drop, a re-create of the dropped
    name (it comes back empty), gets, removes, destroy twice *)
Definition C13_ops : list op :=
  [ OGet [97] [1];
    OCreate [97]; OCreate [98;99]; OCreate [97];
    OPut [97] [1;2] [10] 8 false false;
    OPut [98;99] [1;2] [20;21] 0 true true;
    OPut [98;99] [1;2] [22] 16 true false;
    OPut [97] [1;2;3;4;5;6;7;8;9;10] [11] 8 false false;
    OGet [97] [1;2]; OGet [98;99] [1;2];
    ORemove [98;99] [3];
    ODropStorage [97]; OFind [97]; OGet [97] [1;2]; OGet [98;99] [1;2];
    OCreate [97]; OGet [97] [1;2]; OPut [97] [1;2] [12] 8 false false; OGet [97] [1;2];
    ORemove [98;99] [1;2]; OGet [98;99] [1;2]; OGet [97] [1;2];
    ODestroy; OFind [98;99]; ODestroy ].

Definition C13_expected : list aout :=
  [ AStatus St_WARN_STORAGE_NOT_EXIST;
    AStatus St_OK; AStatus St_OK; AStatus St_WARN_UNIQUE_RESTRICTION;
    APut St_OK; APut St_OK; APut St_WARN_UNIQUE_RESTRICTION; APut St_OK;
    AGet St_OK (Some {| av_bytes := [10]; av_inline := false |});
    AGet St_OK (Some {| av_bytes := [20; 21]; av_inline := true |});
    ARemove St_OK_NOT_FOUND;
    AStatus St_OK; AStatus St_WARN_NOT_EXIST; AStatus St_WARN_STORAGE_NOT_EXIST;
    AGet St_OK (Some {| av_bytes := [20; 21]; av_inline := true |});
    AStatus St_OK; AGet St_WARN_NOT_EXIST None; APut St_OK;
    AGet St_OK (Some {| av_bytes := [12]; av_inline := false |});
    ARemove St_OK; AGet St_WARN_NOT_EXIST None;
    AGet St_OK (Some {| av_bytes := [12]; av_inline := false |});
    AStatus St_OK_DESTROY_ALL; AStatus St_WARN_NOT_EXIST; AStatus St_OK_ROOT_IS_NULL ].

Example C13_nonvacuous :
  Forall (fun o => noscan o = true) C13_ops /\ Forall op_bytes C13_ops /\
  map abs_out (snd (exec_all sys_init C13_ops)) = C13_expected /\
  snd (spec_exec_all spec_init C13_ops) = C13_expected.
Proof.
  split; [repeat constructor|]. split.
  - unfold C13_ops, op_bytes, bytes. repeat (constructor; try reflexivity).
  - split; vm_compute; reflexivity.
Qed.

(** ** with list_storages and scans in the history (SysScanProofs) *)
From Yk Require Import SysScanProofs.
Theorem C13_refines_map_of_maps_all_ops : forall ops, Forall op_bytes ops ->
  map abs_out (snd (exec_all sys_init ops)) = snd (spec_exec_all spec_init ops).
Proof. exact sys_refines_spec_all. Qed.
Print Assumptions C13_refines_map_of_maps_all_ops.

(** ** Concurrent creates / deletes of ONE name: exactly one reports success (BorderUniqueProofs).
    create_storage is a unique insert, delete_storage a remove, of the name in the directory tree; on one border node,
    for every interleaving, any number of threads and operations per thread: *)
From Yk Require Import BorderDefs BorderProofs BorderUniqueProofs.

(** among concurrent unique inserts of a key that only unique inserts and gets touch ([only_uput_get]: no remove,
    and no plain put either, which could bind the key first and leave every unique insert with
    WARN_UNIQUE_RESTRICTION), once they have all completed exactly one returned OK (the others
    WARN_UNIQUE_RESTRICTION) and the key is bound *)
Theorem C13_concurrent_creates_exactly_one : forall s0 tr s k,
  Inv s0 -> bm s0 k = None -> quiet k s0 ->
  brun true s0 tr = Some s -> only_uput_get k tr -> quiet k s ->
  (exists t v r, In (t, OpUput k v, r) (bhist s0 tr)) ->
  uput_ok_returns k s0 tr = 1%nat /\ bm s k <> None /\
  forall t v r, In (t, OpUput k v, r) (bhist s0 tr) -> r = ROk \/ r = RUnique.
Proof. exact uput_quiescent_exactly_one. Qed.
Print Assumptions C13_concurrent_creates_exactly_one.

(** ... and at no instant do two of them stand at a successful return *)
Theorem C13_creates_at_most_one_ok : forall tr s k,
  brun true binit tr = Some s ->
  (forall t o, In (BInvoke t o) tr -> op_key o = k -> exists v, o = OpUput k v \/ o = OpGet k) ->
  forall t1 t2 v1 v2,
    t_op (b_thr s t1) = Some (OpUput k v1) -> t_pc (b_thr s t1) = PDone ROk ->
    t_op (b_thr s t2) = Some (OpUput k v2) -> t_pc (b_thr s t2) = PDone ROk -> t1 = t2.
Proof. exact uput_at_most_one_ok. Qed.
Print Assumptions C13_creates_at_most_one_ok.

(** symmetric for deletes of a bound name *)
Theorem C13_concurrent_deletes_exactly_one : forall s0 tr s k,
  Inv s0 -> bm s0 k <> None -> quiet k s0 ->
  brun true s0 tr = Some s -> only_rem_get k tr -> quiet k s ->
  (exists t r, In (t, OpRem k, r) (bhist s0 tr)) ->
  rem_ok_returns k s0 tr = 1%nat /\ bm s k = None /\
  forall t r, In (t, OpRem k, r) (bhist s0 tr) -> r = ROk \/ r = RNotFound.
Proof. exact rem_quiescent_exactly_one. Qed.
Print Assumptions C13_concurrent_deletes_exactly_one.
