(** * C04 -- a scan of a border node that runs concurrently with puts and
    removes is per-key consistent.
    Model: BorderScanDefs.v (scanner threads next to the point operations of
    BorderDefs.v, one shared-memory access per step, any interleaving).
    [sc_seen (scn s t) k] is the ghost history of key [k] for scanner [t]: the
    binding at the scan's invocation and every binding since. *)
From Coq Require Import NArith List Sorted.
From Yk Require Import BorderDefs BorderProofs BorderScanDefs BorderScanProofs.
Import ListNotations.
Local Open Scope N_scope.

(** In every reachable state, for every scanner [t]:
    the history starts at the invocation, contains the current binding of every
    key while the scan is active, and only grows; and when the scan of the node
    has completed ([SDone v res]) the result [res] has strictly increasing
    keys, every returned pair (k, w) has w <> 0 and [Some w] was the binding of
    [k] at some instant of the scan, and every key that is NOT returned was
    unbound at some instant of the scan.  (A key whose binding did not change
    during the scan has a one-element history, hence it is returned with
    exactly that value, or not returned exactly if it was unbound.) *)
Theorem C04_border_scan_perkey :
  forall s t, reach2 s ->
    (forall s' k, sstep2 s (EScanInvoke t) = Some s' -> sc_seen (scn s' t) k = [bm (base s) k]) /\
    (sc_active (scn s t) = true -> forall k, In (bm (base s) k) (sc_seen (scn s t) k)) /\
    (forall e s' k, sstep2 s e = Some s' -> e <> EScanInvoke t -> e <> EScanReturn t ->
       exists l, sc_seen (scn s' t) k = l ++ sc_seen (scn s t) k) /\
    (forall v res, sc_pc (scn s t) = SDone v res ->
       let seen := sc_seen (scn s t) in
       sc_active (scn s t) = true /\
       StronglySorted N.lt (map fst res) /\
       (forall k w, In (k, w) res -> w <> 0 /\ In (Some w) (seen k)) /\
       (forall k, ~ In k (map fst res) -> In None (seen k))).
Proof.
  intros s t H. split; [exact (scan_seen_invoke s t)|]. split; [exact (scan_seen_current s t H)|].
  split; [exact (fun e s' k => scan_seen_grows s e s' t k)|exact (fun v res => scan_perkey s t v res H)].
Qed.
Print Assumptions C04_border_scan_perkey.

(** Adding scanners does not disturb the point operations: the inductive
    invariant of BorderProofs.v (mutex, sorted duplicate-free permutation,
    representation of the abstract map, per-thread facts) holds in every
    reachable state of the combined system. *)
Theorem C04_base_invariant : forall s, reach2 s -> Inv (base s).
Proof. intros s H. apply SI_base, sinv_reach, H. Qed.
Print Assumptions C04_base_invariant.

(** Non-vacuity: keys 5 -> 7 and 9 -> 3 are bound.  Scanner 0 starts, accepts
    nothing yet (it has loaded key and word of slot 0); thread 1 removes key 9
    completely; the scanner accepts (5,7), then reads the cleared word of the
    removed slot and starts the node again; thread 2 starts an insert of
    2 -> 4; the scanner collects (5,7) again; the insert completes (counter
    2 -> 3); the scanner's final check fails, it adopts counter 3, reads the
    node again and completes. *)
Definition c04_prefix : list sev2 :=
  sput 0 5 7 11 ++ sput 0 9 3 12 ++
  [EScanInvoke 0] ++ ssteps 0 4 ++
  [EBase (BInvoke 1 (OpRem 9))] ++ sbsteps 1 11 ++ [EBase (BReturn 1)] ++
  ssteps 0 3.
Definition c04_trace : list sev2 :=
  c04_prefix ++ ssteps 0 1 ++
  [EBase (BInvoke 2 (OpPut 2 4))] ++ sbsteps 2 4 ++
  ssteps 0 4 ++
  sbsteps 2 7 ++ [EBase (BReturn 2)] ++
  ssteps 0 11.

Example C04_nonvacuous :
  match srun2 sinit2 c04_prefix, srun2 sinit2 (c04_prefix ++ ssteps 0 1), srun2 sinit2 c04_trace with
  | Some s1, Some s2, Some s =>
    (* the cleared word of the removed slot is seen and the node is read again *)
    sc_pc (scn s1 0%nat) = SCheck 2 9 0 [] [(5, 7)] /\
    sc_pc (scn s2 0%nat) = SPerm 2 /\
    (* the completed scan *)
    sc_pc (scn s 0%nat) = SDone 3 [(2, 4); (5, 7)] /\
    sc_seen (scn s 0%nat) 2 = [Some 4; None] /\
    sc_seen (scn s 0%nat) 5 = [Some 7] /\
    sc_seen (scn s 0%nat) 9 = [None; Some 3] /\
    sc_seen (scn s 0%nat) 6 = [None] /\
    map (bm (base s)) [2; 5; 9] = [Some 4; Some 7; None] /\
    b_vins (base s) = 3 /\ b_locked (base s) = false
  | _, _, _ => False
  end.
Proof. vm_compute. repeat split. Qed.

(** ** The hand-over between border nodes (ChainProofs): a forward scan moving along the leaf chain of a layer
    while writers insert, remove, split nodes and unlink emptied nodes -- every interleaving, any number of
    nodes.  [crun true] is the repaired scanner, [crun false] the original one. *)
From Yk Require Import ChainDefs ChainProofs.

(** the delivered keys are strictly ascending at every instant *)
Theorem C04_chain_ascending : forall kss evs s,
  kss_ok kss = true -> crun true (cinit kss) evs = Some s ->
  sorted_strict (sc_res (c_scan s)) = true.
Proof. exact chain_scan_ascending. Qed.
Print Assumptions C04_chain_ascending.

(** every delivered key lies in the interval and was present at some instant since the invocation *)
Theorem C04_chain_sound : forall kss evs s k,
  kss_ok kss = true -> crun true (cinit kss) evs = Some s ->
  In k (sc_res (c_scan s)) ->
  in_interval (sc_l (c_scan s)) (sc_r (c_scan s)) k = true /\ In k (c_ever s).
Proof. exact chain_scan_sound. Qed.
Print Assumptions C04_chain_sound.

(** a completed scan has delivered every key of the interval that was present during the whole scan *)
Theorem C04_chain_no_lost_stable_key : forall kss evs s k,
  kss_ok kss = true -> crun true (cinit kss) evs = Some s ->
  sc_pc (c_scan s) = CDone -> In k (c_stable s) ->
  in_interval (sc_l (c_scan s)) (sc_r (c_scan s)) k = true ->
  In k (sc_res (c_scan s)).
Proof. exact chain_scan_no_lost_stable_key. Qed.
Print Assumptions C04_chain_no_lost_stable_key.

(** meaning of the ghosts used above *)
Theorem C04_chain_ghosts : forall fx kss evs s k,
  kss_ok kss = true -> crun fx (cinit kss) evs = Some s ->
  (In k (c_stable s) -> In k (all_keys (c_nodes s))) /\
  (scanning (c_scan s) = true -> In k (all_keys (c_nodes s)) -> In k (c_ever s)).
Proof.
  intros fx kss evs s k H1 H2. split.
  - exact (chain_stable_present fx kss evs s k H1 H2).
  - exact (chain_present_ever fx kss evs s k H1 H2).
Qed.
Print Assumptions C04_chain_ghosts.

(** the original scanner is refuted (F8): after the border it has left is emptied and unlinked, keys
    inserted at or below the delivered ones land in the next border and are delivered again *)
Theorem C04_original_chain_not_ascending_refuted :
  exists evs s, crun false (cinit [[10]; [20; 30]]) evs = Some s /\
    sc_pc (c_scan s) = CDone /\ sorted_strict (sc_res (c_scan s)) = false.
Proof. exact chain_original_not_ascending. Qed.
Print Assumptions C04_original_chain_not_ascending_refuted.

Example C04_chain_nonvacuous : exists evs s, crun true (cinit [[10]; [20; 30]]) evs = Some s /\
  sc_pc (c_scan s) = CDone /\ sc_res (c_scan s) = [10; 20; 30] /\ (1 <=? sc_restarts (c_scan s)) = true.
Proof. exact chain_nonvacuous. Qed.

(** ** Size-limited and right-to-left scans along the chain (ChainLimProofs) *)
From Yk Require Import ChainLimDefs ChainLimProofs.

Theorem C04_chain_limited_ascending : forall kss evs s, kss_ok kss = true -> lrun (linit kss) evs = Some s ->
  sorted_strict (ls_res (l_scan s)) = true /\
  (ls_max (l_scan s) <> 0%nat -> (length (ls_res (l_scan s)) <= ls_max (l_scan s))%nat).
Proof. exact lim_scan_ascending. Qed.
Print Assumptions C04_chain_limited_ascending.

Theorem C04_chain_limited_sound : forall kss evs s k, kss_ok kss = true -> lrun (linit kss) evs = Some s ->
  In k (ls_res (l_scan s)) ->
  in_interval (ls_l (l_scan s)) (ls_r (l_scan s)) k = true /\ In k (l_ever s).
Proof. exact lim_scan_sound. Qed.
Print Assumptions C04_chain_limited_sound.

(** a completed forward scan has delivered every stable key of the part of the interval it covered *)
Theorem C04_chain_limited_no_lost_stable_key : forall kss evs s k, kss_ok kss = true -> lrun (linit kss) evs = Some s ->
  ls_pc (l_scan s) = CDone -> ls_rtl (l_scan s) = false -> In k (l_stable s) ->
  in_interval (ls_l (l_scan s)) (ls_r (l_scan s)) k = true ->
  (ls_max (l_scan s) = 0%nat \/ (length (ls_res (l_scan s)) < ls_max (l_scan s))%nat \/
   (exists lk, last_key (ls_res (l_scan s)) = Some lk /\ k <= lk)) ->
  In k (ls_res (l_scan s)).
Proof. exact lim_scan_no_lost_stable_key. Qed.
Print Assumptions C04_chain_limited_no_lost_stable_key.

(** right-to-left: when the validated last border was not empty, no stable key >= l is greater than the delivered key.
    The hypothesis is necessary in the model, where a remove and the unlink of the emptied border are two steps
    ([rtl_empty_last_border_counterexample]); in the code both happen under one lock, so a reader never validates an
    empty non-root border.  The lemma behind it is [rtl_scan_greatest_stable_validated]; the theorem
    [rtl_scan_greatest_stable_partial] of ChainLimProofs is another statement (hypothesis: the result is not empty). *)
Theorem C04_chain_rtl_greatest_stable_partial : forall kss evs1 s1 s2 evs2 s k,
  kss_ok kss = true -> lrun (linit kss) evs1 = Some s1 -> lstep s1 LValidate = Some s2 ->
  ls_rtl (l_scan s1) = true -> ls_pc (l_scan s2) = CDone -> ls_snap (l_scan s1) <> [] ->
  lrun s2 evs2 = Some s -> In k (l_stable s) -> ls_l (l_scan s) <= k ->
  exists d, ls_res (l_scan s) = [d] /\ k <= d.
Proof. exact rtl_scan_greatest_stable_validated. Qed.
Print Assumptions C04_chain_rtl_greatest_stable_partial.
