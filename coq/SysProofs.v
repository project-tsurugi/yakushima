(** * SysProofs: the whole sequential system (storages = outer tree + user trees)
    refines the map-of-maps specification for every operation sequence without [OScan] and
    [OList] ([noscan]; [SysScanProofs.v] adds these two).  The simulation invariant [SysInv] ties
    every name of the specification's system map to a storage id in the outer tree and a
    well-formed user tree with the same abstraction. *)
From Coq Require Import NArith PeanoNat Lia ZifyBool ZifyN Bool List Sorted.
From Yk Require Import KeyProofs SpecDefs StoreProofs.
Import ListNotations.
Local Open Scope N_scope.

Definition noscan (o : op) : bool :=
  match o with OScan _ _ | OList => false | _ => true end.

Definition op_bytes (o : op) : Prop :=
  match o with
  | OCreate n | ODropStorage n | OFind n => bytes n
  | OPut n k _ _ _ _ | OGet n k | ORemove n k => bytes n /\ bytes k
  | OScan n a => bytes n /\ bytes (sa_l a) /\ bytes (sa_r a)
  | OList | ODestroy => True
  end.

Definition op_bytesb (o : op) : bool :=
  match o with
  | OCreate n | ODropStorage n | OFind n => bytesb n
  | OPut n k _ _ _ _ | OGet n k | ORemove n k => bytesb n && bytesb k
  | OScan n a => bytesb n && bytesb (sa_l a) && bytesb (sa_r a)
  | OList | ODestroy => true
  end.

Lemma op_bytesb_sound o : op_bytesb o = true -> op_bytes o.
Proof.
  destruct o; cbn [op_bytesb op_bytes]; rewrite ?andb_true_iff; intuition auto using bytesb_sound.
Qed.

Lemma ops_bytesb_sound ops : forallb op_bytesb ops = true -> Forall op_bytes ops.
Proof. rewrite forallb_forall. intros H. apply Forall_forall. intros o Ho. apply op_bytesb_sound, H, Ho. Qed.

(** [StoreProofs.asorted] at the value type [smap], by conversion: the [asorted] lemmas apply *)
Definition ssorted (s : spec_sys) : Prop :=
  StronglySorted (fun x y => lex_lt (fst x) (fst y) = true) s.

Lemma ssys_get_put s n m n' :
  ssys_get (ssys_put s n m) n' = if key_eqb n n' then Some m else ssys_get s n'.
Proof. exact (aget_put s n m n'). Qed.

Lemma ssys_get_del s n n' : ssorted s ->
  ssys_get (ssys_del s n) n' = if key_eqb n n' then None else ssys_get s n'.
Proof. exact (aget_del s n n'). Qed.

Lemma trees_get_set ts i t j :
  trees_get (trees_set ts i t) j = if N.eqb i j then Some t else trees_get ts j.
Proof.
  induction ts as [|[i1 t1] ts IH]; cbn [trees_set trees_get]; [reflexivity|].
  destruct (N.eqb_spec i1 i) as [->|Hn]; cbn [trees_get].
  - destruct (N.eqb i j); reflexivity.
  - rewrite IH. destruct (N.eqb_spec i1 j) as [->|Hn2]; [|reflexivity].
    destruct (N.eqb_spec i j); [congruence|reflexivity].
Qed.

Lemma trees_get_del ts i j : i <> j -> trees_get (trees_del ts i) j = trees_get ts j.
Proof.
  intros Hn. induction ts as [|[i1 t1] ts IH]; cbn [trees_del trees_get]; [reflexivity|].
  destruct (N.eqb_spec i1 i) as [->|Hn1].
  - destruct (N.eqb_spec i j); [contradiction|reflexivity].
  - cbn [trees_get]. rewrite IH. reflexivity.
Qed.

Lemma trees_split ts i : exists T1 T2,
  trees_del ts i = T1 ++ T2 /\ (forall t, trees_set ts i t = T1 ++ (i, t) :: T2) /\
  match trees_get ts i with
  | Some t => ts = T1 ++ (i, t) :: T2
  | None => ts = T1 /\ T2 = []
  end.
Proof.
  induction ts as [|[j u] ts (T1 & T2 & Ed & Es & Eg)]; cbn [trees_get trees_set trees_del].
  - exists [], []. repeat split.
  - destruct (N.eqb_spec j i) as [->|_].
    + exists [], ts. repeat split.
    + exists ((j, u) :: T1), T2. cbn [app]. rewrite Ed. split; [reflexivity|].
      split; [intros t; rewrite Es; reflexivity|].
      destruct (trees_get ts i); [exact (f_equal (cons (j, u)) Eg)|].
      destruct Eg as [<- ->]. split; reflexivity.
Qed.

Lemma trees_get_in ts i t : trees_get ts i = Some t -> In (i, t) ts.
Proof.
  intros G. destruct (trees_split ts i) as (T1 & T2 & _ & _ & E). rewrite G in E. rewrite E. apply in_elt.
Qed.

Lemma trees_set_in ts i t' x : In x (trees_set ts i t') -> (i, t') = x \/ In x ts.
Proof.
  destruct (trees_split ts i) as (T1 & T2 & _ & Es & E). rewrite Es, in_app_iff. cbn [In].
  destruct (trees_get ts i); [rewrite E, in_app_iff; cbn [In]; tauto|].
  destruct E as [<- ->]. cbn [In]. tauto.
Qed.

Lemma trees_del_in ts i x : In x (trees_del ts i) -> In x ts.
Proof.
  destruct (trees_split ts i) as (T1 & T2 & -> & _ & E). rewrite in_app_iff.
  destruct (trees_get ts i); [rewrite E, in_app_iff; cbn [In]; tauto|].
  destruct E as [<- ->]. cbn [In]. tauto.
Qed.

Lemma trees_del_fresh ts c : (forall sid t, In (sid, t) ts -> sid < c) -> trees_del ts c = ts.
Proof.
  intros H. destruct (trees_split ts c) as (T1 & T2 & -> & _ & E).
  destruct (trees_get ts c); [|destruct E as [<- ->]; apply app_nil_r].
  specialize (H c t). rewrite E, in_app_iff in H. cbn [In] in H.
  assert (c < c) by (apply H; right; left; reflexivity). lia.
Qed.

(** ** the simulation invariant *)
Definition sval (sid : N) : aval := {| av_bytes := [sid]; av_inline := false |}.

Definition stor (s : sys) (n : key) (sid : N) : Prop :=
  smap_get (abs_tree (sy_outer s)) n = Some (sval sid).

(** what [SysInv] says of one name ([si_names], by conversion): not a storage on either side, or a
    storage id in the outer tree and under it a well-formed user tree with the map of the specification *)
Definition name_ok (s : sys) (n : key) (o : option smap) : Prop :=
  match o with
  | None => smap_get (abs_tree (sy_outer s)) n = None
  | Some m => exists sid tr,
      stor s n sid /\ sid < sy_ctr s /\
      trees_get (sy_trees s) sid = Some tr /\
      WF_store (sy_ctr s) tr /\ t_null tr = false /\ abs_tree tr = m
  end.

(** [sid < sy_ctr s] keeps the id that the next [OCreate] takes ([sy_ctr s]) apart from every
    live one; [si_inj] (no two names share an id) is what lets [trees_set] / [trees_del] at the
    id of one name leave the trees of the other names alone *)
Record SysInv (s : sys) (p : spec_state) : Prop := {
  si_outer : WF_store (sy_ctr s) (sy_outer s);
  si_null : sp_null p = t_null (sy_outer s);
  si_sorted : ssorted (sp_map p);
  si_bytes : Forall bytes (map fst (sp_map p));
  si_names : forall n, bytes n ->
    match ssys_get (sp_map p) n with
    | None => smap_get (abs_tree (sy_outer s)) n = None
    | Some m => exists sid tr,
        stor s n sid /\ sid < sy_ctr s /\
        trees_get (sy_trees s) sid = Some tr /\
        WF_store (sy_ctr s) tr /\ t_null tr = false /\ abs_tree tr = m
    end;
  si_inj : forall n1 n2 sid, bytes n1 -> bytes n2 -> stor s n1 sid -> stor s n2 sid -> n1 = n2
}.

Lemma SysInv_null c : SysInv {| sy_ctr := c; sy_outer := null_tree; sy_trees := [] |} spec_init.
Proof.
  constructor; cbn.
  - exact I.
  - reflexivity.
  - constructor.
  - constructor.
  - intros n _. reflexivity.
  - intros n1 n2 sid _ _ H. unfold stor in H. cbn in H. discriminate.
Qed.

Lemma SysInv_init : SysInv sys_init spec_init.
Proof. exact (SysInv_null 1). Qed.

Lemma inv_get_some s p n a : SysInv s p -> bytes n ->
  smap_get (abs_tree (sy_outer s)) n = Some a ->
  exists m sid, ssys_get (sp_map p) n = Some m /\ a = sval sid /\ sid < sy_ctr s.
Proof.
  intros I Hb G. pose proof (si_names _ _ I n Hb) as H.
  destruct (ssys_get (sp_map p) n) as [m|]; [|congruence].
  destruct H as (sid & tr & St & Hs & _). exists m, sid. split; [reflexivity|].
  split; [unfold stor in St; congruence|exact Hs].
Qed.

Lemma sid_of_abs v sid : abs_value v = sval sid -> sid_of_value v = sid.
Proof.
  unfold abs_value, sval, sid_of_value. intros H. injection H as H _. rewrite H. reflexivity.
Qed.

Lemma find_storage_spec s p n : SysInv s p -> bytes n ->
  match ssys_get (sp_map p) n with
  | None => find_storage s n = Some None
  | Some m => exists sid tr,
      find_storage s n = Some (Some sid) /\ stor s n sid /\ sid < sy_ctr s /\
      trees_get (sy_trees s) sid = Some tr /\
      WF_store (sy_ctr s) tr /\ t_null tr = false /\ abs_tree tr = m
  end.
Proof.
  intros I Hb. pose proof (si_names _ _ I n Hb) as H.
  destruct (get_refines _ _ n (si_outer _ _ I) Hb) as (o & G & R).
  unfold find_storage. rewrite G.
  destruct (ssys_get (sp_map p) n) as [m|].
  - destruct H as (sid & tr & St & H). exists sid, tr. split; [|split; [exact St|exact H]].
    unfold stor in St. rewrite St in R. destruct R as [R1 R2]. rewrite R1.
    destruct (go_value o) as [v|]; [|discriminate]. cbn [option_map] in R2.
    assert (abs_value v = sval sid) as R3 by congruence.
    rewrite (sid_of_abs v sid R3). reflexivity.
  - rewrite H in R. destruct R as [R1 R2]. rewrite R1. reflexivity.
Qed.

Lemma inv_null_empty s p : SysInv s p -> t_null (sy_outer s) = true -> sp_map p = [].
Proof.
  intros I Hn. pose proof (si_bytes _ _ I) as Hb. pose proof (si_names _ _ I) as H.
  destruct (sp_map p) as [|[n m] r]; [reflexivity|]. exfalso.
  cbn [map fst] in Hb. apply Forall_cons_iff in Hb. destruct Hb as [Hb _].
  specialize (H n Hb). cbn [ssys_get] in H. rewrite key_eqb_refl in H.
  destruct H as (sid & tr & St & _). unfold stor in St. rewrite (abs_tree_null _ Hn) in St. discriminate.
Qed.

Lemma name_ok_keep s c' outer' trees' n o :
  name_ok s n o -> sy_ctr s <= c' ->
  smap_get (abs_tree outer') n = smap_get (abs_tree (sy_outer s)) n ->
  (forall sid, stor s n sid -> sid < sy_ctr s -> trees_get trees' sid = trees_get (sy_trees s) sid) ->
  name_ok {| sy_ctr := c'; sy_outer := outer'; sy_trees := trees' |} n o.
Proof.
  unfold name_ok, stor. cbn [sy_ctr sy_outer sy_trees]. intros H Hc Ho Ht. rewrite Ho.
  destruct o as [m|]; [|exact H]. destruct H as (sid & tr & St & Hs & G & W & N & A). exists sid, tr.
  split; [exact St|]. split; [lia|]. split; [rewrite (Ht sid St Hs); exact G|].
  split; [exact (WF_store_mono _ _ _ W Hc)|]. split; [exact N|exact A].
Qed.

Lemma SysInv_put s p n sid tr' ctr' :
  SysInv s p -> bytes n -> stor s n sid -> sid < sy_ctr s ->
  WF_store ctr' tr' -> t_null tr' = false -> sy_ctr s <= ctr' ->
  SysInv {| sy_ctr := ctr'; sy_outer := sy_outer s; sy_trees := trees_set (sy_trees s) sid tr' |}
         {| sp_null := sp_null p; sp_map := ssys_put (sp_map p) n (abs_tree tr') |}.
Proof.
  intros I Hb St Hs W' Hn' Hc. constructor; cbn [sy_ctr sy_outer sy_trees sp_null sp_map].
  - apply (WF_store_mono _ _ _ (si_outer _ _ I) Hc).
  - exact (si_null _ _ I).
  - apply aput_sorted. exact (si_sorted _ _ I).
  - apply aput_Forall; [exact (si_bytes _ _ I)|exact Hb].
  - intros n' Hb'. rewrite ssys_get_put. destruct (key_eqb_spec n n') as [<-|Hne'].
    + exists sid, tr'. unfold stor. cbn [sy_outer].
      split; [exact St|]. split; [lia|]. split; [rewrite trees_get_set, N.eqb_refl; reflexivity|].
      split; [exact W'|]. split; [exact Hn'|reflexivity].
    + apply (name_ok_keep s ctr' (sy_outer s) _ n' _ (si_names _ _ I n' Hb') Hc eq_refl).
      intros sid2 St2 _. rewrite trees_get_set. destruct (N.eqb_spec sid sid2) as [->|_]; [|reflexivity].
      elim Hne'. exact (si_inj _ _ I n n' sid2 Hb Hb' St St2).
  - intros n1 n2 sd H1 H2 S1 S2. apply (si_inj _ _ I n1 n2 sd H1 H2 S1 S2).
Qed.

Lemma SysInv_same s p n sid tr tr' ctr' :
  SysInv s p -> bytes n -> stor s n sid -> sid < sy_ctr s ->
  ssys_get (sp_map p) n = Some (abs_tree tr) ->
  WF_store ctr' tr' -> t_null tr' = false -> sy_ctr s <= ctr' -> abs_tree tr' = abs_tree tr ->
  SysInv {| sy_ctr := ctr'; sy_outer := sy_outer s; sy_trees := trees_set (sy_trees s) sid tr' |} p.
Proof.
  intros I Hb St Hs G W' Hn' Hc Ha. pose proof (SysInv_put s p n sid tr' ctr' I Hb St Hs W' Hn' Hc) as IP.
  rewrite Ha, (aput_same _ _ _ (si_sorted _ _ I) G : ssys_put (sp_map p) n (abs_tree tr) = sp_map p) in IP.
  destruct p. exact IP.
Qed.

Lemma SysInv_outer_same s p outer' c' :
  SysInv s p -> WF_store c' outer' -> abs_tree outer' = abs_tree (sy_outer s) ->
  t_null outer' = t_null (sy_outer s) -> sy_ctr s <= c' ->
  SysInv {| sy_ctr := c'; sy_outer := outer'; sy_trees := sy_trees s |} p.
Proof.
  intros I W' Ha Hn Hc. constructor; unfold stor; cbn [sy_ctr sy_outer sy_trees].
  - exact W'.
  - rewrite Hn. exact (si_null _ _ I).
  - exact (si_sorted _ _ I).
  - exact (si_bytes _ _ I).
  - intros n Hb. apply (name_ok_keep s c' outer' _ n _ (si_names _ _ I n Hb) Hc); [rewrite Ha|]; reflexivity.
  - rewrite Ha. exact (si_inj _ _ I).
Qed.

(** ** one step *)
Definition sim (J : sys -> spec_state -> Prop) (sx : sys * out) (py : spec_state * aout) : Prop :=
  let (s', x) := sx in let (p', y) := py in abs_out x = y /\ J s' p'.

Definition step_ok (s : sys) (p : spec_state) (o : op) : Prop := sim SysInv (exec s o) (spec_exec p o).

(** the operations on the data of storage [n] start alike, on both sides *)
Definition with_tree (s : sys) (n : key) (f : N -> tree -> sys * out) : sys * out :=
  match find_storage s n with
  | None => (s, RStuck)
  | Some None => (s, RStatus St_WARN_STORAGE_NOT_EXIST)
  | Some (Some sid) => match trees_get (sy_trees s) sid with None => (s, RStuck) | Some tr => f sid tr end
  end.

Definition with_map (p : spec_state) (n : key) (g : smap -> spec_state * aout) : spec_state * aout :=
  match ssys_get (sp_map p) n with None => (p, AStatus St_WARN_STORAGE_NOT_EXIST) | Some m => g m end.

Lemma exec_put_eq s n k bs al u il :
  exec s (OPut n k bs al u il) = with_tree s n (fun sid tr =>
    match put tr k (mk_value (sy_ctr s) bs al il) u (sy_ctr s + 1) with
    | None => (s, RStuck)
    | Some (tr', po, ctr') =>
      ({| sy_ctr := ctr'; sy_outer := sy_outer s; sy_trees := trees_set (sy_trees s) sid tr' |}, RPut po)
    end).
Proof. reflexivity. Qed.

Lemma exec_get_eq s n k :
  exec s (OGet n k) = with_tree s n (fun _ tr => match get tr k with None => (s, RStuck) | Some g => (s, RGet g) end).
Proof. reflexivity. Qed.

Lemma exec_remove_eq s n k :
  exec s (ORemove n k) = with_tree s n (fun sid tr =>
    match remove tr k with
    | None => (s, RStuck)
    | Some (tr', ro) =>
      ({| sy_ctr := sy_ctr s; sy_outer := sy_outer s; sy_trees := trees_set (sy_trees s) sid tr' |}, RRemove ro)
    end).
Proof. reflexivity. Qed.

Lemma exec_scan_eq s n a :
  exec s (OScan n a) = with_tree s n (fun _ tr => match scan tr a with None => (s, RStuck) | Some so => (s, RScan so) end).
Proof. reflexivity. Qed.

Lemma exec_create_eq s n outer' po c' :
  put (sy_outer s) n (storage_value (sy_ctr s + 1) (sy_ctr s)) true (sy_ctr s + 2) = Some (outer', po, c') ->
  exec s (OCreate n) =
  ({| sy_ctr := c'; sy_outer := outer';
      sy_trees := match po_status po with
                  | St_OK => trees_set (sy_trees s) (sy_ctr s) (empty_tree (sy_ctr s))
                  | _ => sy_trees s
                  end |}, RStatus (po_status po)).
Proof. intros E. unfold exec. cbv zeta. rewrite E. destruct (po_status po); reflexivity. Qed.

Lemma exec_drop_none s n : find_storage s n = Some None -> exec s (ODropStorage n) = (s, RStatus St_WARN_NOT_EXIST).
Proof. intros F. unfold exec. rewrite F. reflexivity. Qed.

Lemma exec_drop_eq s n sid outer' ro :
  find_storage s n = Some (Some sid) -> remove (sy_outer s) n = Some (outer', ro) ->
  exec s (ODropStorage n) =
  match ro_status ro with
  | St_OK => ({| sy_ctr := sy_ctr s; sy_outer := outer'; sy_trees := trees_del (sy_trees s) sid |}, RStatus St_OK)
  | _ => ({| sy_ctr := sy_ctr s; sy_outer := outer'; sy_trees := sy_trees s |}, RStatus St_WARN_CONCURRENT_OPERATIONS)
  end.
Proof. intros F E. unfold exec. rewrite F, E. reflexivity. Qed.

Lemma exec_destroy_eq s :
  exec s ODestroy =
  if t_null (sy_outer s) then (s, RStatus St_OK_ROOT_IS_NULL)
  else ({| sy_ctr := sy_ctr s; sy_outer := null_tree; sy_trees := [] |}, RStatus St_OK_DESTROY_ALL).
Proof. reflexivity. Qed.

(** the argument record of the scan behind [list_storage], which [SysDefs.exec] writes out *)
Definition all_args : scan_args :=
  {| sa_l := []; sa_le := EP_INF; sa_r := []; sa_re := EP_INF; sa_max := 0%nat; sa_rtl := false;
     sa_lnull := false; sa_rnull := false |}.

Lemma exec_list_eq s :
  exec s OList = match scan (sy_outer s) all_args with
                 | None => (s, RStuck)
                 | Some so => match so_tuples so with
                              | [] => (s, RList St_WARN_NOT_EXIST [])
                              | ts => (s, RList St_OK (map fst ts))
                              end
                 end.
Proof. reflexivity. Qed.

Lemma exec_readonly s o :
  match o with OFind _ | OList | OGet _ _ | OScan _ _ => True | _ => False end ->
  fst (exec s o) = s.
Proof.
  destruct o as [|?|n| |? ? ? ? ? ?|n k|? ?|n a|]; try contradiction; intros _; cbn [exec].
  - destruct (find_storage s n) as [[sid|]|]; reflexivity.
  - destruct (scan (sy_outer s) _) as [so|]; [destruct (so_tuples so)|]; reflexivity.
  - destruct (find_storage s n) as [[sid|]|]; [destruct (trees_get (sy_trees s) sid) as [tr|]; [destruct (get tr k)|]| |];
      reflexivity.
  - destruct (find_storage s n) as [[sid|]|]; [destruct (trees_get (sy_trees s) sid) as [tr|]; [destruct (scan tr a)|]| |];
      reflexivity.
Qed.

(** the specification's side of a data operation is [with_map p n g] by computation *)
Lemma with_tree_sim (J : sys -> spec_state -> Prop) s p n f g : SysInv s p -> J s p -> bytes n ->
  (forall sid tr, stor s n sid -> sid < sy_ctr s -> trees_get (sy_trees s) sid = Some tr ->
     WF_store (sy_ctr s) tr -> t_null tr = false -> ssys_get (sp_map p) n = Some (abs_tree tr) ->
     sim J (f sid tr) (g (abs_tree tr))) ->
  sim J (with_tree s n f) (with_map p n g).
Proof.
  intros I HJ Hb H. unfold with_tree, with_map. pose proof (find_storage_spec s p n I Hb) as F.
  destruct (ssys_get (sp_map p) n) as [m|].
  - destruct F as (sid & tr & -> & St & Hs & G & W & N & <-). rewrite G. exact (H sid tr St Hs G W N eq_refl).
  - rewrite F. split; [reflexivity|exact HJ].
Qed.

Lemma with_tree_pres (Q : sys -> Prop) s p n f : SysInv s p -> bytes n -> Q s ->
  (forall sid tr, stor s n sid -> trees_get (sy_trees s) sid = Some tr -> WF_store (sy_ctr s) tr ->
     Q (fst (f sid tr))) ->
  Q (fst (with_tree s n f)).
Proof.
  intros I Hb HQ H. unfold with_tree. pose proof (find_storage_spec s p n I Hb) as F.
  destruct (ssys_get (sp_map p) n) as [m|]; [|rewrite F; exact HQ].
  destruct F as (sid & tr & -> & St & _ & G & W & _). rewrite G. exact (H sid tr St G W).
Qed.

Lemma step_find s p n : SysInv s p -> bytes n -> step_ok s p (OFind n).
Proof.
  intros I Hb. unfold step_ok, exec, spec_exec. pose proof (find_storage_spec s p n I Hb) as F.
  destruct (ssys_get (sp_map p) n) as [m|].
  - destruct F as (sid & tr & F & _). rewrite F. split; [reflexivity|exact I].
  - rewrite F. split; [reflexivity|exact I].
Qed.

Lemma step_get s p n k : SysInv s p -> bytes n -> bytes k -> step_ok s p (OGet n k).
Proof.
  intros I Hb Hk. unfold step_ok. rewrite exec_get_eq.
  apply (with_tree_sim SysInv s p n _ _ I I Hb). intros sid tr _ _ _ W _ _.
  destruct (get_refines _ _ k W Hk) as (o & E & R). rewrite E. split; [|exact I].
  cbn [abs_out]. destruct (smap_get (abs_tree tr) k) as [a|]; destruct R as [R1 R2]; rewrite R1, R2; reflexivity.
Qed.

Lemma step_put s p n k bs al u il : SysInv s p -> bytes n -> bytes k -> step_ok s p (OPut n k bs al u il).
Proof.
  intros I Hb Hk. unfold step_ok. rewrite exec_put_eq.
  apply (with_tree_sim SysInv s p n _ _ I I Hb). intros sid tr St Hs G W N Gs.
  assert (WF_store (sy_ctr s + 1) tr) as W1 by (apply (WF_store_mono _ _ _ W); lia).
  destruct (put_refines _ _ k (mk_value (sy_ctr s) bs al il) u W1 Hk) as (tr' & po & c' & E & W' & Hc & R).
  rewrite E. pose proof (put_not_null _ _ _ _ _ _ _ _ E) as N'.
  assert (sy_ctr s <= c') as Hc' by lia.
  pose proof (SysInv_put s p n sid tr' c' I Hb St Hs W' N' Hc') as IP.
  pose proof (fun Ha => SysInv_same s p n sid tr tr' c' I Hb St Hs Gs W' N' Hc' Ha) as IS.
  destruct (smap_get (abs_tree tr) k) as [a|]; [destruct u|]; destruct R as [R1 R2];
    (split; [cbn [abs_out]; rewrite R1; reflexivity|]); [exact (IS R2)|rewrite R2 in IP; exact IP..].
Qed.

Lemma step_remove s p n k : SysInv s p -> bytes n -> bytes k -> step_ok s p (ORemove n k).
Proof.
  intros I Hb Hk. unfold step_ok. rewrite exec_remove_eq.
  apply (with_tree_sim SysInv s p n _ _ I I Hb). intros sid tr St Hs G W N Gs.
  destruct (remove_refines _ _ k W Hk) as (tr' & ro & E & W' & R).
  rewrite E. rewrite N in R. pose proof (remove_null _ _ _ _ E) as N'. rewrite N in N'.
  pose proof (SysInv_put s p n sid tr' (sy_ctr s) I Hb St Hs W' N' (N.le_refl _)) as IP.
  pose proof (fun Ha => SysInv_same s p n sid tr tr' (sy_ctr s) I Hb St Hs Gs W' N' (N.le_refl _) Ha) as IS.
  destruct (smap_get (abs_tree tr) k) as [a|]; destruct R as [R1 R2];
    (split; [cbn [abs_out]; rewrite R1; reflexivity|]); [rewrite R2 in IP; exact IP|exact (IS R2)].
Qed.

Lemma step_destroy s p : SysInv s p -> step_ok s p ODestroy.
Proof.
  intros I. unfold step_ok, spec_exec. rewrite exec_destroy_eq. pose proof (si_null _ _ I) as Hn.
  destruct (t_null (sy_outer s)) eqn:E.
  - rewrite Hn. split; [reflexivity|]. pose proof (inv_null_empty s p I E) as Hm.
    destruct p as [pn pm]. cbn [sp_null sp_map] in Hn, Hm. subst pn pm. exact I.
  - rewrite Hn. split; [reflexivity|]. apply SysInv_null.
Qed.

Lemma sval_inj a b : sval a = sval b -> a = b.
Proof. unfold sval. intros H. injection H as H. exact H. Qed.

Lemma SysInv_create s p n outer' c' :
  SysInv s p -> bytes n -> WF_store c' outer' -> t_null outer' = false -> sy_ctr s < c' ->
  abs_tree outer' = smap_put (abs_tree (sy_outer s)) n (sval (sy_ctr s)) ->
  SysInv {| sy_ctr := c'; sy_outer := outer';
            sy_trees := trees_set (sy_trees s) (sy_ctr s) (empty_tree (sy_ctr s)) |}
         {| sp_null := false; sp_map := ssys_put (sp_map p) n [] |}.
Proof.
  intros I Hb W' N' Hc Ha.
  assert (forall n', smap_get (abs_tree outer') n' =
                     if key_eqb n n' then Some (sval (sy_ctr s)) else smap_get (abs_tree (sy_outer s)) n') as GP.
  { intros n'. rewrite Ha, smap_get_put. reflexivity. }
  constructor; unfold stor; cbn [sy_ctr sy_outer sy_trees sp_null sp_map].
  - exact W'.
  - symmetry. exact N'.
  - apply aput_sorted. exact (si_sorted _ _ I).
  - apply aput_Forall; [exact (si_bytes _ _ I)|exact Hb].
  - intros n' Hb'. rewrite ssys_get_put. destruct (key_eqb_spec n n') as [<-|Hne'].
    + exists (sy_ctr s), (empty_tree (sy_ctr s)).
      split; [rewrite GP, key_eqb_refl; reflexivity|]. split; [exact Hc|].
      split; [rewrite trees_get_set, N.eqb_refl; reflexivity|].
      destruct (empty_tree_wf c' (sy_ctr s) Hc) as [We Ae].
      split; [exact We|]. split; [reflexivity|exact Ae].
    + apply (name_ok_keep s c' outer' _ n' _ (si_names _ _ I n' Hb'));
        [lia|rewrite GP, (key_eqb_neq _ _ Hne'); reflexivity|].
      intros sid2 _ Hs2. rewrite trees_get_set. destruct (N.eqb_spec (sy_ctr s) sid2) as [X|_]; [lia|reflexivity].
  - intros n1 n2 sd H1 H2. rewrite !GP.
    destruct (key_eqb n n1) eqn:E1; destruct (key_eqb n n2) eqn:E2.
    + intros _ _. apply key_eqb_eq in E1, E2. congruence.
    + intros S1 S2. exfalso. injection S1 as S1. subst sd.
      destruct (inv_get_some s p n2 _ I H2 S2) as (m & sid & _ & X & Hs).
      apply sval_inj in X. lia.
    + intros S1 S2. exfalso. injection S2 as S2. subst sd.
      destruct (inv_get_some s p n1 _ I H1 S1) as (m & sid & _ & X & Hs).
      apply sval_inj in X. lia.
    + intros S1 S2. apply (si_inj _ _ I n1 n2 sd H1 H2 S1 S2).
Qed.

Lemma SysInv_drop s p n sid outer' :
  SysInv s p -> bytes n -> stor s n sid ->
  WF_store (sy_ctr s) outer' -> t_null outer' = t_null (sy_outer s) ->
  abs_tree outer' = smap_del (abs_tree (sy_outer s)) n ->
  SysInv {| sy_ctr := sy_ctr s; sy_outer := outer'; sy_trees := trees_del (sy_trees s) sid |}
         {| sp_null := sp_null p; sp_map := ssys_del (sp_map p) n |}.
Proof.
  intros I Hb St W' N' Ha.
  assert (forall n', smap_get (abs_tree outer') n' =
                     if key_eqb n n' then None else smap_get (abs_tree (sy_outer s)) n') as GD.
  { intros n'. rewrite Ha. apply smap_get_del. exact (abs_tree_sorted _ _ (si_outer _ _ I)). }
  constructor; unfold stor; cbn [sy_ctr sy_outer sy_trees sp_null sp_map].
  - exact W'.
  - rewrite N'. exact (si_null _ _ I).
  - apply adel_sorted. exact (si_sorted _ _ I).
  - apply adel_Forall. exact (si_bytes _ _ I).
  - intros n' Hb'. rewrite (ssys_get_del _ _ _ (si_sorted _ _ I)).
    destruct (key_eqb_spec n n') as [<-|Hne']; [rewrite GD, key_eqb_refl; reflexivity|].
    apply (name_ok_keep s (sy_ctr s) outer' _ n' _ (si_names _ _ I n' Hb') (N.le_refl _));
      [rewrite GD, (key_eqb_neq _ _ Hne'); reflexivity|].
    intros sid2 St2 _. apply trees_get_del. intros ->. elim Hne'. exact (si_inj _ _ I n n' sid2 Hb Hb' St St2).
  - intros n1 n2 sd H1 H2. rewrite !GD.
    destruct (key_eqb n n1); [discriminate|]. destruct (key_eqb n n2); [discriminate|].
    intros S1 S2. apply (si_inj _ _ I n1 n2 sd H1 H2 S1 S2).
Qed.

Lemma step_create s p n : SysInv s p -> bytes n -> step_ok s p (OCreate n).
Proof.
  intros I Hb. unfold step_ok.
  assert (WF_store (sy_ctr s + 2) (sy_outer s)) as W2 by (apply (WF_store_mono _ _ _ (si_outer _ _ I)); lia).
  destruct (put_refines _ _ n (storage_value (sy_ctr s + 1) (sy_ctr s)) true W2 Hb)
    as (tr' & po & c' & E & W' & Hc & R).
  rewrite (exec_create_eq s n tr' po c' E). unfold spec_exec. cbv zeta.
  pose proof (put_not_null _ _ _ _ _ _ _ _ E) as N'.
  pose proof (si_names _ _ I n Hb) as Hn.
  destruct (smap_get (abs_tree (sy_outer s)) n) as [a|] eqn:G.
  - (* the name exists: unique restriction, nothing observable changes *)
    destruct R as [R1 R2]. rewrite R1.
    destruct (ssys_get (sp_map p) n) as [m|]; [|discriminate].
    split; [reflexivity|]. apply (SysInv_outer_same s p tr' c' I W' R2); [|lia].
    rewrite N'. symmetry. exact (get_some_not_null _ _ _ G).
  - destruct R as [R1 R2]. rewrite R1.
    destruct (ssys_get (sp_map p) n) as [m|] eqn:Gs.
    { destruct Hn as (sid & tr & St & _). unfold stor in St. congruence. }
    split; [reflexivity|]. apply (SysInv_create s p n tr' c' I Hb W' N'); [lia|exact R2].
Qed.

Lemma step_drop s p n : SysInv s p -> bytes n -> step_ok s p (ODropStorage n).
Proof.
  intros I Hb. unfold step_ok, spec_exec. cbv zeta.
  pose proof (find_storage_spec s p n I Hb) as F.
  destruct (ssys_get (sp_map p) n) as [m|] eqn:Gs.
  - destruct F as (sid & tr & F & St & _).
    destruct (remove_refines _ _ n (si_outer _ _ I) Hb) as (tr' & ro & E & W' & R).
    rewrite (exec_drop_eq s n sid tr' ro F E). pose proof (remove_null _ _ _ _ E) as N'.
    pose proof St as St0. unfold stor in St0.
    rewrite (get_some_not_null _ _ _ St0), St0 in R. destruct R as [R1 R2]. rewrite R1.
    split; [reflexivity|]. exact (SysInv_drop s p n sid tr' I Hb St W' N' R2).
  - rewrite (exec_drop_none s n F). split; [reflexivity|exact I].
Qed.

Theorem step_refines s p o : SysInv s p -> op_bytes o -> noscan o = true -> step_ok s p o.
Proof.
  intros I Hb Hn. destruct o; cbn [op_bytes noscan] in Hb, Hn; try discriminate.
  - apply step_create; assumption.
  - apply step_drop; assumption.
  - apply step_find; assumption.
  - destruct Hb. apply step_put; assumption.
  - destruct Hb. apply step_get; assumption.
  - destruct Hb. apply step_remove; assumption.
  - apply step_destroy; assumption.
Qed.

Lemma exec_inv s p o : SysInv s p -> op_bytes o -> exists p', SysInv (fst (exec s o)) p'.
Proof.
  intros I Hb. destruct (noscan o) eqn:En.
  - pose proof (step_refines s p o I Hb En) as S. unfold step_ok in S.
    destruct (exec s o) as [s' x]. destruct (spec_exec p o) as [p' y]. exists p'. apply S.
  - exists p. rewrite exec_readonly; [exact I|]. destruct o; try discriminate; exact Logic.I.
Qed.

(** ** operation sequences *)
Lemma exec_all_sim (J : sys -> spec_state -> Prop) (P : op -> Prop) :
  (forall s p o, J s p -> P o -> sim J (exec s o) (spec_exec p o)) ->
  forall ops s p, J s p -> Forall P ops ->
    map abs_out (snd (exec_all s ops)) = snd (spec_exec_all p ops) /\
    J (fst (exec_all s ops)) (fst (spec_exec_all p ops)).
Proof.
  intros Hstep. induction ops as [|o ops IH]; intros s p HJ HP; cbn [exec_all spec_exec_all].
  - split; [reflexivity|exact HJ].
  - apply Forall_cons_iff in HP. destruct HP as [HP1 HP].
    pose proof (Hstep s p o HJ HP1) as S. unfold sim in S.
    destruct (exec s o) as [s1 x]. destruct (spec_exec p o) as [p1 y]. destruct S as [S1 S2].
    specialize (IH s1 p1 S2 HP).
    destruct (exec_all s1 ops) as [s2 xs]. destruct (spec_exec_all p1 ops) as [p2 ys].
    cbn [fst snd map] in *. destruct IH as [IH1 IH2]. split; [|exact IH2].
    rewrite S1, IH1. reflexivity.
Qed.

Lemma exec_all_refines ops : Forall (fun o => noscan o = true) ops -> Forall op_bytes ops ->
  map abs_out (snd (exec_all sys_init ops)) = snd (spec_exec_all spec_init ops) /\
  SysInv (fst (exec_all sys_init ops)) (fst (spec_exec_all spec_init ops)).
Proof.
  intros Hn Hb. apply (exec_all_sim SysInv (fun o => noscan o = true /\ op_bytes o)).
  - intros s p o I [H1 H2]. exact (step_refines s p o I H2 H1).
  - exact SysInv_init.
  - exact (Forall_and Hn Hb).
Qed.

Theorem sys_refines_spec : forall ops,
  Forall (fun o => noscan o = true) ops -> Forall op_bytes ops ->
  map abs_out (snd (exec_all sys_init ops)) = snd (spec_exec_all spec_init ops).
Proof. intros ops Hn Hb. exact (proj1 (exec_all_refines ops Hn Hb)). Qed.

Theorem reachable_inv : forall ops,
  Forall (fun o => noscan o = true) ops -> Forall op_bytes ops ->
  SysInv (fst (exec_all sys_init ops)) (fst (spec_exec_all spec_init ops)).
Proof. intros ops Hn Hb. exact (proj2 (exec_all_refines ops Hn Hb)). Qed.

(** *** the storage names of the two sides are the same list *)
Theorem SysInv_names s p : SysInv s p -> map fst (abs_tree (sy_outer s)) = map fst (sp_map p).
Proof.
  intros I. pose proof (abs_tree_sorted _ _ (si_outer _ _ I)) as So.
  apply (StronglySorted_ext (fun a b => lex_lt a b = true)).
  - intros a b H. rewrite (lex_lt_asym _ _ H). discriminate.
  - apply StronglySorted_map_iff. exact So.
  - apply StronglySorted_map_iff. exact (si_sorted _ _ I).
  - intros n. split; intros H.
    + apply in_map_iff in H. destruct H as ([n' a] & <- & H). cbn [fst].
      pose proof H as H0. apply (abs_tree_in _ _ n' a (si_outer _ _ I)) in H0. destruct H0 as [Hb _].
      apply (aget_in _ _ _ So) in H.
      destruct (inv_get_some s p n' a I Hb H) as (m & _ & G & _).
      apply (aget_in _ _ _ (si_sorted _ _ I)) in G. apply in_map_iff. exists (n', m). split; [reflexivity|exact G].
    + pose proof (si_bytes _ _ I) as Fb. rewrite Forall_forall in Fb. pose proof (Fb n H) as Hb.
      apply in_map_iff in H. destruct H as ([n' m] & <- & H). cbn [fst] in *.
      pose proof (si_names _ _ I n' Hb) as X. rewrite (proj2 (aget_in _ _ _ (si_sorted _ _ I)) H : ssys_get _ _ = _) in X.
      destruct X as (sid & tr & St & _). unfold stor in St. apply (aget_in _ _ _ So) in St.
      apply in_map_iff. exists (n', sval sid). split; [reflexivity|exact St].
Qed.

(** *** isolation: writing to storage [n1] does not change what a get on another name returns *)
Definition writes_to (o : op) (n : key) : Prop :=
  match o with OPut n' _ _ _ _ _ | ORemove n' _ => n' = n | _ => False end.

Lemma get_frame s s' n2 k :
  sy_outer s' = sy_outer s ->
  (forall sid, find_storage s n2 = Some (Some sid) -> trees_get (sy_trees s') sid = trees_get (sy_trees s) sid) ->
  snd (exec s' (OGet n2 k)) = snd (exec s (OGet n2 k)).
Proof.
  intros Ho Ht. unfold exec.
  assert (find_storage s' n2 = find_storage s n2) as F by (unfold find_storage; rewrite Ho; reflexivity).
  rewrite F. destruct (find_storage s n2) as [[sid|]|]; try reflexivity.
  rewrite (Ht sid eq_refl). destruct (trees_get (sy_trees s) sid) as [tr|]; [|reflexivity].
  destruct (get tr k); reflexivity.
Qed.

Lemma write_frame s p o n1 : SysInv s p -> bytes n1 -> writes_to o n1 ->
  sy_outer (fst (exec s o)) = sy_outer s /\
  forall n2 sid, bytes n2 -> n1 <> n2 -> find_storage s n2 = Some (Some sid) ->
    trees_get (sy_trees (fst (exec s o))) sid = trees_get (sy_trees s) sid.
Proof.
  intros I Hb Hw.
  pose (Q := fun s' => sy_outer s' = sy_outer s /\
               forall n2 sid, bytes n2 -> n1 <> n2 -> find_storage s n2 = Some (Some sid) ->
                 trees_get (sy_trees s') sid = trees_get (sy_trees s) sid).
  assert (Q s) as Q0 by (split; reflexivity).
  (* the tree that is set belongs to [n1], and no other name has its id ([si_inj]) *)
  assert (forall sid1 tr' c', stor s n1 sid1 ->
            Q {| sy_ctr := c'; sy_outer := sy_outer s; sy_trees := trees_set (sy_trees s) sid1 tr' |}) as K.
  { intros sid1 tr' c' St. split; [reflexivity|]. intros n2 sid Hb2 Hne F2. cbn [sy_trees]. rewrite trees_get_set.
    destruct (N.eqb_spec sid1 sid) as [->|_]; [|reflexivity]. exfalso. apply Hne.
    pose proof (find_storage_spec s p n2 I Hb2) as X.
    destruct (ssys_get (sp_map p) n2) as [m|]; [|congruence].
    destruct X as (sid2 & tr2 & F2' & St2 & _). rewrite F2 in F2'. injection F2' as <-.
    apply (si_inj _ _ I n1 n2 sid Hb Hb2 St St2). }
  destruct o; try contradiction; cbn [writes_to] in Hw; subst name.
  - rewrite exec_put_eq. apply (with_tree_pres Q s p n1 _ I Hb Q0). intros sid1 tr St _ _.
    destruct (put tr k (mk_value (sy_ctr s) bytes align inline) unique (sy_ctr s + 1)) as [[[tr' po] c']|];
      [exact (K sid1 tr' c' St)|exact Q0].
  - rewrite exec_remove_eq. apply (with_tree_pres Q s p n1 _ I Hb Q0). intros sid1 tr St _ _.
    destruct (remove tr k) as [[tr' ro]|]; [exact (K sid1 tr' (sy_ctr s) St)|exact Q0].
Qed.

Theorem sys_isolation : forall ops o n1 n2 k,
  Forall (fun o => noscan o = true) ops -> Forall op_bytes ops ->
  bytes n1 -> bytes n2 -> writes_to o n1 -> n1 <> n2 ->
  let s := fst (exec_all sys_init ops) in
  snd (exec (fst (exec s o)) (OGet n2 k)) = snd (exec s (OGet n2 k)).
Proof.
  intros ops o n1 n2 k Hn Hb H1 H2 Hw Hne s.
  pose proof (reachable_inv ops Hn Hb) as I. fold s in I.
  destruct (write_frame s _ o n1 I H1 Hw) as [Ho Ht].
  apply get_frame; [exact Ho|]. intros sid F. apply (Ht n2 sid H2 Hne F).
Qed.

(** *** data operations on a name that is not a storage *)
Definition data_op_on (o : op) (n : key) : Prop :=
  match o with
  | OPut n' _ _ _ _ _ | OGet n' _ | ORemove n' _ | OScan n' _ => n' = n
  | _ => False
  end.

Lemma unknown_inv s p o n : SysInv s p -> bytes n -> data_op_on o n ->
  ssys_get (sp_map p) n = None ->
  exec s o = (s, RStatus St_WARN_STORAGE_NOT_EXIST) /\
  spec_exec p o = (p, AStatus St_WARN_STORAGE_NOT_EXIST).
Proof.
  intros I Hb Hd G. pose proof (find_storage_spec s p n I Hb) as F. rewrite G in F.
  destruct o; try contradiction; cbn [data_op_on] in Hd; subst name;
    unfold exec, spec_exec; rewrite F, G; split; reflexivity.
Qed.

Theorem sys_unknown_storage : forall ops o n,
  Forall (fun o => noscan o = true) ops -> Forall op_bytes ops ->
  bytes n -> data_op_on o n ->
  ssys_get (sp_map (fst (spec_exec_all spec_init ops))) n = None ->
  let s := fst (exec_all sys_init ops) in
  exec s o = (s, RStatus St_WARN_STORAGE_NOT_EXIST).
Proof.
  intros ops o n Hn Hb H1 Hd G s.
  exact (proj1 (unknown_inv s _ o n (reachable_inv ops Hn Hb) H1 Hd G)).
Qed.

(** the same, with "not a storage" read off the implementation ([OFind] says so) *)
Theorem sys_unknown_storage_find : forall ops o n,
  Forall (fun o => noscan o = true) ops -> Forall op_bytes ops ->
  bytes n -> data_op_on o n ->
  let s := fst (exec_all sys_init ops) in
  snd (exec s (OFind n)) = RStatus St_WARN_NOT_EXIST ->
  exec s o = (s, RStatus St_WARN_STORAGE_NOT_EXIST).
Proof.
  intros ops o n Hn Hb H1 Hd s Hf. pose proof (reachable_inv ops Hn Hb) as I. fold s in I.
  refine (proj1 (unknown_inv s _ o n I H1 Hd _)).
  pose proof (find_storage_spec s _ n I H1) as F.
  destruct (ssys_get (sp_map (fst (spec_exec_all spec_init ops))) n) as [m|]; [|reflexivity].
  destruct F as (sid & tr & F & _). unfold exec in Hf. rewrite F in Hf. discriminate.
Qed.

Print Assumptions sys_refines_spec.
Print Assumptions reachable_inv.
Print Assumptions SysInv_names.
Print Assumptions sys_isolation.
Print Assumptions sys_unknown_storage.
Print Assumptions sys_unknown_storage_find.
