(** * C18 -- every key comparison site agrees with one canonical total order on
    (slice, length) tuples, and that order is the bytewise lexicographic order
    of the keys.  Property theorems only. *)
From Coq Require Import NArith List Bool.
From Yk Require Import KeyDefs KeyProofs.
Local Open Scope N_scope.

(** the canonical order is a strict total order (on all tuples, hence on the
    well-formed ones): irreflexive, transitive, trichotomous *)
Theorem C18_canon_strict_total :
  (forall a, canon_lt a a = false) /\
  (forall a b c, canon_lt a b = true -> canon_lt b c = true -> canon_lt a c = true) /\
  (forall a b, canon_lt a b = false -> canon_lt b a = false -> a = b).
Proof. split; [exact canon_lt_irrefl|split; [exact canon_lt_trans|exact canon_lt_trich]]. Qed.
Print Assumptions C18_canon_strict_total.

(** key_tuple::operator< (zero-length rules, min-length memcmp, 9-byte memcmp
    reading the length byte) and the derived operators are the canonical order *)
Theorem C18_operator_lt_is_canon : forall a b,
  kt_wf a = true -> kt_wf b = true ->
  kt_lt a b = canon_lt a b /\ kt_gt a b = canon_lt b a /\
  kt_le a b = negb (canon_lt b a) /\ kt_ge a b = negb (canon_lt a b) /\
  (kt_eq a b = true <-> a = b) /\
  kt_eq a b = negb (canon_lt a b) && negb (canon_lt b a).
Proof.
  intros a b Ha Hb.
  split; [exact (kt_lt_canon a b Ha Hb)|]. split; [exact (kt_gt_canon a b Ha Hb)|].
  split; [exact (kt_le_canon a b Ha Hb)|]. split; [exact (kt_ge_canon a b Ha Hb)|].
  exact (kt_eq_canon a b).
Qed.
Print Assumptions C18_operator_lt_is_canon.

(** border lookup: Hit exactly on the equal tuple, Stop / Next exactly when the
    searched key is canonically smaller / larger than the entry *)
Theorem C18_site_lookup : forall k t,
  kt_wf k = true -> kt_wf t = true ->
  (lookup_probe k t = Hit <-> k = t \/ (8 < kl k /\ 8 < kl t /\ ks k = ks t)) /\
  (lookup_probe k t = Hit <-> ks k = ks t /\ kl k = kl t) /\
  (lookup_probe k t = Stop <-> canon_lt k t = true) /\
  (lookup_probe k t = Next <-> canon_lt t k = true).
Proof. exact lookup_probe_site. Qed.
Print Assumptions C18_site_lookup.

(** border insert rank (true for all tuples, well formed or not) *)
Theorem C18_site_rank : forall k t, rank_probe k t = canon_lt k t.
Proof. exact rank_probe_site. Qed.
Print Assumptions C18_site_rank.

(** interior routing *)
Theorem C18_site_route : forall k sep,
  kt_wf k = true -> kt_wf sep = true -> route_probe k sep = canon_lt k sep.
Proof. exact route_probe_site. Qed.
Print Assumptions C18_site_route.

(** interior insert position and interior split side (same test) *)
Theorem C18_site_interior_insert : forall k sep,
  kt_wf k = true -> kt_wf sep = true -> iins_probe k sep = canon_lt k sep.
Proof. exact iins_probe_site. Qed.
Print Assumptions C18_site_interior_insert.

(** border split side: for a new key different from the first moved entry, and
    under the caller's invariant that a rank below [remaining] means a key
    below that entry, the side test is the canonical order *)
Theorem C18_site_border_split : forall k first rank remaining,
  kt_wf k = true -> kt_wf first = true ->
  (ks k <> ks first \/ kl k <> kl first) ->
  ((rank <? remaining) = true -> canon_lt k first = true) ->
  bsplit_left k first rank remaining = canon_lt k first.
Proof. exact bsplit_left_site. Qed.
Print Assumptions C18_site_border_split.

(** delete matches exactly the equal tuple *)
Theorem C18_site_delete_match : forall k t,
  kt_wf k = true -> kt_wf t = true ->
  (delete_match k t = true <-> ks k = ks t /\ kl k = kl t).
Proof. exact delete_match_site. Qed.
Print Assumptions C18_site_delete_match.

(** the tuple order is the lexicographic byte order, wherever the slice
    boundary falls; tuples built from keys are well formed *)
Theorem C18_tuple_order_is_lex :
  (forall k, bytes k -> kt_wf (tuple_of_key k) = true) /\
  (forall a b, bytes a -> bytes b -> (length a <= 8 \/ length b <= 8)%nat ->
     lex_lt a b = canon_lt (tuple_of_key a) (tuple_of_key b)) /\
  (forall a b, bytes a -> bytes b ->
     lex_lt a b =
       canon_lt (tuple_of_key a) (tuple_of_key b) ||
       (kt_eq (tuple_of_key a) (tuple_of_key b) && (kl (tuple_of_key a) =? 9) &&
        lex_lt (skipn 8 a) (skipn 8 b))).
Proof. split; [exact tuple_of_key_wf|split; [exact lex_tuple_short|exact lex_tuple]]. Qed.
Print Assumptions C18_tuple_order_is_lex.

(** non-vacuity: "" < "\0" < "\0\0" (all three have slice 0), and an 8-byte key
    against a link (length 9) with the same slice; every tuple is well formed
    and every site gives the canonical answer *)
Example C18_nonvacuous :
  let e  := tuple_of_key [] in
  let z1 := tuple_of_key [0] in
  let z2 := tuple_of_key [0; 0] in
  let k8 := tuple_of_key [1; 2; 3; 4; 5; 6; 7; 8] in
  let lk := tuple_of_key [1; 2; 3; 4; 5; 6; 7; 8; 9] in
  bytes [1; 2; 3; 4; 5; 6; 7; 8; 9] /\ bytes [0; 0] /\
  forallb kt_wf [e; z1; z2; k8; lk] = true /\
  (ks e, ks z1, ks z2) = (0, 0, 0) /\ (kl e, kl z1, kl z2) = (0, 1, 2) /\
  ks k8 = 0x0102030405060708 /\ ks lk = ks k8 /\ (kl k8, kl lk) = (8, 9) /\
  (canon_lt e z1, canon_lt z1 z2, canon_lt e z2, canon_lt z1 e, canon_lt k8 lk, canon_lt lk k8)
    = (true, true, true, false, true, false) /\
  (kt_lt e z1, kt_lt z1 z2, kt_lt e z2, kt_lt z1 e, kt_lt k8 lk, kt_lt lk k8)
    = (true, true, true, false, true, false) /\
  (lookup_probe e z1, lookup_probe z1 z1, lookup_probe z2 z1, lookup_probe e e)
    = (Stop, Hit, Next, Hit) /\
  (lookup_probe k8 lk, lookup_probe lk k8, lookup_probe lk lk) = (Stop, Next, Hit) /\
  (rank_probe z1 z2, route_probe z1 z2, iins_probe z1 z2, bsplit_left z1 z2 3 3)
    = (true, true, true, true) /\
  (rank_probe lk k8, route_probe lk k8, iins_probe lk k8, bsplit_left lk k8 3 3)
    = (false, false, false, false) /\
  (delete_match z1 z2, delete_match k8 lk, delete_match z1 z1, delete_match lk lk)
    = (false, false, true, true) /\
  (lex_lt [] [0], lex_lt [0] [0; 0], lex_lt [1; 2; 3; 4; 5; 6; 7; 8] [1; 2; 3; 4; 5; 6; 7; 8; 9])
    = (true, true, true).
Proof.
  cbv zeta. split; [repeat constructor|]. split; [repeat constructor|].
  vm_compute. repeat split; reflexivity.
Qed.
