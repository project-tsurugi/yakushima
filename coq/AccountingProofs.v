(** * AccountingProofs: allocation accounting at store level (property C11).

    "Everything allocated is released; retired objects are released exactly once."

    [store_allocs tr] = every allocation id reachable from a storage: the node ids
    of all layers and the ids of all out-of-line values.  Every operation, from the put into
    one layer to a history of the system, is described by the same relation [led], a multiset
    identity: reachable afterwards + handed to the gc = reachable before + ids taken from the
    counter, each once.  A put is accounted for case by case of [StoreProofs.put_step], a remove along its
    run [StoreProofs.rm_steps].  In the system ([exec]) drop_storage / destroy release whole trees at once. *)
From Coq Require Import NArith Lia ZifyBool ZifyN List Permutation.
From Yk Require Import KeyDefs KeyProofs TreeDefs SysDefs SpecDefs LeafProofs LayerProofs StoreProofs SysProofs.
Import ListNotations.
Local Open Scope N_scope.

(** the allocation id of a value: inline values are words, not objects *)
Definition vid (v : value) : list N := if v_inline v then [] else [v_id v].

(** the expression used by [put_walk] / [remove_walk] for the ids handed to the gc ([StoreProofs.gc_ids] is the same) *)
Definition slot_vids (s : slot_t) : list N :=
  match sl_lv s with
  | LValue v => if v_inline v then [] else [v_id v]
  | _ => []
  end.

Definition val_ids (es : list slot_t) : list N := flat_map slot_vids es.

(** [bt_elems]: the entries in the permutation; stale slot contents are not reachable *)
Definition layer_allocs (root : bt) : list N := bt_ids root ++ val_ids (bt_elems root).

Definition layers_allocs (ls : layers_t) : list N := flat_map (fun pr => layer_allocs (snd pr)) ls.

Definition store_allocs (tr : tree) : list N :=
  if t_null tr then [] else layers_allocs (t_layers tr).

Lemma store_allocs_null tr : t_null tr = true -> store_allocs tr = [].
Proof. unfold store_allocs. intros ->. reflexivity. Qed.

Lemma store_allocs_layers tr : t_null tr = false -> store_allocs tr = layers_allocs (t_layers tr).
Proof. unfold store_allocs. intros ->. reflexivity. Qed.

Definition ro_retired (ro : rem_out) : list N := ro_retired_values ro ++ ro_retired_nodes ro.

(** [WF_store] says nothing about value ids *)
Definition alloc_ok (ctr : N) (tr : tree) : Prop :=
  NoDup (store_allocs tr) /\ forall i, In i (store_allocs tr) -> i < ctr.

Fixpoint nseq (a : N) (n : nat) : list N :=
  match n with O => [] | S m => a :: nseq (a + 1) m end.

Lemma nseq_in : forall n a i, In i (nseq a n) <-> a <= i < a + N.of_nat n.
Proof.
  induction n as [|n IH]; intros a i; cbn [nseq In].
  - split; [intros []|lia].
  - rewrite IH. lia.
Qed.

Lemma nseq_NoDup : forall n a, NoDup (nseq a n).
Proof.
  induction n as [|n IH]; intros a; cbn [nseq]; constructor; [|apply IH].
  rewrite nseq_in. lia.
Qed.

Lemma nseq_app : forall n m a, nseq a (n + m) = nseq a n ++ nseq (a + N.of_nat n) m.
Proof.
  induction n as [|n IH]; intros m a.
  - cbn [nseq app Nat.add]. f_equal. lia.
  - cbn [nseq app Nat.add]. f_equal. rewrite IH. f_equal. f_equal. lia.
Qed.

Definition nrange (a b : N) : list N := nseq a (N.to_nat (b - a)).

Lemma nrange_in a b i : In i (nrange a b) <-> a <= i < b.
Proof. unfold nrange. rewrite nseq_in. lia. Qed.

Lemma nrange_NoDup a b : NoDup (nrange a b).
Proof. apply nseq_NoDup. Qed.

Lemma nrange_app a b c : a <= b -> b <= c -> nrange a c = nrange a b ++ nrange b c.
Proof.
  intros H1 H2. unfold nrange.
  replace (N.to_nat (c - a)) with (N.to_nat (b - a) + N.to_nat (c - b))%nat by lia.
  rewrite nseq_app. f_equal. f_equal. lia.
Qed.

Definition mem (i : N) (l : list N) : bool := existsb (N.eqb i) l.

Lemma mem_spec i l : mem i l = true <-> In i l.
Proof. apply existsb_eqb_In. Qed.

Definition unused (a b : N) (used : list N) : list N :=
  filter (fun i => negb (mem i used)) (nrange a b).

(** ** Multisets of ids

    The identities below are [Permutation]s between concatenations.  Where one follows from
    others, [perm_count] derives it from the [Permutation]s in the context (and only from
    them: clear the others first) by counting the occurrences of an arbitrary id, which
    leaves linear arithmetic over the counts of the concatenated pieces. *)
Ltac perm_count :=
  apply (Permutation_count_occ N.eq_dec); let x := fresh "x" in intros x;
  repeat match goal with
         | H : Permutation _ _ |- _ =>
           let H' := fresh in
           pose proof (proj1 (Permutation_count_occ N.eq_dec _ _) H x) as H'; clear H
         end;
  repeat rewrite count_occ_app in *; repeat rewrite count_occ_nil in *; lia.

Lemma flat_map_mid_perm {A B} (f : A -> list B) L1 x L2 :
  Permutation (flat_map f (L1 ++ x :: L2)) (f x ++ flat_map f (L1 ++ L2)).
Proof. rewrite !flat_map_app. cbn [flat_map]. apply Permutation_app_swap_app. Qed.

Lemma layers_allocs_app a b : layers_allocs (a ++ b) = layers_allocs a ++ layers_allocs b.
Proof. apply flat_map_app. Qed.

Lemma layers_allocs_set ls p root r' : layer_get ls p = Some root ->
  Permutation (layers_allocs (layer_set ls p r')) (layer_allocs r' ++ layers_allocs (layer_del ls p)).
Proof.
  intros Eg. destruct (layer_split ls p root Eg) as (L1 & L2 & _ & -> & ->).
  exact (flat_map_mid_perm _ L1 (p, r') L2).
Qed.

Lemma layers_allocs_get ls p root : layer_get ls p = Some root ->
  Permutation (layers_allocs ls) (layer_allocs root ++ layers_allocs (layer_del ls p)).
Proof.
  intros Eg. destruct (layer_split ls p root Eg) as (L1 & L2 & E & _ & ->). rewrite E at 1.
  exact (flat_map_mid_perm _ L1 (p, root) L2).
Qed.

(** ** The ledger of a step

    [led c X c' X' rel] is what every level below says of a step: it takes the counter from [c] to [c'] and
    the allocated ids from [X] to [X'], and it releases [rel].  Then [X' ++ rel] is [X] together with some ids
    of [c, c'), each taken once.  The released ids stand on the left, beside what stays allocated, because
    lists have no subtraction: written so, both sides only grow, steps compose by appending what they release
    ([led_trans]), a step on a part of what is allocated is a step on the whole ([led_frame]), and
    [NoDup (X' ++ rel)] ([led_ok]) says at once that nothing is released twice and that nothing released is
    still allocated. *)
Definition led (c : N) (X : list N) (c' : N) (X' rel : list N) : Prop :=
  c <= c' /\ exists fresh,
    Permutation (X' ++ rel) (fresh ++ X) /\ NoDup fresh /\ forall i, In i fresh -> c <= i < c'.

Lemma led_perm c c' X X' rel : c <= c' -> Permutation (X' ++ rel) X -> led c X c' X' rel.
Proof. intros H P. split; [exact H|]. exists []. split; [exact P|]. split; [constructor|intros i []]. Qed.

Lemma led_same c X X' rel : led c X c X' rel -> Permutation (X' ++ rel) X.
Proof. intros (_ & [|i f] & P & _ & R); [exact P|]. pose proof (R i (or_introl eq_refl)). lia. Qed.

Lemma led_le c X c' X' rel : led c X c' X' rel -> c <= c'.
Proof. intros L. exact (proj1 L). Qed.

Lemma led_trans c X c1 X1 r1 c2 X2 r2 : led c X c1 X1 r1 -> led c1 X1 c2 X2 r2 -> led c X c2 X2 (r1 ++ r2).
Proof.
  intros (H1 & f1 & P1 & N1 & R1) (H2 & f2 & P2 & N2 & R2). split; [lia|]. exists (f1 ++ f2). split; [|split].
  - clear - P1 P2. perm_count.
  - apply NoDup_app. split; [exact N1|]. split; [exact N2|]. intros x A B. apply R1 in A. apply R2 in B. lia.
  - intros i Hi. apply in_app_or in Hi. destruct Hi as [Hi|Hi]; [apply R1 in Hi|apply R2 in Hi]; lia.
Qed.

Lemma led_frame Z c X c' X' rel Y Y' :
  led c X c' X' rel -> Permutation Y (X ++ Z) -> Permutation Y' (X' ++ Z) -> led c Y c' Y' rel.
Proof.
  intros (H & f & P & NR) P1 P2. split; [exact H|]. exists f. split; [|exact NR]. clear - P P1 P2. perm_count.
Qed.

Lemma led_in c X c' X' rel i : led c X c' X' rel -> In i (X' ++ rel) -> In i X \/ c <= i < c'.
Proof.
  intros (_ & f & P & _ & R) Hi. apply (Permutation_in _ P) in Hi. apply in_app_or in Hi.
  destruct Hi as [Hi|Hi]; [right; exact (R i Hi)|left; exact Hi].
Qed.

Lemma led_incl c X c' X' rel : led c X c' X' rel -> incl X (X' ++ rel).
Proof.
  intros (_ & f & P & _) i Hi. apply (Permutation_in _ (Permutation_sym P)). apply in_or_app. right. exact Hi.
Qed.

Lemma led_ok c X c' X' rel : led c X c' X' rel -> NoDup X -> (forall i, In i X -> i < c) ->
  NoDup (X' ++ rel) /\ forall i, In i (X' ++ rel) -> i < c'.
Proof.
  intros L ND BD. split.
  - destruct L as (_ & f & P & Nf & R). apply (Permutation_NoDup (Permutation_sym P)).
    apply NoDup_app. split; [exact Nf|]. split; [exact ND|]. intros x H1 H2. apply R in H1. apply BD in H2. lia.
  - intros i Hi. pose proof (led_le _ _ _ _ _ L). destruct (led_in _ _ _ _ _ i L Hi) as [H1|H1]; [apply BD in H1|]; lia.
Qed.

Lemma led_fresh c c' f X : c <= c' -> NoDup f -> (forall i, In i f -> c <= i < c') -> led c X c' (f ++ X) [].
Proof.
  intros H Nf R. split; [exact H|]. exists f. rewrite app_nil_r. split; [apply Permutation_refl|]. split; [exact Nf|exact R].
Qed.

Lemma led_take c n X : led c X (c + N.of_nat n) (nseq c n ++ X) [].
Proof. apply led_fresh; [lia|apply nseq_NoDup|]. intros i Hi. apply nseq_in in Hi. exact Hi. Qed.

(** the ids of [c, c') that are in use after a step are its fresh ones: the others are [unused] *)
Lemma led_unused c X c' X' rel : led c X c' X' rel -> (forall i, In i X -> i < c) ->
  Permutation (X' ++ rel ++ unused c c' (X' ++ rel)) (nrange c c' ++ X).
Proof.
  intros (_ & fresh & P & NF & RF) BD. set (used := X' ++ rel) in *.
  assert (Permutation (nrange c c') (fresh ++ unused c c' used)) as P2.
  { eapply Permutation_trans; [apply (filter_split_perm (fun i => mem i used))|].
    apply Permutation_app_tail. apply NoDup_Permutation.
    - apply NoDup_filter. apply nrange_NoDup.
    - exact NF.
    - intros x. rewrite filter_In, nrange_in, mem_spec. split.
      + intros [Hr Hx]. apply (Permutation_in _ P) in Hx. apply in_app_or in Hx.
        destruct Hx as [Hx|Hx]; [exact Hx|]. apply BD in Hx. lia.
      + intros Hx. split; [apply RF; exact Hx|].
        apply (Permutation_in _ (Permutation_sym P)). apply in_or_app. left. exact Hx. }
  rewrite app_assoc. fold used. clear - P P2. perm_count.
Qed.

Lemma layers_led ls p root r' Y c c' rel :
  layer_get ls p = Some root -> led c (Y ++ layer_allocs root) c' (layer_allocs r') rel ->
  led c (Y ++ layers_allocs ls) c' (layers_allocs (layer_set ls p r')) rel.
Proof.
  intros Eg L. apply (led_frame (layers_allocs (layer_del ls p)) _ _ _ _ _ _ _ L).
  - rewrite <- app_assoc. apply Permutation_app_head. exact (layers_allocs_get ls p root Eg).
  - exact (layers_allocs_set ls p root r' Eg).
Qed.

(** ** One layer *)

Lemma layer_put_acc root k lv ctr root' info ctr' :
  WF_layer root -> kt_wf k = true -> ~ In k (bt_keys root) ->
  entry_ok {| sl_key := k; sl_lv := lv |} ->
  layer_put root k lv ctr = Some (root', info, ctr') ->
  led ctr (slot_vids {| sl_key := k; sl_lv := lv |} ++ layer_allocs root) ctr' (layer_allocs root') [].
Proof.
  intros Hwf Hk Hnin Hok E.
  destruct (layer_put_perm root k lv ctr Hwf Hk Hnin Hok)
    as (r2 & i2 & c2 & nodes & E2 & _ & (A & B & HA & HB) & Pid & Nn & Rn & Hc & _).
  rewrite E in E2. injection E2 as <- <- <-.
  split; [lia|]. exists nodes. split; [|split; [exact Nn|exact Rn]].
  unfold layer_allocs, val_ids. rewrite HA, HB, !flat_map_app. cbn [flat_map]. clear - Pid. perm_count.
Qed.

Lemma layer_update_acc c root k l rank slot s v :
  WF_layer root -> kt_wf k = true ->
  find_leaf root k = Some l -> leaf_lookup l k = Some (rank, slot, s) -> kl k <= 8 ->
  led c (vid v ++ layer_allocs root) c (layer_allocs (overwrite root k slot s v)) (slot_vids s).
Proof.
  intros Hwf Hk Ef El Hkl. apply led_perm; [apply N.le_refl|].
  destruct (layer_update_spec root k l rank slot s v Hwf Hk Ef El Hkl)
    as (_ & _ & _ & Hids & _ & (A & B & HA & HB) & _).
  fold (overwrite root k slot s v) in Hids, HB. unfold layer_allocs, val_ids. rewrite Hids, HA, HB.
  pose proof (flat_map_mid_perm slot_vids A s B) as P1.
  pose proof (flat_map_mid_perm slot_vids A {| sl_key := sl_key s; sl_lv := LValue v |} B) as P2.
  change (slot_vids {| sl_key := sl_key s; sl_lv := LValue v |}) with (vid v) in P2.
  clear - P1 P2. perm_count.
Qed.

Lemma layer_remove_acc c ls p s root ls' gone ret :
  layer_get ls p = Some root -> WF_layer root -> kt_wf (sl_key s) = true -> In s (bt_elems root) ->
  layer_remove ls p (sl_key s) = Some (ls', gone, ret) ->
  led c (layers_allocs ls) c (layers_allocs ls') (slot_vids s ++ ret) /\
  (gone = true -> p <> [] /\ ls' = layer_del ls p /\ bt_elems root = [s]).
Proof.
  intros Eg Hwf Hk Hin E.
  enough (Permutation (layers_allocs ls' ++ slot_vids s ++ ret) (layers_allocs ls) /\
          (gone = true -> p <> [] /\ ls' = layer_del ls p /\ bt_elems root = [s])) as [P G]
    by (split; [apply led_perm; [apply N.le_refl|exact P]|exact G]).
  destruct (layer_remove_spec ls p _ root Eg Hwf Hk (in_elems_in_keys _ _ Hin)) as (ls2 & g2 & r2 & E2 & C).
  rewrite E in E2. injection E2 as <- <- <-.
  pose proof (layers_allocs_get ls p root Eg) as PG. unfold layer_allocs, val_ids in PG.
  destruct C as [C|[C|C]].
  - destruct C as (-> & root' & root'' & _ & _ & -> & _ & _ & (A & s' & B & HA & Hs & HB) & Hperm).
    split; [|discriminate].
    assert (s' = s) as ->.
    { apply (WF_bt_key_inj None None root _ _ (proj1 Hwf)); [rewrite HA; apply in_elt|exact Hin|exact Hs]. }
    pose proof (layers_allocs_set ls p root root'' Eg) as PS. unfold layer_allocs, val_ids in PS.
    pose proof (flat_map_mid_perm slot_vids A s B) as PV.
    rewrite HA in PG. rewrite HB in PS. clear - PG PS PV Hperm. perm_count.
  - destruct C as (-> & Hp & -> & l & s' & -> & Hent & _ & ->).
    cbn [bt_elems bt_ids] in *. rewrite Hent in *. destruct Hin as [->|[]].
    split; [|intros _; repeat split; exact Hp]. cbn [flat_map] in PG. clear - PG. perm_count.
  - destruct C as (-> & _ & -> & l & s' & l'' & -> & Hent & _ & -> & _ & He'' & Hid).
    split; [|discriminate].
    pose proof (layers_allocs_set ls p _ (BLeaf l'') Eg) as PS. unfold layer_allocs, val_ids in PS.
    cbn [bt_elems bt_ids] in *. rewrite Hent in *. rewrite He'', Hid in PS. destruct Hin as [->|[]].
    cbn [flat_map] in PG, PS. clear - PG PS. perm_count.
Qed.

(** ** put and remove *)

Lemma chain_allocs v : forall rest t p c, vp (t :: rest) ->
  Permutation (layers_allocs (chain_of p (t :: rest) v c)) (nseq c (S (length rest)) ++ vid v).
Proof.
  induction rest as [|t2 r IH]; intros t p c [Hw V].
  - destruct (single_leaf_WF_layer c t (LValue v) (conj Hw V)) as (_ & Hel & Hid).
    unfold layers_allocs, layer_allocs, val_ids. cbn [chain_of tail_lv flat_map snd length nseq].
    rewrite Hel, Hid. cbn [flat_map]. rewrite !app_nil_r. apply Permutation_refl.
  - destruct V as [H9 V]. specialize (IH t2 (p ++ [ks t]) (c + 1) V).
    destruct (single_leaf_WF_layer c t LLink (conj Hw H9)) as (_ & Hel & Hid).
    unfold layers_allocs, layer_allocs, val_ids in *. cbn [chain_of tail_lv flat_map snd] in *.
    rewrite Hel, Hid. cbn [flat_map].
    change (nseq c (S (length (t2 :: r)))) with ([c] ++ nseq (c + 1) (S (length r))).
    change (slot_vids (mk t LLink)) with (@nil N). clear - IH. perm_count.
Qed.

(** The ledger of [put] run at [c1], for any [v]: the id of an out-of-line value was taken by the caller before
    (as in [SysDefs.exec]: value id = counter, put runs at counter + 1), so it is not among the ids that [put]
    takes, whence the [vid v] on the side of what was allocated before.  A failed unique insert changes nothing:
    the id of its value is then a counter value that never became an object ([put_value_fate]). *)
Theorem put_led c1 tr k v unique tr' po c' :
  WF_store c1 tr -> bytes k -> put tr k v unique c1 = Some (tr', po, c') ->
  po_status po = St_WARN_UNIQUE_RESTRICTION /\ tr' = tr /\ po_retired po = [] /\ c' = c1 \/
  po_status po = St_OK /\ led c1 (vid v ++ store_allocs tr) c' (store_allocs tr') (po_retired po).
Proof.
  intros W Hb E.
  destruct (put_cases _ _ _ _ _ _ _ _ W Hb E)
    as [Hn|? ? ? ? ? ? ? ? _ _ _|q root l t rk slot s ov _ L F|q root l t rest root' info c2 L A Hok Eput];
    [right|left; repeat split|right..]; (split; [reflexivity|]); cbn [store_allocs t_null t_layers po_retired].
  - rewrite (store_allocs_null tr Hn). pose proof (proj1 (path_vp k Hb)) as V.
    destruct (path_of_key k) as [|t rest]; [contradiction|].
    apply (led_frame [] _ _ _ _ _ _ _ (led_take c1 (length (t :: rest)) (vid v))); rewrite app_nil_r;
      [apply Permutation_refl|exact (chain_allocs v rest t [] c1 V)].
  - destruct L as [Hn _ _ Eg Ef Hwr _ [Hw V8]]. rewrite (store_allocs_layers tr Hn).
    apply (layers_led _ q root _ _ _ _ _ Eg).
    exact (layer_update_acc c1 root t l rk slot s v Hwr Hw Ef (fd_lookup _ _ _ _ _ _ _ _ _ F) V8).
  - destruct L as [Hn _ _ Eg _ Hwr _ Vl]. rewrite (store_allocs_layers tr Hn).
    pose proof (layers_led _ q root root' _ _ _ _ Eg
                  (layer_put_acc root t _ c1 root' info c2 Hwr (proj1 Vl) (ab_keys _ _ _ _ _ A) Hok Eput)) as L1.
    pose proof (led_trans _ _ _ _ _ _ _ _ L1 (led_take c2 (length rest) _)) as L2. cbn [app] in L2.
    rewrite layers_allocs_app.
    (* the value sits in the new entry, or at the end of the chain below it *)
    destruct rest as [|t2 r].
    + apply (led_frame [] _ _ _ _ _ _ _ L2); cbn [length nseq chain_of layers_allocs flat_map tail_lv];
        change (slot_vids (mk t (LValue v))) with (vid v); rewrite !app_nil_r; apply Permutation_refl.
    + pose proof (chain_allocs v r t2 (q ++ [ks t]) c2 (proj2 (proj2 Vl))) as PC.
      apply (led_frame (vid v) _ _ _ _ _ _ _ L2); change (slot_vids (mk t (tail_lv (t2 :: r) v))) with (@nil N);
        cbn [app length]; [apply Permutation_app_comm|]. clear - PC. perm_count.
Qed.

(** [put] as the callers run it ([SysDefs.exec], [hstep]): the operation takes its ids from [c] on; the value
    object, if there is one, gets one of the first, and [put] itself starts at [c1] *)
Corollary put_op_led c c1 tr k v unique tr' po c' :
  WF_store c1 tr -> bytes k -> c <= c1 -> (v_inline v = false -> c <= v_id v < c1) ->
  put tr k v unique c1 = Some (tr', po, c') ->
  led c (store_allocs tr) c' (store_allocs tr') (po_retired po).
Proof.
  intros W Hb Hc Hv E. destruct (put_led c1 tr k v unique tr' po c' W Hb E) as [(_ & -> & -> & ->)|[_ L]].
  - apply led_perm; [exact Hc|]. rewrite app_nil_r. apply Permutation_refl.
  - rewrite <- (app_nil_l (po_retired po)). refine (led_trans _ _ c1 _ _ _ _ _ _ L).
    apply led_fresh; [exact Hc| |]; unfold vid; destruct (v_inline v).
    + constructor.
    + constructor; [intros []|constructor].
    + intros i [].
    + intros i [<-|[]]. exact (Hv eq_refl).
Qed.

(** the [vid v] of [put_led]: here the value 2, taken by the caller, becomes reachable while put ran at 3 *)
Example put_fresh_value_below_ctr :
  (store_allocs (empty_tree 1),
   match put (empty_tree 1) [1] (mk_value 2 [7] 8 false) false 3 with
   | Some (tr', po, ctr') => (store_allocs tr', po_retired po, ctr')
   | None => ([], [], 0)
   end) = ([1], ([1; 2], [], 4)).
Proof. vm_compute. reflexivity. Qed.

(** a layer that vanishes was a single border, and the next step deletes the link to it ([dangling]) *)
Lemma rm_steps_acc ctr : forall ls p t ls' ret, rm_steps ls p t ls' ret ->
  forall root s, WFL ctr ls (dangling p s) -> layer_get ls p = Some root -> In s (bt_elems root) -> sl_key s = t ->
  led ctr (layers_allocs ls) ctr (layers_allocs ls') (slot_vids s ++ ret).
Proof.
  induction 1 as [ls p t ls' ret E|ls up x t ls1 ret1 ls' ret E S IH]; intros root s W Eg Hin <-;
    pose proof (wl_layer _ _ _ W _ _ Eg) as Hwr;
    pose proof (proj1 (layer_entry_ok ls (wl_layer _ _ _ W) _ root s Eg Hin)) as Hw.
  - exact (proj1 (layer_remove_acc ctr ls p s root ls' false ret Eg Hwr Hw Hin E)).
  - destruct (layer_remove_acc ctr ls _ s root ls1 true ret1 Eg Hwr Hw Hin E) as [L1 Hg].
    destruct (Hg eq_refl) as (Hp & -> & Hel).
    assert (WFL ctr (layer_del ls (up ++ [x])) (Some (up ++ [x]))) as W1.
    { apply (WFL_del ctr ls _ _ root W Hp Eg).
      - intros y Hy. rewrite Hel in Hy. destruct Hy as [->|[]]. reflexivity.
      - unfold dangling. destruct (sl_lv s); [left; reflexivity|left; reflexivity|right; eexists; reflexivity]. }
    destruct (proj2 (wl_exc _ _ _ W1) up x eq_refl) as (r0 & E0 & Hin0).
    (* the link holds no value *)
    rewrite app_assoc. exact (led_trans _ _ _ _ _ _ _ _ L1 (IH r0 (mk (mk9 x) LLink) W1 E0 Hin0 eq_refl)).
Qed.

(** *** remove: what was reachable is what is reachable afterwards together with what is retired; no id is taken *)
Theorem remove_accounting ctr tr k tr' ro :
  WF_store ctr tr -> bytes k -> remove tr k = Some (tr', ro) ->
  led ctr (store_allocs tr) ctr (store_allocs tr') (ro_retired ro).
Proof.
  intros W Hb E.
  destruct (remove_cases _ _ _ _ _ W Hb E) as [Hn|q root l t rest _ _|q root l t rk slot s ov ls' ret L F S];
    try (apply led_perm; [apply N.le_refl|]; cbn [ro_retired ro_retired_values ro_retired_nodes app]; rewrite app_nil_r;
         apply Permutation_refl).
  destruct L as [Hn _ _ Eg], F as [_ Hin Hs Elv _]. rewrite (store_allocs_layers tr Hn).
  apply (rm_steps_acc ctr _ _ _ _ _ S root s); [unfold dangling; rewrite Elv; exact (WF_store_layers _ _ W Hn)|exact Eg|exact Hin|exact Hs].
Qed.

Theorem put_retired_reachable ctr tr k v unique tr' po ctr' :
  WF_store ctr tr -> bytes k -> put tr k v unique ctr = Some (tr', po, ctr') ->
  incl (po_retired po) (store_allocs tr).
Proof.
  intros W Hb E.
  destruct (put_cases _ _ _ _ _ _ _ _ W Hb E)
    as [_|? ? ? ? ? ? ? ? _ _ _|q root l t rk slot s ov _ L F|? ? ? ? ? ? ? ? _ _ _ _]; try (intros x []).
  destruct L as [Hn _ _ Eg _ _ _ _]. rewrite (store_allocs_layers tr Hn). intros x Hx.
  apply (Permutation_in _ (Permutation_sym (layers_allocs_get _ q root Eg))).
  apply in_or_app. left. unfold layer_allocs. apply in_or_app. right.
  unfold val_ids. apply in_flat_map. exists s. split; [exact (fd_in _ _ _ _ _ _ _ _ _ F)|exact Hx].
Qed.

Lemma mk_value_id c bs al il :
  v_inline (mk_value c bs al il) = false -> c <= v_id (mk_value c bs al il) < c + 1.
Proof. destruct il; cbn [mk_value v_inline v_id]; [discriminate|lia]. Qed.

(** ** Operation histories of one tree *)

Inductive hop :=
| HPut (k : key) (bs : list N) (align : N) (unique inline : bool)
| HRemove (k : key).

Definition hop_bytes (o : hop) : Prop :=
  match o with HPut k _ _ _ _ => bytes k | HRemove k => bytes k end.

Record hstate := {
  h_tr : tree;
  h_ctr : N;
  h_ret : list N;
  h_skip : list N;
}.

(** one operation, with the id discipline of [SysDefs.exec]: the value is allocated
    first (id = counter), then [put] runs with the next counter value *)
Definition hstep (st : hstate) (o : hop) : option hstate :=
  match o with
  | HPut k bs al u il =>
    let v := mk_value (h_ctr st) bs al il in
    match put (h_tr st) k v u (h_ctr st + 1) with
    | None => None
    | Some (tr', po, c') =>
      Some {| h_tr := tr'; h_ctr := c'; h_ret := h_ret st ++ po_retired po;
              h_skip := h_skip st ++ unused (h_ctr st) c' (store_allocs tr' ++ po_retired po) |}
    end
  | HRemove k =>
    match remove (h_tr st) k with
    | None => None
    | Some (tr', ro) =>
      Some {| h_tr := tr'; h_ctr := h_ctr st; h_ret := h_ret st ++ ro_retired ro; h_skip := h_skip st |}
    end
  end.

Fixpoint run_ops (ops : list hop) (st : hstate) : option hstate :=
  match ops with
  | [] => Some st
  | o :: r => match hstep st o with None => None | Some st' => run_ops r st' end
  end.

Definition h_init : hstate := {| h_tr := empty_tree 1; h_ctr := 2; h_ret := []; h_skip := [] |}.

Record HInv (st : hstate) : Prop := {
  hi_wf : WF_store (h_ctr st) (h_tr st);
  hi_pos : 1 <= h_ctr st;
  hi_perm : Permutation (store_allocs (h_tr st) ++ h_ret st ++ h_skip st) (nrange 1 (h_ctr st));
}.

Lemma HInv_allocs st : HInv st ->
  NoDup (store_allocs (h_tr st) ++ h_ret st) /\
  (forall i, In i (store_allocs (h_tr st) ++ h_ret st) -> 1 <= i < h_ctr st).
Proof.
  intros I. pose proof (hi_perm _ I) as P. rewrite app_assoc in P.
  pose proof (Permutation_NoDup (Permutation_sym P) (nrange_NoDup _ _)) as ND.
  apply NoDup_app in ND. split; [apply ND|].
  intros i Hi. apply nrange_in, (Permutation_in _ P), in_or_app. left. exact Hi.
Qed.

Lemma hstep_led st o st' : HInv st -> hop_bytes o -> hstep st o = Some st' ->
  WF_store (h_ctr st') (h_tr st') /\
  exists rel, h_ret st' = h_ret st ++ rel /\
    led (h_ctr st) (store_allocs (h_tr st)) (h_ctr st') (store_allocs (h_tr st')) rel /\
    h_skip st' = h_skip st ++ unused (h_ctr st) (h_ctr st') (store_allocs (h_tr st') ++ rel).
Proof.
  intros I Hb E. pose proof (hi_wf _ I) as W.
  destruct o as [k bs al u il|k]; cbn [hstep hop_bytes] in *.
  - set (c := h_ctr st) in *. assert (c <= c + 1) as Hc1 by lia. apply (WF_store_mono _ (c + 1)) in W; [|exact Hc1].
    destruct (put_refines (c + 1) (h_tr st) k (mk_value c bs al il) u W Hb) as (tr' & po & c' & Eput & W' & _).
    rewrite Eput in E. injection E as <-. cbn [h_tr h_ctr h_ret h_skip].
    split; [exact W'|]. exists (po_retired po). split; [reflexivity|]. split; [|reflexivity].
    exact (put_op_led c (c + 1) _ k _ u tr' po c' W Hb Hc1 (mk_value_id c bs al il) Eput).
  - destruct (remove_refines (h_ctr st) (h_tr st) k W Hb) as (tr' & ro & Erem & W' & _).
    rewrite Erem in E. injection E as <-. cbn [h_tr h_ctr h_ret h_skip].
    split; [exact W'|]. exists (ro_retired ro). split; [reflexivity|]. split.
    + exact (remove_accounting _ _ k tr' ro W Hb Erem).
    + unfold unused, nrange. rewrite N.sub_diag. symmetry. apply app_nil_r.
Qed.

Lemma hstep_inv st o st' : HInv st -> hop_bytes o -> hstep st o = Some st' -> HInv st'.
Proof.
  intros I Hb E. destruct (hstep_led st o st' I Hb E) as (W' & rel & Er & L & Es).
  pose proof (hi_pos _ I) as Hpos. pose proof (hi_perm _ I) as P. pose proof (led_le _ _ _ _ _ L) as Hc.
  assert (forall i, In i (store_allocs (h_tr st)) -> i < h_ctr st) as BD
    by (intros i Hi; apply (proj2 (HInv_allocs st I)), in_or_app; left; exact Hi).
  pose proof (led_unused _ _ _ _ _ L BD) as P1.
  constructor; [exact W'|lia|]. rewrite Er, Es, (nrange_app 1 (h_ctr st) (h_ctr st')) by lia.
  clear - P P1. perm_count.
Qed.

Lemma HInv_init : HInv h_init.
Proof.
  constructor; cbn [h_init h_tr h_ctr h_ret h_skip].
  - apply empty_tree_wf. lia.
  - lia.
  - vm_compute. apply Permutation_refl.
Qed.

Lemma run_ops_inv : forall ops st st', HInv st -> Forall hop_bytes ops -> run_ops ops st = Some st' -> HInv st'.
Proof.
  intros ops st st' I Hb. rewrite Forall_forall in Hb.
  apply (run_inv_ev hstep (fun s o => run_ops o s)) with (Q := hop_bytes) (s := st); try assumption.
  - intros s evs. destruct evs; reflexivity.
  - intros s e s1 Q P. apply hstep_inv; assumption.
Qed.

(** *** histories: with [R] = all ids retired along the way, [R] has no duplicates
    (nothing is retired twice), is disjoint from what is still reachable, and every id
    taken from the counter is exactly one of: reachable, retired, or skipped (a counter
    value that never became an object: the value of a failed unique insert / an inline
    value, and the sibling id the model reserves at a border that did not split). *)
Theorem history_accounting ops st :
  Forall hop_bytes ops -> run_ops ops h_init = Some st ->
  WF_store (h_ctr st) (h_tr st) /\
  NoDup (store_allocs (h_tr st) ++ h_ret st) /\
  (forall i, In i (store_allocs (h_tr st) ++ h_ret st) -> 1 <= i < h_ctr st) /\
  Permutation (store_allocs (h_tr st) ++ h_ret st ++ h_skip st) (nrange 1 (h_ctr st)).
Proof.
  intros Hb E. pose proof (run_ops_inv ops h_init st HInv_init Hb E) as I.
  destruct (HInv_allocs st I) as (ND & BD).
  split; [exact (hi_wf _ I)|]. split; [exact ND|]. split; [exact BD|exact (hi_perm _ I)].
Qed.

Lemma hstep_mono st o st' : HInv st -> hop_bytes o -> hstep st o = Some st' ->
  incl (store_allocs (h_tr st) ++ h_ret st) (store_allocs (h_tr st') ++ h_ret st').
Proof.
  intros I Hb E. destruct (hstep_led st o st' I Hb E) as (_ & rel & -> & L & _).
  intros x Hx. rewrite app_assoc. rewrite !in_app_iff in *.
  destruct Hx as [Hx|Hx]; [apply (led_incl _ _ _ _ _ L), in_app_or in Hx|]; tauto.
Qed.

Theorem history_nothing_lost : forall ops2 ops1 st1 st,
  Forall hop_bytes ops1 -> Forall hop_bytes ops2 ->
  run_ops ops1 h_init = Some st1 -> run_ops ops2 st1 = Some st ->
  incl (store_allocs (h_tr st1) ++ h_ret st1) (store_allocs (h_tr st) ++ h_ret st).
Proof.
  intros ops2 ops1 st1 st Hb1 Hb2 E1.
  pose proof (run_ops_inv ops1 h_init st1 HInv_init Hb1 E1) as I1. clear E1 Hb1.
  revert st1 I1 Hb2. induction ops2 as [|o ops IH]; intros st1 I1 Hb2 E; cbn [run_ops] in E.
  - injection E as <-. apply incl_refl.
  - apply Forall_cons_iff in Hb2. destruct Hb2 as [Hb Hb2].
    destruct (hstep st1 o) as [st2|] eqn:E2; [|discriminate].
    eapply incl_tran; [exact (hstep_mono st1 o st2 I1 Hb E2)|].
    exact (IH st2 (hstep_inv st1 o st2 I1 Hb E2) Hb2 E).
Qed.

(** *** the fate of the id [c] that [exec] / [hstep] take for the value before they call [put]:
    reachable afterwards when an out-of-line value was stored; in neither list when the value
    is inline or the unique insert failed.  No release is modelled for that case, and none
    is due: [c] is then a counter value that never became an object ([h_skip]) -- the code
    creates the value object only where it stores it (interface_put.h, [create_value] after
    the unique check). *)
Theorem put_value_fate c tr k bs al u il tr' po c' :
  WF_store c tr -> alloc_ok c tr -> bytes k ->
  put tr k (mk_value c bs al il) u (c + 1) = Some (tr', po, c') ->
  (il = false /\ po_status po = St_OK -> In c (store_allocs tr')) /\
  (il = true \/ po_status po <> St_OK -> ~ In c (store_allocs tr' ++ po_retired po)) /\
  (po_status po <> St_OK -> tr' = tr /\ po_retired po = [] /\ c' = c + 1).
Proof.
  intros W [_ BD] Hb E. set (v := mk_value c bs al il) in *.
  apply (WF_store_mono _ (c + 1)) in W; [|lia].
  pose proof (put_led (c + 1) tr k v u tr' po c' W Hb E) as HS.
  pose proof (put_retired_reachable (c + 1) tr k v u tr' po c' W Hb E) as HR.
  assert (~ In c (store_allocs tr)) as Hc by (intros H; apply BD in H; lia).
  split; [|split].
  - intros [-> Est]. destruct HS as [[Est' _]|[_ L]]; [congruence|].
    assert (In c (store_allocs tr' ++ po_retired po)) as H by (apply (led_incl _ _ _ _ _ L); left; reflexivity).
    apply in_app_or in H. destruct H as [H|H]; [exact H|]. destruct (Hc (HR c H)).
  - intros Hor. destruct HS as [(_ & -> & -> & _)|[Est L]]; intros H.
    + rewrite app_nil_r in H. exact (Hc H).
    + destruct Hor as [->|Hne]; [|contradiction]. destruct (led_in _ _ _ _ _ c L H) as [X|X]; [exact (Hc X)|lia].
  - intros Hne. destruct HS as [(_ & H)|[Est _]]; [exact H|contradiction].
Qed.

(** ** a concrete history: a border split, a new next layer (two, in fact), an
    overwrite, a failed unique insert, an inline value, and removes that empty layers,
    a border and an interior node *)
Module AccountingExample.
  Definition k1 (i : N) : key := [i].
  Definition k17 : key := [1;2;3;4;5;6;7;8;1;2;3;4;5;6;7;8;9].
  Definition ops1 : list hop :=
    (* 16 entries: the root border (id 1) splits (sibling 33), new interior root (34) *)
    map (fun i => HPut (k1 (N.of_nat i)) [N.of_nat i] 8 false false) (seq 1 16) ++
    [ HPut k17 [17] 8 false false;           (* long key: value 35, two new next layers 37, 38 *)
      HPut (k1 3) [33] 8 false false;        (* overwrite: new value 39, the old one (6) goes to the gc *)
      HPut (k1 3) [34] 8 true false;         (* unique insert fails: value id 40 skipped *)
      HPut (k1 20) [1;2;3] 8 false true ].   (* inline value: no object (41, 42 skipped) *)
  Definition ops2 : list hop :=
    [ HRemove k17;                           (* empties both next layers (cascade): 35, 38, 37 *)
      HRemove (k1 20);                       (* inline: nothing to retire *)
      HRemove (k1 1) ] ++                    (* value 2 *)
    (* empty the right border: it is retired (33), and so is the collapsed interior root (34) *)
    map (fun i => HRemove (k1 (N.of_nat i))) (seq 9 8).

  Definition run (ops : list hop) : hstate := match run_ops ops h_init with Some st => st | None => h_init end.
  Definition view (st : hstate) :=
    (h_ctr st, length (t_layers (h_tr st)), store_allocs (h_tr st), h_ret st, h_skip st).

  Lemma bytes_check (ops : list hop) :
    forallb (fun o => match o with HPut k _ _ _ _ | HRemove k => bytesb k end) ops = true -> Forall hop_bytes ops.
  Proof.
    rewrite forallb_forall. intros H. apply Forall_forall. intros o Ho. specialize (H o Ho).
    destruct o; exact (bytesb_sound _ H).
  Qed.

  Example ex_ops_bytes : Forall hop_bytes (ops1 ++ ops2).
  Proof. apply bytes_check. vm_compute. reflexivity. Qed.

  Example ex_mid : view (run ops1) =
    (43, 3%nat,
     [34; 1; 33; 2; 4; 39; 8; 10; 12; 14; 16; 18; 20; 22; 24; 26; 28; 30; 32; 37; 38; 35],
     [6],
     [3; 5; 7; 9; 11; 13; 15; 17; 19; 21; 23; 25; 27; 29; 31; 36; 40; 41; 42]).
  Proof. vm_compute. reflexivity. Qed.

  Example ex_final : view (run (ops1 ++ ops2)) =
    (43, 1%nat,
     [1; 4; 39; 8; 10; 12; 14; 16],
     [6; 35; 38; 37; 2; 18; 20; 22; 24; 26; 28; 30; 32; 33; 34],
     [3; 5; 7; 9; 11; 13; 15; 17; 19; 21; 23; 25; 27; 29; 31; 36; 40; 41; 42]).
  Proof. vm_compute. reflexivity. Qed.

  Example ex_history : NoDup (store_allocs (h_tr (run (ops1 ++ ops2))) ++ h_ret (run (ops1 ++ ops2))).
  Proof.
    assert (run_ops (ops1 ++ ops2) h_init = Some (run (ops1 ++ ops2))) as E by (vm_compute; reflexivity).
    exact (proj1 (proj2 (history_accounting _ _ ex_ops_bytes E))).
  Qed.
End AccountingExample.

(** ** The system: several storages, one counter *)

Definition trees_allocs (ts : list (N * tree)) : list N := flat_map (fun x => store_allocs (snd x)) ts.

(** the outer tree is the storage table: its values are the tree_instance objects *)
Definition sys_allocs (s : sys) : list N := store_allocs (sy_outer s) ++ trees_allocs (sy_trees s).

Definition sys_released (s : sys) (o : op) : list N :=
  match o with
  | OPut _ _ _ _ _ _ => match snd (exec s o) with RPut po => po_retired po | _ => [] end
  | ORemove _ _ => match snd (exec s o) with RRemove ro => ro_retired ro | _ => [] end
  | ODropStorage name =>
    match find_storage s name with
    | Some (Some sid) =>
      match remove (sy_outer s) name with
      | Some (_, ro) =>
        ro_retired ro ++
        match ro_status ro, trees_get (sy_trees s) sid with
        | St_OK, Some t => store_allocs t
        | _, _ => []
        end
      | None => []
      end
    | _ => []
    end
  | ODestroy => if t_null (sy_outer s) then [] else sys_allocs s
  | _ => []
  end.

Record SAcc (s : sys) : Prop := {
  sa_inv : exists p, SysInv s p;
  sa_nodup : NoDup (sys_allocs s);
  sa_bound : forall i, In i (sys_allocs s) -> i < sy_ctr s;
  sa_sids : forall sid t, In (sid, t) (sy_trees s) -> sid < sy_ctr s;
  sa_null : t_null (sy_outer s) = true -> sy_trees s = [];
}.

Lemma trees_allocs_set ts i t' :
  Permutation (trees_allocs (trees_set ts i t')) (store_allocs t' ++ trees_allocs (trees_del ts i)).
Proof.
  destruct (trees_split ts i) as (T1 & T2 & -> & Es & _). rewrite Es.
  exact (flat_map_mid_perm _ T1 (i, t') T2).
Qed.

Lemma trees_allocs_get ts i t : trees_get ts i = Some t ->
  Permutation (trees_allocs ts) (store_allocs t ++ trees_allocs (trees_del ts i)).
Proof.
  intros Eg. destruct (trees_split ts i) as (T1 & T2 & Ed & _ & E). rewrite Eg in E. rewrite Ed, E.
  exact (flat_map_mid_perm _ T1 (i, t) T2).
Qed.

Lemma sids_set ts c c' i t :
  (forall sd u, In (sd, u) ts -> sd < c) -> c <= c' -> i < c' -> forall sd u, In (sd, u) (trees_set ts i t) -> sd < c'.
Proof.
  intros H Hc Hi sd u Hin. apply trees_set_in in Hin. destruct Hin as [Hin|Hin]; [injection Hin as <- _; exact Hi|].
  pose proof (H sd u Hin). lia.
Qed.

(** [SAcc] afterwards together with the ledger of the step, written out, and what [led_ok] draws from it *)
Definition exec_post (s : sys) (o : op) : Prop :=
  let s' := fst (exec s o) in
  SAcc s' /\
  exists fresh,
    Permutation (sys_allocs s' ++ sys_released s o) (fresh ++ sys_allocs s) /\
    NoDup fresh /\ (forall i, In i fresh -> sy_ctr s <= i < sy_ctr s') /\ sy_ctr s <= sy_ctr s' /\
    NoDup (sys_allocs s' ++ sys_released s o) /\
    (forall i, In i (sys_allocs s' ++ sys_released s o) -> i < sy_ctr s').

Lemma exec_post_intro s o s' rel :
  SAcc s -> op_bytes o -> fst (exec s o) = s' -> sys_released s o = rel ->
  led (sy_ctr s) (sys_allocs s) (sy_ctr s') (sys_allocs s') rel ->
  (forall sid t, In (sid, t) (sy_trees s') -> sid < sy_ctr s') ->
  (t_null (sy_outer s') = true -> sy_trees s' = []) ->
  exec_post s o.
Proof.
  intros A Ho E1 E2 L Hs Hn. destruct (sa_inv _ A) as (p & I). pose proof (exec_inv s p o I Ho) as I'.
  unfold exec_post. rewrite E1 in I' |- *. rewrite E2.
  destruct (led_ok _ _ _ _ _ L (sa_nodup _ A) (sa_bound _ A)) as [ND BD].
  split.
  - constructor; [exact I'| |intros i Hi; apply BD; apply in_or_app; left; exact Hi|exact Hs|exact Hn].
    apply NoDup_app in ND. apply ND.
  - destruct L as (Hc & fresh & P & NF & RF). exists fresh.
    split; [exact P|]. split; [exact NF|]. split; [exact RF|]. split; [exact Hc|]. split; [exact ND|exact BD].
Qed.

Lemma exec_post_led s o : exec_post s o ->
  led (sy_ctr s) (sys_allocs s) (sy_ctr (fst (exec s o))) (sys_allocs (fst (exec s o))) (sys_released s o).
Proof.
  intros (_ & fresh & P & NF & RF & Hc & _). split; [exact Hc|]. exists fresh. split; [exact P|]. split; [exact NF|exact RF].
Qed.

Lemma exec_post_same s o : SAcc s -> op_bytes o -> fst (exec s o) = s -> sys_released s o = [] -> exec_post s o.
Proof.
  intros A Ho E R. apply (exec_post_intro s o s [] A Ho E R); [|exact (sa_sids _ A)|exact (sa_null _ A)].
  apply led_perm; [lia|]. rewrite app_nil_r. apply Permutation_refl.
Qed.

Lemma put_unique_retired ctr tr k v tr' po ctr' :
  WF_store ctr tr -> bytes k -> put tr k v true ctr = Some (tr', po, ctr') -> po_retired po = [].
Proof.
  intros W Hb E.
  destruct (put_cases _ _ _ _ _ _ _ _ W Hb E) as [_|? ? ? ? ? ? ? ? _ _ _|? ? ? ? ? ? ? ? X _ _|? ? ? ? ? ? ? ? _ _ _ _];
    [reflexivity|reflexivity|discriminate X|reflexivity].
Qed.

Lemma store_allocs_empty id : store_allocs (empty_tree id) = [id].
Proof.
  unfold store_allocs, empty_tree. cbn [t_null t_layers]. unfold layers_allocs. cbn [flat_map snd].
  unfold layer_allocs. rewrite (proj2 (empty_leaf_WF_layer id (v_fresh_border true))). reflexivity.
Qed.

(** [rel] reads what was handed to the gc off the output *)
Lemma acc_tree_op s o n f (rel : out -> list N) :
  SAcc s -> bytes n -> op_bytes o -> exec s o = with_tree s n f ->
  sys_released s o = rel (snd (exec s o)) -> (forall st, rel (RStatus st) = []) ->
  (forall sid tr, trees_get (sy_trees s) sid = Some tr -> WF_store (sy_ctr s) tr ->
     exists tr' c' x,
       f sid tr = ({| sy_ctr := c'; sy_outer := sy_outer s; sy_trees := trees_set (sy_trees s) sid tr' |}, x) /\
       led (sy_ctr s) (store_allocs tr) c' (store_allocs tr') (rel x)) ->
  exec_post s o.
Proof.
  intros A Hb Ho Ex Er R0 H. destruct (sa_inv _ A) as (p & I).
  rewrite Ex in Er. unfold with_tree in Ex, Er.
  pose proof (find_storage_spec s p n I Hb) as F.
  destruct (ssys_get (sp_map p) n) as [m|].
  - destruct F as (sid & tr & F & St & Hs & G & W & _). rewrite F, G in Ex, Er.
    destruct (H sid tr G W) as (tr' & c' & x & Ef & L). pose proof (led_le _ _ _ _ _ L) as Hc.
    rewrite Ef in Ex, Er. cbn [snd] in Er.
    apply (exec_post_intro s o _ (rel x) A Ho (f_equal fst Ex) Er); cbn [fst sy_ctr sy_outer sy_trees].
    + pose proof (trees_allocs_set (sy_trees s) sid tr') as P1.
      pose proof (trees_allocs_get (sy_trees s) sid tr G) as P2.
      apply (led_frame (store_allocs (sy_outer s) ++ trees_allocs (trees_del (sy_trees s) sid)) _ _ _ _ _ _ _ L);
        unfold sys_allocs; cbn [sy_outer sy_trees]; clear - P1 P2; perm_count.
    + apply (sids_set _ _ _ _ _ (sa_sids _ A) Hc). lia.
    + intros Hn'. rewrite (get_some_not_null _ _ _ St) in Hn'. discriminate.
  - rewrite F in Ex, Er. apply exec_post_same; [exact A|exact Ho|rewrite Ex; reflexivity|rewrite Er; apply R0].
Qed.

Lemma acc_put s n k bs al u il : SAcc s -> bytes n -> bytes k -> exec_post s (OPut n k bs al u il).
Proof.
  intros A Hb Hk.
  apply (acc_tree_op s (OPut n k bs al u il) n _ (fun x => match x with RPut po => po_retired po | _ => [] end)
           A Hb (conj Hb Hk) (exec_put_eq s n k bs al u il)); [reflexivity|reflexivity|].
  intros sid tr G W. assert (sy_ctr s <= sy_ctr s + 1) as Hc1 by lia. apply (WF_store_mono _ (sy_ctr s + 1)) in W; [|exact Hc1].
  destruct (put_refines (sy_ctr s + 1) tr k (mk_value (sy_ctr s) bs al il) u W Hk) as (tr' & po & c' & Eput & _).
  exists tr', c', (RPut po). rewrite Eput. split; [reflexivity|].
  exact (put_op_led _ _ tr k _ u tr' po c' W Hk Hc1 (mk_value_id _ bs al il) Eput).
Qed.

Lemma acc_remove s n k : SAcc s -> bytes n -> bytes k -> exec_post s (ORemove n k).
Proof.
  intros A Hb Hk.
  apply (acc_tree_op s (ORemove n k) n _ (fun x => match x with RRemove ro => ro_retired ro | _ => [] end)
           A Hb (conj Hb Hk) (exec_remove_eq s n k)); [reflexivity|reflexivity|].
  intros sid tr G W.
  destruct (remove_refines (sy_ctr s) tr k W Hk) as (tr' & ro & Erem & _).
  exists tr', (sy_ctr s), (RRemove ro). rewrite Erem. split; [reflexivity|].
  exact (remove_accounting _ tr k tr' ro W Hk Erem).
Qed.

(** create_storage: new border (counter), tree_instance value (counter + 1), then a unique
    put into the outer tree.  When the name exists, nothing becomes reachable: both ids
    are skipped (the C++ code releases the border and the tree_instance it prepared). *)
Lemma acc_create s n : SAcc s -> bytes n -> exec_post s (OCreate n).
Proof.
  intros A Hb. destruct (sa_inv _ A) as (p & I).
  set (c := sy_ctr s) in *. set (v := storage_value (c + 1) c).
  assert (c <= c + 2) as Hc2 by lia. pose proof (WF_store_mono _ _ _ (si_outer _ _ I) Hc2) as W2.
  destruct (put_refines _ _ n v true W2 Hb) as (outer' & po & c' & Eput & _).
  pose proof (put_led (c + 2) _ n v true outer' po c' W2 Hb Eput) as HS.
  rewrite (put_unique_retired _ _ _ _ _ _ _ W2 Hb Eput) in HS.
  destruct HS as [(Est & -> & _ & ->)|[Est L]].
  - apply (exec_post_intro s (OCreate n) {| sy_ctr := c + 2; sy_outer := sy_outer s; sy_trees := sy_trees s |} [] A Hb);
      cbn [sy_ctr sy_outer sy_trees]; fold c.
    + rewrite (exec_create_eq s n _ _ _ Eput), Est. reflexivity.
    + reflexivity.
    + apply led_perm; [exact Hc2|]. rewrite app_nil_r. apply Permutation_refl.
    + intros sd t Hin. pose proof (sa_sids _ A sd t Hin). fold c in H. lia.
    + exact (sa_null _ A).
  - apply (exec_post_intro s (OCreate n)
             {| sy_ctr := c'; sy_outer := outer'; sy_trees := trees_set (sy_trees s) c (empty_tree c) |} [] A Hb);
      cbn [sy_ctr sy_outer sy_trees]; fold c.
    + rewrite (exec_create_eq s n _ _ _ Eput), Est. reflexivity.
    + reflexivity.
    + (* the two ids are taken, then the put runs *)
      apply (led_trans _ _ _ _ [] _ _ [] (led_take c 2 (sys_allocs s))).
      pose proof (trees_allocs_set (sy_trees s) c (empty_tree c)) as P1.
      rewrite (trees_del_fresh (sy_trees s) c (sa_sids _ A)), store_allocs_empty in P1.
      apply (led_frame ([c] ++ trees_allocs (sy_trees s)) _ _ _ _ _ _ _ L);
        unfold sys_allocs; cbn [sy_outer sy_trees]; change (nseq c 2) with ([c] ++ [c + 1]);
        change (vid v) with [c + 1]; clear - P1; perm_count.
    + pose proof (led_le _ _ _ _ _ L). apply (sids_set _ c _ _ _ (sa_sids _ A)); lia.
    + intros Hn. rewrite (put_not_null _ _ _ _ _ _ _ _ Eput) in Hn. discriminate.
Qed.

Lemma drop_found s n sid tr :
  SAcc s -> bytes n -> find_storage s n = Some (Some sid) -> trees_get (sy_trees s) sid = Some tr ->
  exists outer' ro,
    fst (exec s (ODropStorage n)) =
      {| sy_ctr := sy_ctr s; sy_outer := outer'; sy_trees := trees_del (sy_trees s) sid |} /\
    sys_released s (ODropStorage n) = ro_retired ro ++ store_allocs tr /\
    t_null outer' = false /\
    Permutation ((store_allocs outer' ++ trees_allocs (trees_del (sy_trees s) sid)) ++ ro_retired ro ++ store_allocs tr)
      (sys_allocs s).
Proof.
  intros A Hb F G. destruct (sa_inv _ A) as (p & I).
  pose proof (find_storage_spec s p n I Hb) as F'.
  destruct (ssys_get (sp_map p) n) as [m|]; [|congruence].
  destruct F' as (sid' & tr2 & _ & St & _). unfold stor in St.
  destruct (remove_refines _ _ n (si_outer _ _ I) Hb) as (outer' & ro & Erem & _ & R).
  rewrite (get_some_not_null _ _ _ St), St in R. destruct R as [R1 _].
  exists outer', ro. split; [rewrite (exec_drop_eq s n sid outer' ro F Erem), R1; reflexivity|].
  split; [unfold sys_released; rewrite F, Erem, R1, G; reflexivity|].
  split; [rewrite (remove_null _ _ _ _ Erem); exact (get_some_not_null _ _ _ St)|].
  pose proof (led_same _ _ _ _ (remove_accounting _ _ n outer' ro (si_outer _ _ I) Hb Erem)) as PR.
  pose proof (trees_allocs_get (sy_trees s) sid tr G) as P2. unfold sys_allocs. clear - PR P2. perm_count.
Qed.

Lemma acc_drop s n : SAcc s -> bytes n -> exec_post s (ODropStorage n).
Proof.
  intros A Hb. destruct (sa_inv _ A) as (p & I).
  pose proof (find_storage_spec s p n I Hb) as F.
  destruct (ssys_get (sp_map p) n) as [m|].
  - destruct F as (sid & tr & F & _ & _ & G & _).
    destruct (drop_found s n sid tr A Hb F G) as (outer' & ro & E1 & E2 & Hn & P).
    apply (exec_post_intro s (ODropStorage n) _ _ A Hb E1 E2); cbn [sy_ctr sy_outer sy_trees].
    + apply led_perm; [lia|exact P].
    + intros sd t Hin. apply trees_del_in in Hin. exact (sa_sids _ A sd t Hin).
    + intros Hn'. rewrite Hn in Hn'. discriminate.
  - apply exec_post_same; [exact A|exact Hb| |].
    + rewrite (exec_drop_none s n F). reflexivity.
    + unfold sys_released. rewrite F. reflexivity.
Qed.

Lemma acc_destroy s : SAcc s -> exec_post s ODestroy.
Proof.
  intros A. destruct (t_null (sy_outer s)) eqn:En.
  - apply exec_post_same; [exact A|exact I| |].
    + rewrite exec_destroy_eq, En. reflexivity.
    + unfold sys_released. rewrite En. reflexivity.
  - apply (exec_post_intro s ODestroy {| sy_ctr := sy_ctr s; sy_outer := null_tree; sy_trees := [] |} (sys_allocs s) A I);
      cbn [sy_ctr sy_outer sy_trees].
    + rewrite exec_destroy_eq, En. reflexivity.
    + unfold sys_released. rewrite En. reflexivity.
    + apply led_perm; [lia|apply Permutation_refl].
    + intros sd t [].
    + reflexivity.
Qed.

(** *** the accounting identity for every operation of the system *)
Theorem exec_accounting s o : SAcc s -> op_bytes o -> exec_post s o.
Proof.
  intros A Hb.
  destruct o; cbn [op_bytes] in Hb;
    try (apply exec_post_same; [exact A|exact Hb|apply exec_readonly; exact I|reflexivity]).
  - apply acc_create; assumption.
  - apply acc_drop; assumption.
  - destruct Hb. apply acc_put; assumption.
  - destruct Hb. apply acc_remove; assumption.
  - apply acc_destroy; assumption.
Qed.

Corollary drop_storage_releases_tree s n sid tr :
  SAcc s -> bytes n -> find_storage s n = Some (Some sid) -> trees_get (sy_trees s) sid = Some tr ->
  let s' := fst (exec s (ODropStorage n)) in
  exists gc, sys_released s (ODropStorage n) = gc ++ store_allocs tr /\
    Permutation (sys_allocs s) (sys_allocs s' ++ gc ++ store_allocs tr) /\
    NoDup (sys_allocs s' ++ gc ++ store_allocs tr) /\
    sy_trees s' = trees_del (sy_trees s) sid.
Proof.
  intros A Hb F G. destruct (drop_found s n sid tr A Hb F G) as (outer' & ro & E1 & E2 & _ & P).
  cbv zeta. rewrite E1. exists (ro_retired ro). split; [exact E2|]. split; [exact (Permutation_sym P)|].
  split; [exact (Permutation_NoDup (Permutation_sym P) (sa_nodup _ A))|reflexivity].
Qed.

Corollary destroy_releases_all s : SAcc s ->
  sys_allocs (fst (exec s ODestroy)) = [] /\ sys_released s ODestroy = sys_allocs s.
Proof.
  intros A. rewrite exec_destroy_eq. unfold sys_released. destruct (t_null (sy_outer s)) eqn:En; cbn [fst].
  - unfold sys_allocs. rewrite (store_allocs_null _ En), (sa_null _ A En). split; reflexivity.
  - split; reflexivity.
Qed.

(** *** operation sequences of the system *)
Fixpoint released_all (s : sys) (ops : list op) : list N :=
  match ops with
  | [] => []
  | o :: r => sys_released s o ++ released_all (fst (exec s o)) r
  end.

Lemma exec_all_fst s o r : fst (exec_all s (o :: r)) = fst (exec_all (fst (exec s o)) r).
Proof.
  cbn [exec_all]. destruct (exec s o) as [s1 x]. cbn [fst]. destruct (exec_all s1 r) as [s2 xs]. reflexivity.
Qed.

Lemma exec_all_accounting : forall ops s, SAcc s -> Forall op_bytes ops ->
  let s' := fst (exec_all s ops) in
  SAcc s' /\ led (sy_ctr s) (sys_allocs s) (sy_ctr s') (sys_allocs s') (released_all s ops).
Proof.
  induction ops as [|o ops IH]; intros s A Hb.
  - cbn [exec_all fst released_all]. split; [exact A|]. apply led_perm; [lia|]. rewrite app_nil_r. apply Permutation_refl.
  - apply Forall_cons_iff in Hb. destruct Hb as [Hb1 Hb].
    pose proof (exec_accounting s o A Hb1) as H1.
    destruct (IH (fst (exec s o)) (proj1 H1) Hb) as (A2 & L2).
    cbv zeta. rewrite exec_all_fst. split; [exact A2|]. exact (led_trans _ _ _ _ _ _ _ _ (exec_post_led s o H1) L2).
Qed.

Lemma SAcc_init : SAcc sys_init.
Proof.
  constructor; cbn.
  - exists spec_init. exact SysInv_init.
  - constructor.
  - intros i [].
  - intros sid t [].
  - reflexivity.
Qed.

(** from init: what is reachable together with everything released so far is, without
    duplicates, a set of ids taken from the counter -- nothing is released twice, nothing
    released is still reachable; after a final destroy nothing is reachable, so everything
    that ever became an object has been released exactly once (zero balance) *)
Theorem sys_history_accounting ops : Forall op_bytes ops ->
  let s' := fst (exec_all sys_init ops) in
  SAcc s' /\ NoDup (sys_allocs s' ++ released_all sys_init ops) /\
  (forall i, In i (sys_allocs s' ++ released_all sys_init ops) -> 1 <= i < sy_ctr s').
Proof.
  intros Hb. destruct (exec_all_accounting ops sys_init SAcc_init Hb) as (A & L).
  cbv zeta. split; [exact A|]. split.
  - apply (led_ok _ _ _ _ _ L); [constructor|intros i []].
  - intros i Hi. destruct (led_in _ _ _ _ _ i L Hi) as [[]|H]. exact H.
Qed.

Corollary sys_destroy_zero_balance ops : Forall op_bytes ops ->
  sys_allocs (fst (exec_all sys_init (ops ++ [ODestroy]))) = [].
Proof.
  intros Hb.
  assert (forall l s, fst (exec_all s (l ++ [ODestroy])) = fst (exec (fst (exec_all s l)) ODestroy)) as X.
  { induction l as [|o l IH]; intros s.
    - cbn [app exec_all fst]. destruct (exec s ODestroy). reflexivity.
    - change ((o :: l) ++ [ODestroy]) with (o :: (l ++ [ODestroy])). rewrite !exec_all_fst. apply IH. }
  rewrite X. apply destroy_releases_all.
  exact (proj1 (exec_all_accounting ops sys_init SAcc_init Hb)).
Qed.

Module SysAccountingExample.
  Definition sops : list op :=
    [ OCreate [65];                          (* border 1, tree_instance 2, outer root border 3 *)
      OCreate [66];
      OCreate [65];                          (* duplicate: ids skipped, nothing reachable *)
      OPut [65] [1] [10] 8 false false;
      OPut [65] [1;2;3;4;5;6;7;8;9] [11] 8 false false;   (* a next layer in storage A *)
      OPut [66] [1] [20] 8 false false;
      OPut [65] [1] [12] 8 false false;
      ODropStorage [65] ].                   (* releases the whole tree of A at once *)
  Definition view (ops : list op) :=
    let s := fst (exec_all sys_init ops) in (sy_ctr s, sys_allocs s, released_all sys_init ops).

  (* counter, reachable ids, released ids in order: the overwritten value 9; then
     delete_storage: tree_instance 2 (gc), and A's tree at once: border 1, value 16,
     next-layer border 13, value 11.  Left: outer border 3, B's tree_instance 5, B's
     border 4 and value 14 *)
  Example ex_sys : view sops = (17, [3; 5; 4; 14], [9; 2; 1; 16; 13; 11]).
  Proof. vm_compute. reflexivity. Qed.

  Example ex_sys_destroy : view (sops ++ [ODestroy]) = (17, [], [9; 2; 1; 16; 13; 11; 3; 5; 4; 14]).
  Proof. vm_compute. reflexivity. Qed.

  Example ex_sys_bytes : Forall op_bytes (sops ++ [ODestroy]).
  Proof. apply ops_bytesb_sound. vm_compute. reflexivity. Qed.

  Example ex_sys_theorem :
    NoDup (sys_allocs (fst (exec_all sys_init sops)) ++ released_all sys_init sops).
  Proof.
    apply (sys_history_accounting sops).
    pose proof ex_sys_bytes as H. apply Forall_app in H. apply H.
  Qed.
End SysAccountingExample.

Print Assumptions put_retired_reachable.
Print Assumptions put_value_fate.
Print Assumptions remove_accounting.
Print Assumptions history_accounting.
Print Assumptions history_nothing_lost.
Print Assumptions exec_accounting.
Print Assumptions drop_storage_releases_tree.
Print Assumptions destroy_releases_all.
Print Assumptions sys_history_accounting.
Print Assumptions sys_destroy_zero_balance.
