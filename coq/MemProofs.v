(** * MemProofs: [mem_usage] (the accumulation as coded) equals [shape_stats]
    (the per-depth description of the shape), for every tree ([mem_usage_shape]); through
    the list of node records [shape_nodes], what the entry of a depth holds: the node count
    ([stat_at_count]), the reserved bytes ([stat_at_reserved]), used <= reserved. *)
From Coq Require Import Lia ZifyBool ZifyN.
From Yk Require Import MemDefs.
Local Open Scope N_scope.

Definition node := (nat * bool * N * N)%type.
Definition z0 : mstat := (0, 0, 0).

Definition madd (a b : mstat) : mstat :=
  let '(n1, u1, r1) := a in let '(n2, u2, r2) := b in (n1 + n2, u1 + u2, r1 + r2).

Definition ndepth (x : node) : nat := fst (fst (fst x)).
Definition nborder (x : node) : bool := snd (fst (fst x)).
Definition nocc (x : node) : N := snd (fst x).
Definition nvf (x : node) : N := snd x.

Definition contrib (x : node) : mstat :=
  if nborder x
  then (1, sizeof_border - (15 - nocc x) * sizeof_lv + nvf x, sizeof_border + nvf x)
  else (1, sizeof_interior - (16 - nocc x) * 8, sizeof_interior).

Lemma triple_eq (a a' b b' c c' : N) : a = a' -> b = b' -> c = c' -> (a, b, c) = (a', b', c').
Proof. intros; subst; reflexivity. Qed.

Lemma madd_z0_l a : madd z0 a = a.
Proof. destruct a as [[n u] r]. reflexivity. Qed.
Lemma madd_z0_r a : madd a z0 = a.
Proof. destruct a as [[n u] r]. apply triple_eq; lia. Qed.
Lemma madd_assoc a b c : madd (madd a b) c = madd a (madd b c).
Proof. destruct a as [[n1 u1] r1], b as [[n2 u2] r2], c as [[n3 u3] r3]. apply triple_eq; lia. Qed.
Lemma madd_comm a b : madd a b = madd b a.
Proof. destruct a as [[n1 u1] r1], b as [[n2 u2] r2]. apply triple_eq; lia. Qed.

(** ** [stat_at], [max_depth] over list structure *)
Lemma stat_at_nil i : stat_at [] i = z0.
Proof. reflexivity. Qed.

Lemma stat_at_cons x ns i :
  stat_at (x :: ns) i = if Nat.eqb (ndepth x) i then madd (stat_at ns i) (contrib x) else stat_at ns i.
Proof.
  destruct x as [[[dd isb] occ] vf].
  unfold stat_at at 1. cbn [fold_right]. fold (stat_at ns i).
  unfold ndepth, contrib, nborder, nocc, nvf; cbn [fst snd].
  destruct (stat_at ns i) as [[n u] r].
  destruct (Nat.eqb dd i); [|reflexivity].
  destruct isb; unfold madd; apply triple_eq; lia.
Qed.

Lemma stat_at_app a b i : stat_at (a ++ b) i = madd (stat_at a i) (stat_at b i).
Proof.
  induction a as [|x a IH]; cbn [app].
  - rewrite stat_at_nil, madd_z0_l. reflexivity.
  - rewrite !stat_at_cons, IH. destruct (Nat.eqb (ndepth x) i); [|reflexivity].
    rewrite !madd_assoc. f_equal. apply madd_comm.
Qed.

Lemma max_depth_cons x ns : max_depth (x :: ns) = Nat.max (S (ndepth x)) (max_depth ns).
Proof. reflexivity. Qed.

Lemma max_depth_app a b : max_depth (a ++ b) = Nat.max (max_depth a) (max_depth b).
Proof.
  induction a as [|x a IH]; cbn [app].
  - reflexivity.
  - rewrite !max_depth_cons, IH. lia.
Qed.

Lemma stat_at_beyond ns i : (max_depth ns <= i)%nat -> stat_at ns i = z0.
Proof.
  induction ns as [|x ns IH]; intros H.
  - reflexivity.
  - rewrite max_depth_cons in H. rewrite stat_at_cons.
    destruct (Nat.eqb_spec (ndepth x) i); [lia|]. apply IH. lia.
Qed.

(** ** [bump] *)
Lemma bump_length st : forall level a b c,
  (level <= length st)%nat -> length (bump st level a b c) = Nat.max (length st) (S level).
Proof.
  induction st as [|[[n u] r] st IH]; intros level a b c H; cbn [length] in *.
  - assert (level = 0%nat) by lia. subst. reflexivity.
  - destruct level as [|level]; cbn [bump length].
    + lia.
    + rewrite IH by lia. lia.
Qed.

Lemma nth_nil_z0 i : nth i (@nil mstat) z0 = z0.
Proof. destruct i; reflexivity. Qed.

Lemma bump_nth st : forall level i a b c,
  (level <= length st)%nat ->
  nth i (bump st level a b c) z0 = madd (nth i st z0) (if Nat.eqb i level then (a, b, c) else z0).
Proof.
  induction st as [|[[n u] r] st IH]; intros level i a b c H; cbn [length] in *.
  - assert (level = 0%nat) by lia. subst. cbn [bump].
    destruct i as [|i]; cbn [nth Nat.eqb].
    + rewrite madd_z0_l. reflexivity.
    + destruct i; reflexivity.
  - destruct level as [|level], i as [|i]; cbn [bump nth Nat.eqb].
    + reflexivity.
    + rewrite madd_z0_r. reflexivity.
    + rewrite madd_z0_r. reflexivity.
    + apply IH. lia.
Qed.

(** ** the accumulation relation: [res] is [st] plus the per-depth sums of [ns]; it is as long as the longer of
    [st] and the depths of [ns], since [bump] at a level within [st] or just behind it ([bump_length]) lengthens
    the accumulator by at most that one entry *)
Definition rel (st : list mstat) (ns : list node) (res : list mstat) : Prop :=
  length res = Nat.max (length st) (max_depth ns) /\
  forall i, nth i res z0 = madd (nth i st z0) (stat_at ns i).

Lemma rel_nil st : rel st [] st.
Proof.
  split.
  - cbn. lia.
  - intros i. rewrite stat_at_nil, madd_z0_r. reflexivity.
Qed.

Lemma rel_app st a r1 b r2 : rel st a r1 -> rel r1 b r2 -> rel st (a ++ b) r2.
Proof.
  intros [L1 N1] [L2 N2]. split.
  - rewrite L2, L1, max_depth_app. lia.
  - intros i. rewrite N2, N1, stat_at_app, madd_assoc. reflexivity.
Qed.

Lemma rel_len st ns res : rel st ns res -> (length st <= length res)%nat.
Proof. intros [L _]. lia. Qed.

Lemma rel_bump st (x : node) :
  (ndepth x <= length st)%nat ->
  rel st [x] (bump st (ndepth x) (fst (fst (contrib x))) (snd (fst (contrib x))) (snd (contrib x))).
Proof.
  intros H. split.
  - rewrite bump_length by assumption. rewrite max_depth_cons. cbn. lia.
  - intros i. rewrite bump_nth by assumption. rewrite stat_at_cons, stat_at_nil, madd_z0_l.
    rewrite Nat.eqb_sym. destruct (contrib x) as [[n u] r]. reflexivity.
Qed.

Definition vfs (es : list slot_t) : N :=
  fold_right (fun s a => match sl_lv s with LValue v => value_footprint v + a | _ => a end) 0 es.

(** ** the accumulation as coded, from any accumulator [st] at least [d] long *)
Lemma mem_node_rel ls : forall fuel t p d st,
  (d <= length st)%nat ->
  rel st (nodes_with_depth ls fuel t p d) (mem_node ls fuel t p d st).
Proof.
  induction fuel as [|f IH]; intros t p d st Hd.
  - cbn. apply rel_nil.
  - destruct t as [l | id ver keys ch]; cbn [mem_node nodes_with_depth].
    + (* border *)
      fold (vfs (map snd (leaf_ranked l))).
      match goal with
      | |- rel _ (_ :: flat_map ?g _) (fold_left ?h _ _) => set (G := g); set (H := h)
      end.
      (* The loop over the slots is not an instance of [rel]: a value adds its footprint to
         the entry of depth [d] without a node record of its own.  [HF] carries that sum as a
         separate summand; at the end it is the [nvf] field of the border's record. *)
      assert (HF : forall xs acc, (S d <= length acc)%nat ->
                length (fold_left H xs acc)
                = Nat.max (length acc) (max_depth (flat_map G (map snd xs))) /\
                forall i, nth i (fold_left H xs acc) z0
                          = madd (madd (nth i acc z0) (stat_at (flat_map G (map snd xs)) i))
                                 (if Nat.eqb i d then (0, vfs (map snd xs), vfs (map snd xs)) else z0)).
      { induction xs as [|e xs IHxs]; intros acc Hacc.
        - cbn [fold_left map flat_map vfs fold_right]. split.
          + cbn. lia.
          + intros i. rewrite stat_at_nil, madd_z0_r.
            destruct (Nat.eqb i d); rewrite !madd_z0_r; reflexivity.
        - cbn [fold_left map flat_map vfs fold_right]. fold (vfs (map snd xs)).
          unfold H at 2 4. unfold G at 1 3. cbv beta.
          destruct (sl_lv (snd e)) as [|v|] eqn:E.
          + (* empty *) cbn [app]. apply IHxs. assumption.
          + (* value *)
            cbn [app].
            assert (Hd' : (d <= length acc)%nat) by lia.
            pose proof (bump_length acc d 0 (value_footprint v) (value_footprint v) Hd') as BL.
            destruct (IHxs (bump acc d 0 (value_footprint v) (value_footprint v))) as [L N]; [lia|].
            split.
            * rewrite L, BL. lia.
            * intros i. rewrite N, bump_nth by assumption.
              destruct (Nat.eqb i d); [|rewrite !madd_z0_r; reflexivity].
              destruct (nth i acc z0) as [[n1 u1] r1], (stat_at _ i) as [[n2 u2] r2]. apply triple_eq; lia.
          + (* link *)
            destruct (layer_get ls (p ++ [ks (sl_key (snd e))])) as [root|].
            * assert (Hd' : (S d <= length acc)%nat) by lia.
              pose proof (IH root (p ++ [ks (sl_key (snd e))]) (S d) acc Hd') as [L1 N1].
              destruct (IHxs (mem_node ls f root (p ++ [ks (sl_key (snd e))]) (S d) acc)) as [L N]; [lia|].
              split.
              -- rewrite L, L1, max_depth_app. lia.
              -- intros i. rewrite N, N1, stat_at_app. rewrite !madd_assoc. reflexivity.
            * cbn [app]. apply IHxs. assumption. }
      assert (Hb : (S d <= length (bump st d 1 (sizeof_border - (15 - leaf_cnk l) * sizeof_lv) sizeof_border))%nat).
      { rewrite bump_length by assumption. lia. }
      destruct (HF (leaf_ranked l) _ Hb) as [L N]. split.
      * rewrite L, bump_length by assumption. rewrite max_depth_cons. cbn [ndepth fst]. lia.
      * intros i. rewrite N, bump_nth by assumption. rewrite stat_at_cons.
        cbn [ndepth fst]. rewrite (Nat.eqb_sym d i).
        unfold contrib, nborder, nocc, nvf; cbn [fst snd].
        destruct (Nat.eqb i d); [|rewrite !madd_z0_r; reflexivity].
        destruct (nth i st z0) as [[n1 u1] r1], (stat_at _ i) as [[n2 u2] r2]. apply triple_eq; lia.
    + (* interior *)
      set (x := (d, false, N.of_nat (length keys) + 1, 0) : node).
      change (x :: flat_map (fun c => nodes_with_depth ls f c p (S d)) ch)
        with ([x] ++ flat_map (fun c => nodes_with_depth ls f c p (S d)) ch).
      pose proof (rel_bump st x Hd) as RB.
      change (bump st (ndepth x) (fst (fst (contrib x))) (snd (fst (contrib x))) (snd (contrib x)))
        with (bump st d 1 (sizeof_interior - (16 - (N.of_nat (length keys) + 1)) * 8) sizeof_interior) in RB.
      eapply rel_app; [exact RB|].
      apply rel_len in RB. cbn [length app] in RB.
      assert (Hb : (S d <= length (bump st d 1 (sizeof_interior - (16 - (N.of_nat (length keys) + 1)) * 8) sizeof_interior))%nat).
      { rewrite bump_length by assumption. lia. }
      clear RB. revert Hb.
      generalize (bump st d 1 (sizeof_interior - (16 - (N.of_nat (length keys) + 1)) * 8) sizeof_interior).
      induction ch as [|c ch IHch]; intros acc Hacc; cbn [fold_left flat_map].
      * apply rel_nil.
      * eapply rel_app.
        -- apply IH. exact Hacc.
        -- apply IHch. pose proof (rel_len _ _ _ (IH c p (S d) acc Hacc)). lia.
Qed.

(** ** mem_usage = shape_stats, for every tree (no well-formedness needed) *)
Theorem mem_usage_shape : forall tr, mem_usage tr = shape_stats tr.
Proof.
  intros tr. unfold mem_usage, shape_stats.
  destruct (t_null tr); [reflexivity|].
  destruct (layer_get (t_layers tr) []) as [root|]; [|reflexivity].
  cbv zeta.
  set (fuel := S (layers_size (t_layers tr))).
  destruct (mem_node_rel (t_layers tr) fuel root [] 0 [] (le_n 0)) as [HL HN].
  set (ns := nodes_with_depth (t_layers tr) fuel root [] 0) in *.
  cbn [length Nat.max] in HL.
  apply nth_ext with (d := z0) (d' := z0).
  - rewrite map_length, seq_length. exact HL.
  - intros i Hi. rewrite HN, nth_nil_z0, madd_z0_l.
    rewrite (nth_indep _ z0 (stat_at ns 0%nat)) by (rewrite map_length, seq_length; lia).
    rewrite map_nth, seq_nth by lia. reflexivity.
Qed.

(** ** the node list of a tree; [shape_stats] through it *)
Definition shape_nodes (tr : tree) : list node :=
  if t_null tr then []
  else match layer_get (t_layers tr) [] with
       | Some root => nodes_with_depth (t_layers tr) (S (layers_size (t_layers tr))) root [] 0
       | None => []
       end.

Lemma shape_stats_nodes tr :
  shape_stats tr = map (stat_at (shape_nodes tr)) (seq 0 (max_depth (shape_nodes tr))).
Proof.
  unfold shape_stats, shape_nodes.
  destruct (t_null tr); [reflexivity|].
  destruct (layer_get (t_layers tr) []); reflexivity.
Qed.

Lemma shape_stats_length tr : length (shape_stats tr) = max_depth (shape_nodes tr).
Proof. rewrite shape_stats_nodes, map_length, seq_length. reflexivity. Qed.

Lemma nth_shape_stats tr d : nth d (shape_stats tr) (0, 0, 0) = stat_at (shape_nodes tr) d.
Proof.
  rewrite shape_stats_nodes. fold z0.
  destruct (Nat.lt_ge_cases d (max_depth (shape_nodes tr))) as [H|H].
  - rewrite (nth_indep _ z0 (stat_at (shape_nodes tr) 0%nat)) by (rewrite map_length, seq_length; lia).
    rewrite map_nth, seq_nth by lia. reflexivity.
  - rewrite nth_overflow by (rewrite map_length, seq_length; lia).
    symmetry. apply stat_at_beyond. exact H.
Qed.

(** ** used <= reserved *)
Fixpoint bt_bounded (t : bt) : bool :=
  match t with
  | BLeaf l => leaf_cnk l <=? 15
  | BInt _ _ keys ch => (length keys <=? 15)%nat && forallb bt_bounded ch
  end.

Definition tree_bounded (tr : tree) : Prop :=
  Forall (fun x => bt_bounded (snd x) = true) (t_layers tr).

Lemma stat_at_used_le ns d : snd (fst (stat_at ns d)) <= snd (stat_at ns d).
Proof.
  induction ns as [|x ns IH].
  - cbn. lia.
  - rewrite stat_at_cons. destruct (Nat.eqb (ndepth x) d); [|exact IH].
    unfold contrib. destruct (stat_at ns d) as [[n u] r]. cbn [fst snd] in IH.
    destruct (nborder x); cbn [madd fst snd]; lia.
Qed.

(** holds without any hypothesis in the model: the subtraction in N is truncated,
    so [size - (15 - occ) * 8 <= size] whatever [occ] is *)
Theorem used_le_reserved_all : forall tr n u r, In (n, u, r) (mem_usage tr) -> u <= r.
Proof.
  intros tr n u r H. rewrite mem_usage_shape, shape_stats_nodes in H.
  apply in_map_iff in H. destruct H as [d [E _]].
  pose proof (stat_at_used_le (shape_nodes tr) d) as L. rewrite E in L. exact L.
Qed.

(** No statement of this file needs [tree_bounded].  What it gives is [shape_nodes_in_range]:
    every node record has [occ] within the slot / child count, so none of the model's
    subtractions is truncated (the C++ computes them in machine arithmetic). *)
Definition node_in_range (x : node) : Prop :=
  if nborder x then nocc x <= 15 else nocc x <= 16.

Lemma layer_get_in_ex ls : forall p t, layer_get ls p = Some t -> exists q, In (q, t) ls.
Proof.
  induction ls as [|[q u] ls IH]; intros p t H; cbn [layer_get] in H.
  - discriminate.
  - destruct (prefix_eqb q p).
    + inversion H; subst. exists q. left. reflexivity.
    + destruct (IH _ _ H) as [q' Hq]. exists q'. right. exact Hq.
Qed.

Lemma nodes_in_range ls :
  Forall (fun x => bt_bounded (snd x) = true) ls ->
  forall fuel t p d, bt_bounded t = true -> Forall node_in_range (nodes_with_depth ls fuel t p d).
Proof.
  intros HB. induction fuel as [|f IH]; intros t p d Ht.
  - constructor.
  - destruct t as [l | id ver keys ch]; cbn [nodes_with_depth bt_bounded] in *.
    + constructor.
      * unfold node_in_range, nborder, nocc; cbn [fst snd]. lia.
      * generalize (map snd (leaf_ranked l)). intros es.
        induction es as [|s es IHes]; cbn [flat_map]; [constructor|].
        apply Forall_app. split; [|exact IHes].
        destruct (sl_lv s); try constructor.
        destruct (layer_get ls (p ++ [ks (sl_key s)])) as [root|] eqn:E; [|constructor].
        apply IH. apply layer_get_in_ex in E. destruct E as [q Hq].
        rewrite Forall_forall in HB. exact (HB _ Hq).
    + apply andb_prop in Ht. destruct Ht as [Hk Hc]. constructor.
      * unfold node_in_range, nborder, nocc; cbn [fst snd]. lia.
      * induction ch as [|c ch IHch]; cbn [flat_map forallb] in *; [constructor|].
        apply andb_prop in Hc. destruct Hc as [Hc1 Hc2].
        apply Forall_app. split; [apply IH; exact Hc1 | apply IHch; exact Hc2].
Qed.

Lemma shape_nodes_in_range tr : tree_bounded tr -> Forall node_in_range (shape_nodes tr).
Proof.
  intros HB. unfold shape_nodes.
  destruct (t_null tr); [constructor|].
  destruct (layer_get (t_layers tr) []) as [root|] eqn:E; [|constructor].
  apply nodes_in_range; [exact HB|].
  apply layer_get_in_ex in E. destruct E as [q Hq].
  unfold tree_bounded in HB. rewrite Forall_forall in HB. exact (HB _ Hq).
Qed.

(** ** node counts *)
Lemma stat_at_count ns d :
  fst (fst (stat_at ns d))
  = N.of_nat (length (filter (fun x : node => Nat.eqb (fst (fst (fst x))) d) ns)).
Proof.
  induction ns as [|x ns IH].
  - reflexivity.
  - rewrite stat_at_cons. cbn [filter]. unfold ndepth.
    destruct (Nat.eqb (fst (fst (fst x))) d); [|exact IH].
    cbn [length]. rewrite Nat2N.inj_succ, <- IH.
    destruct (stat_at ns d) as [[n u] r]. unfold contrib.
    destruct (nborder x); cbn [madd fst snd]; lia.
Qed.

(** ** reserved bytes *)
Definition vf_at (ns : list node) (d : nat) : N :=
  fold_right N.add 0
    (map (fun x : node => snd x)
         (filter (fun x : node => Nat.eqb (fst (fst (fst x))) d && snd (fst (fst x))) ns)).

Lemma stat_at_reserved ns d :
  snd (stat_at ns d)
  = 320 * N.of_nat (length (filter (fun x : node => Nat.eqb (fst (fst (fst x))) d) ns)) + vf_at ns d.
Proof.
  unfold vf_at. induction ns as [|x ns IH].
  - reflexivity.
  - rewrite stat_at_cons. cbn [filter]. unfold ndepth.
    destruct (Nat.eqb (fst (fst (fst x))) d); [|exact IH].
    cbn [length andb]. rewrite Nat2N.inj_succ.
    destruct (stat_at ns d) as [[n u] r]. unfold contrib, nborder, nvf. cbn [snd] in IH.
    destruct (snd (fst (fst x))); cbn [madd fst snd map fold_right];
      unfold sizeof_border, sizeof_interior; lia.
Qed.

Definition tree_boundedb (tr : tree) : bool := forallb (fun x => bt_bounded (snd x)) (t_layers tr).
Lemma tree_boundedb_sound tr : tree_boundedb tr = true -> tree_bounded tr.
Proof.
  unfold tree_boundedb, tree_bounded. intros H. rewrite forallb_forall in H.
  apply Forall_forall. exact H.
Qed.
