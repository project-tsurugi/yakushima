(** * ChainProofs: the forward scan along the chain of border nodes (model: ChainDefs.v)

    Each writer step is an identity-preserving map of the nodes, plus one inserted node for a split ([wstep_shape]).
    The invariant [CInv] has three layers: ghosts, ascending, sound ([InvA]); versions, snapshot and frontier, so
    that no stable key is lost ([InvB]); while the recorded versions are current, the recorded nodes are linked
    through the chain and their keys are in the result, so that no insert goes undetected ([InvC]). *)
From Coq Require Import NArith List Bool Lia Sorted Permutation.
From Yk Require Import ListAux ChainDefs.
Import ListNotations.
Local Open Scope N_scope.

(** ** Version words *)

Definition vle (a b : cver) : Prop :=
  cv_ins a <= cv_ins b /\ cv_split a <= cv_split b /\ (cv_del a = true -> cv_del b = true).

Lemma vle_refl a : vle a a.
Proof. unfold vle. repeat split; auto; lia. Qed.
Lemma vle_trans a b c : vle a b -> vle b c -> vle a c.
Proof. unfold vle. intros (?&?&?) (?&?&?). repeat split; auto; lia. Qed.
Lemma vle_antisym a b : vle a b -> vle b a -> a = b.
Proof.
  unfold vle. destruct a as [i s d], b as [i' s' d']; cbn. intros (?&?&H1) (?&?&H2).
  f_equal; try lia. destruct d, d'; auto. discriminate (H1 eq_refl).
Qed.
Lemma cver_eqb_eq a b : cver_eqb a b = true <-> a = b.
Proof.
  unfold cver_eqb. destruct a as [i s d], b as [i' s' d']; cbn. split.
  - intros H. apply andb_true_iff in H as [H H3]. apply andb_true_iff in H as [H1 H2].
    apply N.eqb_eq in H1, H2. apply eqb_prop in H3. subst. reflexivity.
  - intros H. injection H as -> -> ->. rewrite !N.eqb_refl, eqb_reflx. reflexivity.
Qed.
Lemma vle_squeeze v a b : vle v a -> vle a b -> b = v -> a = v.
Proof. intros H1 H2 ->. apply vle_antisym; assumption. Qed.
Lemma vle_split_squeeze v a b : vle v a -> vle a b -> cv_split b = cv_split v -> cv_split a = cv_split v.
Proof. intros (_&H1&_) (_&H2&_) E. lia. Qed.
Lemma vle_del_squeeze a b : vle a b -> cv_del b = false -> cv_del a = false.
Proof. intros (_&_&H) E. destruct (cv_del a); [|reflexivity]. rewrite (H eq_refl) in E. discriminate. Qed.
Lemma cver_eqb_spec a b : reflect (a = b) (cver_eqb a b).
Proof. apply iff_reflect. symmetry. apply cver_eqb_eq. Qed.
Lemma vle_bump_ins v : vle v (bump_ins v).
Proof. unfold vle, bump_ins; cbn. repeat split; auto; lia. Qed.
Lemma vle_bump_split v : vle v (bump_split v).
Proof. unfold vle, bump_split; cbn. repeat split; auto; lia. Qed.
Lemma vle_set_del v : vle v (set_del v).
Proof. unfold vle, set_del; cbn. repeat split; auto; lia. Qed.
Lemma bump_ins_neq v : bump_ins v <> v.
Proof. intros H. apply (f_equal cv_ins) in H. cbn in H. lia. Qed.
Lemma bump_split_neq v : bump_split v <> v.
Proof. intros H. apply (f_equal cv_split) in H. cbn in H. lia. Qed.

(** ** Lists *)

Lemma sorted_cons x l :
  sorted_strict (x :: l) = true <-> (forall y, In y l -> x < y) /\ sorted_strict l = true.
Proof.
  revert x. induction l as [|y l IH]; intros x.
  - cbn. split; [intros _; split; [intros ? []|reflexivity]|reflexivity].
  - change (sorted_strict (x :: y :: l)) with ((x <? y) && sorted_strict (y :: l)).
    rewrite andb_true_iff, N.ltb_lt. split.
    + intros [H1 H2]. split; [|exact H2]. intros z [<-|Hz]; [exact H1|].
      apply IH in H2 as [H2 _]. specialize (H2 z Hz). lia.
    + intros [H1 H2]. split; [apply H1; left; reflexivity|exact H2].
Qed.

Fixpoint pairwise {A} (R : A -> A -> Prop) (l : list A) : Prop :=
  match l with
  | [] => True
  | x :: tl => (forall y, In y tl -> R x y) /\ pairwise R tl
  end.

Lemma pairwise_SS {A} (R : A -> A -> Prop) l : pairwise R l <-> StronglySorted R l.
Proof.
  induction l as [|x l IH]; [split; constructor|]. cbn [pairwise].
  rewrite StronglySorted_cons_iff, Forall_forall, IH. tauto.
Qed.

Lemma pairwise_app {A} (R : A -> A -> Prop) a b :
  pairwise R (a ++ b) <-> pairwise R a /\ pairwise R b /\ (forall x y, In x a -> In y b -> R x y).
Proof. rewrite !pairwise_SS. apply StronglySorted_app_iff. Qed.

Lemma sorted_pairwise l : sorted_strict l = true <-> pairwise N.lt l.
Proof.
  induction l as [|x l IH]; [cbn; tauto|]. rewrite sorted_cons, IH. reflexivity.
Qed.

Lemma sorted_app l1 l2 :
  sorted_strict (l1 ++ l2) = true <->
  sorted_strict l1 = true /\ sorted_strict l2 = true /\ (forall a b, In a l1 -> In b l2 -> a < b).
Proof. rewrite !sorted_pairwise. apply pairwise_app. Qed.

Lemma sorted_filter f l : sorted_strict l = true -> sorted_strict (filter f l) = true.
Proof. rewrite !sorted_pairwise, !pairwise_SS. apply StronglySorted_filter. Qed.
Lemma sorted_firstn n l : sorted_strict l = true -> sorted_strict (firstn n l) = true.
Proof. rewrite !sorted_pairwise, !pairwise_SS. apply StronglySorted_firstn. Qed.

Lemma sorted_ext l1 : forall l2, sorted_strict l1 = true -> sorted_strict l2 = true ->
  (forall k, In k l1 <-> In k l2) -> l1 = l2.
Proof.
  intros l2. rewrite !sorted_pairwise, !pairwise_SS. apply StronglySorted_ext. intros a b. lia.
Qed.

Lemma in_insert_sorted k x l : In x (insert_sorted k l) <-> x = k \/ In x l.
Proof.
  induction l as [|y l IH]; cbn [insert_sorted].
  - cbn. split; intros [H|[]]; auto.
  - destruct (k <? y); cbn [In]; [split; intros [H|H]; auto|].
    rewrite IH. split; [intros [H|[H|H]]|intros [H|[H|H]]]; auto.
Qed.

Lemma sorted_insert k l : sorted_strict l = true -> ~ In k l -> sorted_strict (insert_sorted k l) = true.
Proof.
  induction l as [|y l IH]; intros Hs Hn; [reflexivity|]. cbn [insert_sorted].
  destruct (N.ltb_spec k y) as [Hlt|Hge].
  - apply sorted_cons. split; [|exact Hs]. apply sorted_cons in Hs as [H1 _].
    intros z [<-|Hz]; [exact Hlt|]. specialize (H1 z Hz). lia.
  - apply sorted_cons in Hs as [H1 H2]. apply sorted_cons. split.
    + intros z Hz. apply in_insert_sorted in Hz as [->|Hz]; [|apply H1, Hz].
      assert (k <> y) by (intros ->; apply Hn; left; reflexivity). lia.
    + apply IH; [exact H2|]. intros Hk. apply Hn. right. exact Hk.
Qed.

Lemma in_remove_key k x l : In x (remove_key k l) <-> In x l /\ x <> k.
Proof.
  unfold remove_key. rewrite filter_In, negb_true_iff, N.eqb_neq. reflexivity.
Qed.

Lemma mem_true k l : mem k l = true <-> In k l.
Proof. apply existsb_eqb_In. Qed.
Lemma mem_false k l : mem k l = false <-> ~ In k l.
Proof. rewrite <- mem_true. destruct (mem k l); split; congruence. Qed.

Lemma last_key_none l : last_key l = None -> l = [].
Proof.
  unfold last_key. destruct (rev l) eqn:E; [|discriminate]. intros _.
  apply (f_equal (@rev N)) in E. rewrite rev_involutive in E. exact E.
Qed.
Lemma last_key_some l k : last_key l = Some k -> exists l', l = l' ++ [k].
Proof.
  unfold last_key. destruct (rev l) as [|x r] eqn:E; [discriminate|]. intros H. injection H as ->.
  exists (rev r). apply (f_equal (@rev N)) in E. rewrite rev_involutive in E. exact E.
Qed.
Lemma last_key_snoc l k : last_key (l ++ [k]) = Some k.
Proof. unfold last_key. rewrite rev_unit. reflexivity. Qed.
Lemma last_key_in l d : last_key l = Some d -> In d l.
Proof. intros H. apply last_key_some in H as (l'&->). apply in_elt. Qed.
Lemma last_key_app_in l1 l2 : l2 <> [] -> exists d, last_key (l1 ++ l2) = Some d /\ In d l2.
Proof.
  intros Hne. destruct (last_key l2) as [d|] eqn:E; [|destruct (Hne (last_key_none _ E))].
  exists d. split; [|exact (last_key_in _ _ E)]. apply last_key_some in E as (l'&->).
  rewrite app_assoc. apply last_key_snoc.
Qed.
Lemma sorted_last_le l d k : sorted_strict l = true -> last_key l = Some d -> In k l -> k <= d.
Proof.
  intros Hs Hd Hk. apply last_key_some in Hd as (l'&->). apply sorted_app in Hs as (_&_&Hs).
  apply in_app_or in Hk as [Hk|[<-|[]]]; [|lia]. specialize (Hs k d Hk (or_introl eq_refl)). lia.
Qed.

(** ** Intervals *)

Lemma le_r_mono r a b : a <= b -> le_r b r = true -> le_r a r = true.
Proof. destruct r as [x|]; cbn; [|auto]. rewrite !N.leb_le. lia. Qed.
Lemma le_r_below r d k : le_r d r = true -> le_r k (Some d) = true -> le_r k r = true.
Proof. intros Hd Hk. apply (le_r_mono r k d); [apply N.leb_le, Hk|exact Hd]. Qed.

Lemma in_interval_iff l r k : in_interval l r k = true <-> l <= k /\ le_r k r = true.
Proof. unfold in_interval. rewrite andb_true_iff, N.leb_le. reflexivity. Qed.
Lemma in_interval_l l r k : in_interval l r k = true -> l <= k.
Proof. intros H. apply in_interval_iff in H. apply H. Qed.
Lemma in_interval_le_r l r k : in_interval l r k = true -> le_r k r = true.
Proof. intros H. apply in_interval_iff in H. apply H. Qed.
Lemma in_interval_widen l r r' k :
  (le_r k r' = true -> le_r k r = true) -> in_interval l r' k = true -> in_interval l r k = true.
Proof. rewrite !in_interval_iff. intros H [Hl Hr]. auto. Qed.
Lemma in_interval_le l r k d : in_interval l r k = true -> k <= d -> in_interval l (Some d) k = true.
Proof. rewrite !in_interval_iff. intros [Hl _] Hle. split; [exact Hl|apply N.leb_le, Hle]. Qed.

(** [k0] is at or beyond the right end of the interval; without a right end ([r = None]) no key is *)
Definition above_r (r : option N) (k0 : N) : Prop := forall k, le_r k r = true -> k <= k0.
Lemma above_r_beyond r k0 : le_r k0 r = false -> above_r r k0.
Proof.
  intros H k Hk. destruct (N.le_gt_cases k k0) as [Hle|Hgt]; [exact Hle|].
  rewrite (le_r_mono r k0 k) in H; [discriminate|lia|exact Hk].
Qed.

(** not used below *)
Lemma filter_below l r L : (forall k, In k L -> k < l) -> filter (in_interval l r) L = [].
Proof.
  induction L as [|x L IH]; [reflexivity|]. intros H. cbn [filter]. unfold in_interval at 1.
  destruct (N.leb_spec l x) as [Hle|_]; [specialize (H x (or_introl eq_refl)); lia|].
  cbn [andb]. apply IH. intros k Hk. apply H. right. exact Hk.
Qed.

(** ** Node lists *)

Definition ids (ns : list cnode) : list N := map cn_id ns.
Definition lk (n : cnode) : list N := if live n then cn_keys n else [].
Definition upd (id : N) (f : cnode -> cnode) (x : cnode) : cnode := if cn_id x =? id then f x else x.

Lemma live_true n : live n = true <-> cv_del (cn_ver n) = false.
Proof. apply negb_true_iff. Qed.
Lemma live_same_ver a b : cv_del (cn_ver a) = cv_del (cn_ver b) -> live a = live b.
Proof. unfold live. intros ->. reflexivity. Qed.
Lemma live_of_ver n v : cn_ver n = v -> cv_del v = false -> live n = true.
Proof. intros <-. apply live_true. Qed.
Lemma lk_live n : live n = true -> lk n = cn_keys n.
Proof. unfold lk. intros ->. reflexivity. Qed.
Lemma lk_dead n : live n = false -> lk n = [].
Proof. unfold lk. intros ->. reflexivity. Qed.
Lemma in_lk k n : In k (lk n) <-> live n = true /\ In k (cn_keys n).
Proof. unfold lk. destruct (live n); cbn; intuition congruence. Qed.

Lemma all_keys_app a b : all_keys (a ++ b) = all_keys a ++ all_keys b.
Proof. unfold all_keys. apply flat_map_app. Qed.
Lemma all_keys_cons n l : all_keys (n :: l) = lk n ++ all_keys l.
Proof. reflexivity. Qed.
Lemma in_all_keys k ns : In k (all_keys ns) <-> exists n, In n ns /\ In k (lk n).
Proof. unfold all_keys. apply in_flat_map. Qed.

Lemma find_node_split id ns n :
  find_node id ns = Some n ->
  exists l1 l2, ns = l1 ++ n :: l2 /\ ~ In id (ids l1) /\ cn_id n = id.
Proof.
  induction ns as [|x ns IH]; [discriminate|]. cbn [find_node].
  destruct (N.eqb_spec (cn_id x) id) as [E|E].
  - intros H. injection H as ->. exists [], ns. repeat split; auto.
  - intros H. destruct (IH H) as (l1&l2&->&Hn&Hid). exists (x :: l1), l2. repeat split; auto.
    cbn. intros [?|?]; [apply E; assumption|apply Hn; assumption].
Qed.

Lemma find_node_in id ns n : find_node id ns = Some n -> In n ns.
Proof. intros H. destruct (find_node_split _ _ _ H) as (l1&l2&->&_). apply in_elt. Qed.
Lemma find_node_id id ns n : find_node id ns = Some n -> cn_id n = id.
Proof. intros H. destruct (find_node_split _ _ _ H) as (l1&l2&_&_&Hid). exact Hid. Qed.

Section Split.
  Variables (id : N) (l1 l2 : list cnode) (n : cnode).
  Hypothesis Hn : ~ In id (ids l1).
  Hypothesis Hid : cn_id n = id.

  Lemma mid_spec f nw :
    find_node id (l1 ++ n :: l2) = Some n /\ before id (l1 ++ n :: l2) = l1 /\ after id (l1 ++ n :: l2) = l2 /\
    update_node id f (l1 ++ n :: l2) = l1 ++ f n :: l2 /\
    insert_after id nw (l1 ++ n :: l2) = l1 ++ n :: nw :: l2.
  Proof.
    induction l1 as [|x l IH]; cbn [app find_node before after update_node insert_after].
    - rewrite Hid, N.eqb_refl. repeat split.
    - destruct (N.eqb_spec (cn_id x) id) as [E|E]; [exfalso; apply Hn; left; exact E|].
      destruct IH as (I1&I2&I3&I4&I5); [intros H; apply Hn; right; exact H|].
      rewrite I1, I2, I3, I4, I5. repeat split.
  Qed.
  Lemma find_node_mid : find_node id (l1 ++ n :: l2) = Some n.
  Proof. apply (mid_spec (fun x => x) n). Qed.
  Lemma before_mid : before id (l1 ++ n :: l2) = l1.
  Proof. apply (mid_spec (fun x => x) n). Qed.
  Lemma after_mid : after id (l1 ++ n :: l2) = l2.
  Proof. apply (mid_spec (fun x => x) n). Qed.
  Lemma update_node_mid f : update_node id f (l1 ++ n :: l2) = l1 ++ f n :: l2.
  Proof. apply (mid_spec f n). Qed.
  Lemma insert_after_mid nw : insert_after id nw (l1 ++ n :: l2) = l1 ++ n :: nw :: l2.
  Proof. apply (mid_spec (fun x => x) nw). Qed.
End Split.

Lemma before_after_split id ns n :
  find_node id ns = Some n -> ns = before id ns ++ n :: after id ns.
Proof.
  intros H. destruct (find_node_split _ _ _ H) as (l1&l2&->&Hn&Hid).
  rewrite before_mid, after_mid by assumption. reflexivity.
Qed.

Lemma in_all_keys_at id ns n k :
  find_node id ns = Some n ->
  In k (all_keys ns) <-> In k (all_keys (before id ns)) \/ In k (lk n) \/ In k (all_keys (after id ns)).
Proof.
  intros Hf. rewrite (before_after_split _ _ _ Hf) at 1. rewrite all_keys_app, all_keys_cons, !in_app_iff. reflexivity.
Qed.

Lemma before_not_in id ns : ~ In id (ids (before id ns)).
Proof.
  induction ns as [|x ns IH]; cbn [before]; [intros []|].
  destruct (N.eqb_spec (cn_id x) id) as [E|E]; [intros []|].
  cbn. intros [?|?]; [apply E; assumption|apply IH; assumption].
Qed.

Lemma ids_app a b : ids (a ++ b) = ids a ++ ids b.
Proof. apply map_app. Qed.

Lemma nodup_find ns n : NoDup (ids ns) -> In n ns -> find_node (cn_id n) ns = Some n.
Proof.
  induction ns as [|x ns IH]; [intros _ []|]. intros Hnd [->|Hin]; cbn [find_node].
  - rewrite N.eqb_refl. reflexivity.
  - cbn in Hnd. apply NoDup_cons_iff in Hnd as [Hx Hnd].
    destruct (N.eqb_spec (cn_id x) (cn_id n)) as [E|E]; [|apply IH; assumption].
    exfalso. apply Hx. rewrite E. apply in_map. exact Hin.
Qed.

Lemma nodup_uniq ns x n : NoDup (ids ns) -> In x ns -> In n ns -> cn_id x = cn_id n -> x = n.
Proof. apply map_NoDup_inj. Qed.

Lemma nodup_mid l1 n l2 :
  NoDup (ids (l1 ++ n :: l2)) -> ~ In (cn_id n) (ids l1) /\ ~ In (cn_id n) (ids l2).
Proof.
  rewrite ids_app. cbn. intros H. apply NoDup_remove_2 in H. split; intros Hi; apply H, in_or_app; auto.
Qed.

Lemma nodup_ids_app_disj (a b : list cnode) x : NoDup (ids (a ++ b)) -> In x a -> In x b -> False.
Proof.
  rewrite ids_app. intros Hnd Ha Hb. apply NoDup_app in Hnd as (_&_&D).
  apply (D (cn_id x)); apply in_map; assumption.
Qed.

Lemma in_ids_find ns id l T :
  NoDup (ids ns) -> (forall x, In x l -> In x ns) -> In id (ids l) -> find_node id ns = Some T -> In T l.
Proof.
  intros Hnd Hsub Hin Hf. unfold ids in Hin. apply in_map_iff in Hin as (y&E&Hy).
  assert (y = T); [|subst y; exact Hy].
  apply (nodup_uniq ns); auto; [exact (find_node_in _ _ _ Hf)|rewrite (find_node_id _ _ _ Hf); exact E].
Qed.

Lemma before_via ns cur c d Y l3 :
  NoDup (ids ns) -> find_node cur ns = Some c -> after cur ns = d ++ Y :: l3 ->
  before (cn_id Y) ns = before cur ns ++ c :: d /\ find_node (cn_id Y) ns = Some Y /\ after (cn_id Y) ns = l3.
Proof.
  intros Hnd Hf Ha. pose proof (before_after_split _ _ _ Hf) as E. rewrite Ha in E.
  assert (E' : ns = (before cur ns ++ c :: d) ++ Y :: l3) by (rewrite <- app_assoc; exact E).
  rewrite E' in Hnd. destruct (nodup_mid _ _ _ Hnd) as [N1 _].
  split; [|split].
  - rewrite E' at 1. apply before_mid; auto.
  - rewrite E' at 1. apply find_node_mid; auto.
  - rewrite E' at 1. apply after_mid; auto.
Qed.

Lemma update_node_map id f ns :
  NoDup (ids ns) -> update_node id f ns = map (upd id f) ns.
Proof.
  induction ns as [|x ns IH]; [reflexivity|]. intros Hnd. cbn in Hnd. apply NoDup_cons_iff in Hnd as [Hx Hnd].
  cbn [update_node map]. unfold upd at 1. destruct (N.eqb_spec (cn_id x) id) as [E|E].
  - f_equal. rewrite <- (map_id ns) at 1. apply map_ext_in. intros y Hy. unfold upd.
    destruct (N.eqb_spec (cn_id y) id) as [E'|E']; [|reflexivity].
    exfalso. apply Hx. rewrite E, <- E'. apply in_map. exact Hy.
  - f_equal. apply IH. exact Hnd.
Qed.

Section IdMap.
  Variable g : cnode -> cnode.
  Hypothesis gid : forall x, cn_id (g x) = cn_id x.

  Lemma ids_map l : ids (map g l) = ids l.
  Proof. unfold ids. rewrite map_map. apply map_ext. exact gid. Qed.
  Lemma before_map id l : before id (map g l) = map g (before id l).
  Proof.
    induction l as [|x l IH]; [reflexivity|]. cbn [map before]. rewrite gid.
    destruct (cn_id x =? id); [reflexivity|]. cbn [map]. f_equal. exact IH.
  Qed.
  Lemma after_map id l : after id (map g l) = map g (after id l).
  Proof.
    induction l as [|x l IH]; [reflexivity|]. cbn [map after]. rewrite gid.
    destruct (cn_id x =? id); [reflexivity|]. exact IH.
  Qed.
  Lemma find_node_map id l : find_node id (map g l) = option_map g (find_node id l).
  Proof.
    induction l as [|x l IH]; [reflexivity|]. cbn [map find_node]. rewrite gid.
    destruct (cn_id x =? id); [reflexivity|]. exact IH.
  Qed.
End IdMap.

Lemma insert_after_notin t nw l : ~ In t (ids l) -> insert_after t nw l = l.
Proof.
  induction l as [|x l IH]; [reflexivity|]. cbn. intros H.
  destruct (N.eqb_spec (cn_id x) t) as [E|E]; [exfalso; apply H; left; exact E|].
  f_equal. apply IH. intros Hi. apply H. right. exact Hi.
Qed.
Lemma in_after x id l : In x (after id l) -> In x l.
Proof.
  induction l as [|y l IH]; [intros []|]. cbn [after]. destruct (cn_id y =? id); cbn [In]; auto.
Qed.
Lemma in_before x id l : In x (before id l) -> In x l.
Proof.
  induction l as [|y l IH]; [intros []|]. cbn [before]. destruct (cn_id y =? id); cbn [In]; [tauto|].
  intros [?|?]; auto.
Qed.
Lemma before_insert_after cur t nw l :
  cur <> cn_id nw -> cur <> t -> before cur (insert_after t nw l) = insert_after t nw (before cur l).
Proof.
  intros H1 H2. induction l as [|x l IH]; [reflexivity|]. cbn [insert_after before].
  destruct (cn_id x =? t) eqn:Et, (cn_id x =? cur) eqn:Ec; cbn [before insert_after]; rewrite ?Et, ?Ec.
  - apply N.eqb_eq in Et, Ec. congruence.
  - destruct (N.eqb_spec (cn_id nw) cur); [congruence|reflexivity].
  - reflexivity.
  - f_equal. exact IH.
Qed.
Lemma after_insert_after cur t nw l :
  NoDup (ids l) ->
  cur <> cn_id nw -> cur <> t -> after cur (insert_after t nw l) = insert_after t nw (after cur l).
Proof.
  intros Hnd H1 H2. induction l as [|x l IH]; [reflexivity|]. cbn [insert_after after].
  cbn in Hnd. apply NoDup_cons_iff in Hnd as [Hx Hnd]. specialize (IH Hnd).
  destruct (cn_id x =? t) eqn:Et, (cn_id x =? cur) eqn:Ec; cbn [after insert_after]; rewrite ?Et, ?Ec.
  - apply N.eqb_eq in Et, Ec. congruence.
  - destruct (N.eqb_spec (cn_id nw) cur); [congruence|].
    symmetry. apply insert_after_notin. intros Hi. apply Hx. apply N.eqb_eq in Et. rewrite Et.
    unfold ids in Hi. apply in_map_iff in Hi as (y&<-&Hy). apply in_map. eapply in_after. exact Hy.
  - reflexivity.
  - exact IH.
Qed.
Lemma before_insert_after_same t nw l : before t (insert_after t nw l) = before t l.
Proof.
  induction l as [|x l IH]; [reflexivity|]. cbn [insert_after before].
  destruct (cn_id x =? t) eqn:Et; cbn [before]; rewrite Et; [reflexivity|]. f_equal. exact IH.
Qed.
Lemma find_node_insert_after id t nw l :
  id <> cn_id nw -> find_node id (insert_after t nw l) = find_node id l.
Proof.
  intros H. induction l as [|x l IH]; [reflexivity|]. cbn [insert_after].
  destruct (N.eqb_spec (cn_id x) t) as [E|E]; cbn [find_node].
  - destruct (cn_id x =? id); [reflexivity|].
    destruct (N.eqb_spec (cn_id nw) id); [congruence|]. reflexivity.
  - destruct (cn_id x =? id); [reflexivity|]. exact IH.
Qed.
Lemma in_insert_after x t nw l : In x (insert_after t nw l) <-> In x l \/ (x = nw /\ In t (ids l)).
Proof.
  induction l as [|y l IH]; cbn [insert_after ids map In]; [tauto|].
  destruct (N.eqb_spec (cn_id y) t) as [E|E]; cbn [In].
  - split; [intros [H|[H|H]]|intros [[H|H]|[H _]]]; auto.
  - rewrite IH. fold (ids l). split; [intros [H|[H|[H1 H2]]]|intros [[H|H]|[H1 [H2|H2]]]]; auto. contradiction.
Qed.
Lemma in_all_keys_insert_after k t nw l :
  In k (all_keys (insert_after t nw l)) <-> In k (all_keys l) \/ (In t (ids l) /\ In k (lk nw)).
Proof.
  split.
  - intros H. apply in_all_keys in H as (n&Hn&Hk).
    apply in_insert_after in Hn as [Hn|[-> Ht]]; [left; apply in_all_keys; eauto|right; auto].
  - intros [H|[Ht Hk]]; apply in_all_keys; [apply in_all_keys in H as (n&Hn&Hk); exists n|exists nw];
      (split; [apply in_insert_after; auto|exact Hk]).
Qed.

Lemma first_live_split l nx :
  first_live l = Some nx ->
  exists d l3, l = d ++ nx :: l3 /\ (forall x, In x d -> live x = false) /\ live nx = true.
Proof.
  induction l as [|x l IH]; cbn [first_live]; [discriminate|]. destruct (live x) eqn:Lx.
  - intros H. injection H as ->. exists [], l. repeat split; auto. intros ? [].
  - intros H. destruct (IH H) as (d&l3&->&Hd&Hl). exists (x :: d), l3. repeat split; auto.
    intros y [<-|Hy]; auto.
Qed.

Lemma first_live_app_live l n l2 x : live n = true -> first_live (l ++ n :: l2) = Some x -> In x (l ++ [n]).
Proof.
  intros Ln. induction l as [|y l IH]; cbn [app first_live].
  - rewrite Ln. intros H. injection H as <-. left. reflexivity.
  - destruct (live y).
    + intros H. injection H as <-. left. reflexivity.
    + intros H. right. apply IH, H.
Qed.

(** not used below *)
Lemma all_keys_eq ns : all_keys ns = flat_map lk ns.
Proof. reflexivity. Qed.
Lemma find_node_none id ns : find_node id ns = None <-> ~ In id (ids ns).
Proof.
  induction ns as [|x ns IH]; cbn [find_node ids map In]; [tauto|].
  destruct (N.eqb_spec (cn_id x) id) as [E|E].
  - split; [discriminate|]. intros H. exfalso. apply H. left. exact E.
  - fold (ids ns). rewrite IH. tauto.
Qed.
Lemma find_node_some id ns : In id (ids ns) -> exists n, find_node id ns = Some n.
Proof.
  intros H. destruct (find_node id ns) eqn:E; [eauto|]. apply find_node_none in E. contradiction.
Qed.
Lemma after_insert_after_same t nw l :
  In t (ids l) -> after t (insert_after t nw l) = nw :: after t l.
Proof.
  induction l as [|x l IH]; [intros []|]. cbn [insert_after after]. intros Hin.
  destruct (N.eqb_spec (cn_id x) t) as [E|E]; cbn [after].
  - destruct (N.eqb_spec (cn_id x) t); [reflexivity|contradiction].
  - destruct (N.eqb_spec (cn_id x) t); [contradiction|]. apply IH. destruct Hin; [contradiction|assumption].
Qed.
Lemma insert_after_app_l t nw a b : In t (ids a) -> insert_after t nw (a ++ b) = insert_after t nw a ++ b.
Proof.
  induction a as [|y a IH]; [intros []|]. cbn [insert_after ids map In app].
  destruct (N.eqb_spec (cn_id y) t) as [E|E]; [reflexivity|]. intros [?|?]; [contradiction|].
  cbn [app]. f_equal. apply IH. assumption.
Qed.
Lemma filter_all_keys_map f g l :
  (forall n, In n l -> filter f (lk (g n)) = filter f (lk n)) ->
  filter f (all_keys (map g l)) = filter f (all_keys l).
Proof.
  induction l as [|x l IH]; [reflexivity|]. intros H. cbn [map]. rewrite !all_keys_cons, !filter_app.
  rewrite H by (left; reflexivity). f_equal. apply IH. intros n Hn. apply H. right. exact Hn.
Qed.
Lemma filter_all_keys_insert_after f t nw l :
  filter f (lk nw) = [] -> filter f (all_keys (insert_after t nw l)) = filter f (all_keys l).
Proof.
  intros Hnw. induction l as [|x l IH]; [reflexivity|]. cbn [insert_after].
  destruct (cn_id x =? t).
  - rewrite !all_keys_cons, !filter_app, Hnw. reflexivity.
  - rewrite !all_keys_cons, !filter_app, IH. reflexivity.
Qed.

(** ** Well-formed chains *)

(** the order of the chain constrains live nodes only: an unlinked node stays in the list where it was *)
Definition rel (a b : cnode) : Prop :=
  live a = true -> live b = true -> cn_lo a <= cn_lo b /\ forall k, In k (cn_keys a) -> k < cn_lo b.
Definition node_ok (n : cnode) : Prop :=
  sorted_strict (cn_keys n) = true /\ forall k, In k (cn_keys n) -> cn_lo n <= k.

(** the next pointer of a node may still name an unlinked successor or already bypass it *)
Fixpoint next_ok (nx : option N) (tl : list cnode) : Prop :=
  match tl with
  | [] => nx = None
  | Y :: tl' => nx = Some (cn_id Y) \/ (live Y = false /\ next_ok nx tl')
  end.
Fixpoint nexts_ok (ns : list cnode) : Prop :=
  match ns with
  | [] => True
  | X :: tl => next_ok (cn_next X) tl /\ nexts_ok tl
  end.

Record WF (ns : list cnode) (fresh : N) : Prop := {
  wf_nodup : NoDup (ids ns);
  wf_fresh : forall n, In n ns -> cn_id n < fresh;
  wf_dead : forall n, In n ns -> live n = false -> cn_keys n = [];
  wf_ok : forall n, In n ns -> node_ok n;
  wf_ord : pairwise rel ns;
  wf_next : nexts_ok ns }.

Lemma rel_dead_l a b : live a = false -> rel a b.
Proof. intros H H1. congruence. Qed.
Lemma rel_dead_r a b : live b = false -> rel a b.
Proof. intros H _ H1. congruence. Qed.

Lemma WF_pair l1 n l2 f :
  WF (l1 ++ n :: l2) f -> (forall a, In a l1 -> rel a n) /\ (forall b, In b l2 -> rel n b).
Proof.
  intros [_ _ _ _ W5 _]. apply pairwise_app in W5 as (P1&P2&P3). cbn [pairwise] in P2. destruct P2 as [P2 P4].
  split; [|exact P2]. intros a Ha. apply P3; [exact Ha|left; reflexivity].
Qed.
Lemma WF_around ns f id P :
  WF ns f -> find_node id ns = Some P ->
  (forall a, In a (before id ns) -> rel a P) /\ (forall b, In b (after id ns) -> rel P b).
Proof. intros W Hf. rewrite (before_after_split _ _ _ Hf) in W. exact (WF_pair _ _ _ _ W). Qed.

Lemma WF_key_live ns f c k : WF ns f -> In c ns -> In k (cn_keys c) -> live c = true.
Proof.
  intros W Hin Hk. destruct (live c) eqn:L; [reflexivity|]. rewrite (wf_dead _ _ W c Hin L) in Hk. destruct Hk.
Qed.

Lemma all_keys_dead d : (forall x, In x d -> live x = false) -> all_keys d = [].
Proof.
  induction d as [|x d IH]; [reflexivity|]. intros H. rewrite all_keys_cons, (lk_dead x) by (apply H; left; reflexivity).
  apply IH. intros y Hy. apply H. right. exact Hy.
Qed.

Lemma all_keys_sorted ns :
  (forall n, In n ns -> node_ok n) -> pairwise rel ns -> sorted_strict (all_keys ns) = true.
Proof.
  induction ns as [|x l IH]; [reflexivity|]. intros Hok HP. cbn [pairwise] in HP. destruct HP as [P1 P2].
  rewrite all_keys_cons. apply sorted_app. split; [|split].
  - destruct (live x) eqn:L; [rewrite (lk_live x L); apply Hok; left; reflexivity|rewrite (lk_dead x L); reflexivity].
  - apply IH; [intros n Hn; apply Hok; right; exact Hn|exact P2].
  - intros a b Ha Hb. apply in_lk in Ha as [La Ha]. apply in_all_keys in Hb as (y&Hy&Hb).
    apply in_lk in Hb as [Ly Hb]. destruct (P1 y Hy La Ly) as [_ Q]. specialize (Q a Ha).
    destruct (Hok y (or_intror Hy)) as [_ Hlo]. specialize (Hlo b Hb). lia.
Qed.

Lemma WF_sorted ns f : WF ns f -> sorted_strict (all_keys ns) = true.
Proof. intros W. apply all_keys_sorted; [apply (wf_ok _ _ W)|apply (wf_ord _ _ W)]. Qed.

Lemma before_below ns f id P k :
  WF ns f -> find_node id ns = Some P -> live P = true ->
  In k (all_keys (before id ns)) -> k < cn_lo P.
Proof.
  intros W Hf LP Hk. apply in_all_keys in Hk as (a&Ha&Hka). apply in_lk in Hka as [La Hka].
  destruct (proj1 (WF_around _ _ _ _ W Hf) a Ha La LP) as [_ Q]. apply Q, Hka.
Qed.

Lemma next_ok_map g nx tl :
  (forall x, cn_id (g x) = cn_id x) -> (forall x, In x tl -> live x = false -> live (g x) = false) ->
  next_ok nx tl -> next_ok nx (map g tl).
Proof.
  intros gid gd. induction tl as [|Y tl IH]; cbn [map next_ok]; [auto|].
  intros [H|[H1 H2]]; [left; rewrite gid; exact H|right]. split; [apply gd; [left; reflexivity|exact H1]|].
  apply IH; [|exact H2]. intros x Hx. apply gd. right. exact Hx.
Qed.
Lemma next_ok_none tl : next_ok None tl <-> forall x, In x tl -> live x = false.
Proof.
  induction tl as [|Y tl IH]; cbn [next_ok].
  - split; [intros _ ? []|reflexivity].
  - rewrite IH. split.
    + intros [H|[H1 H2]]; [discriminate|]. intros x [<-|Hx]; auto.
    + intros H. right. split; [apply H; left; reflexivity|]. intros x Hx. apply H. right. exact Hx.
Qed.
Lemma next_ok_some y tl :
  next_ok (Some y) tl -> exists d Y l3, tl = d ++ Y :: l3 /\ cn_id Y = y /\ (forall x, In x d -> live x = false).
Proof.
  induction tl as [|Y tl IH]; cbn [next_ok]; [discriminate|].
  intros [H|[H1 H2]].
  - injection H as ->. exists [], Y, tl. repeat split; auto. intros ? [].
  - destruct (IH H2) as (d&Y'&l3&->&Hid&Hd). exists (Y :: d), Y', l3. repeat split; auto.
    intros x [<-|Hx]; auto.
Qed.
Lemma next_ok_insert_after nx t nw l :
  (forall Y, In Y l -> cn_id Y = t -> live Y = true) ->
  next_ok nx l -> next_ok nx (insert_after t nw l).
Proof.
  intros Ht. induction l as [|Y l IH]; cbn [insert_after next_ok]; [auto|].
  intros [H|[H1 H2]].
  - destruct (cn_id Y =? t); left; exact H.
  - destruct (N.eqb_spec (cn_id Y) t) as [E|E].
    + rewrite (Ht Y (or_introl eq_refl) E) in H1. discriminate.
    + right. split; [exact H1|]. apply IH; [|exact H2]. intros Z HZ. apply Ht. right. exact HZ.
Qed.

Lemma nexts_ok_after ns id X : nexts_ok ns -> find_node id ns = Some X -> next_ok (cn_next X) (after id ns).
Proof.
  induction ns as [|Y ns IH]; [discriminate|]. cbn [nexts_ok find_node after]. intros [H1 H2].
  destruct (cn_id Y =? id); [intros E; injection E as <-; exact H1|apply IH, H2].
Qed.

(** the node [y] that a next pointer names, and what lies between *)
Lemma next_node ns cur c y :
  NoDup (ids ns) -> find_node cur ns = Some c -> next_ok (Some y) (after cur ns) ->
  exists d Y, find_node y ns = Some Y /\ (forall x, In x d -> live x = false) /\
    after cur ns = d ++ Y :: after y ns /\ before y ns = before cur ns ++ c :: d.
Proof.
  intros Hnd Hf Hn. destruct (next_ok_some _ _ Hn) as (d&Y&l3&Ea&<-&Hd).
  destruct (before_via _ _ _ _ _ _ Hnd Hf Ea) as (Eb&HfY&->). exists d, Y. auto.
Qed.

Lemma mk_nodes_facts kss : forall id (first : bool),
  sorted_strict (concat kss) = true ->
  forallb (fun ks => match ks with [] => false | _ => true end) (if first then tl kss else kss) = true ->
  let ns := mk_nodes id first kss in
  NoDup (ids ns) /\ (forall n, In n ns -> id <= cn_id n < id + N.of_nat (length kss)) /\
  (forall n, In n ns -> live n = true /\ node_ok n /\ (first = false -> In (cn_lo n) (concat kss)) /\
                        forall k, In k (cn_keys n) -> In k (concat kss)) /\
  pairwise rel ns /\ nexts_ok ns.
Proof.
  induction kss as [|ks tl IH]; intros id first Hs Hne ns.
  - subst ns. cbn. split; [constructor|]. split; [intros ? []|]. split; [intros ? []|]. auto.
  - assert (Htl : forallb (fun ks => match ks with [] => false | _ => true end) tl = true).
    { destruct first; [exact Hne|]. cbn [forallb] in Hne. apply andb_true_iff in Hne. apply Hne. }
    cbn [concat] in Hs. apply sorted_app in Hs as (Hs1&Hs2&Hs3).
    destruct (IH (id + 1) false Hs2 Htl) as (I1&I2&I3&I4&I5). clear IH.
    subst ns. cbn [mk_nodes]. set (rest := mk_nodes (id + 1) false tl) in *.
    set (lo := if first then 0 else match ks with [] => 0 | k :: _ => k end).
    assert (Hlo : (forall k, In k ks -> lo <= k) /\ (first = false -> In lo ks)).
    { subst lo. destruct first; [split; [intros; lia|discriminate]|].
      destruct ks as [|k0 ks]; [discriminate|]. split; [|intros _; left; reflexivity].
      intros k [<-|Hk]; [lia|]. apply sorted_cons in Hs1 as [Hs1 _]. specialize (Hs1 k Hk). lia. }
    destruct Hlo as [Hlo1 Hlo2].
    split; [|split; [|split; [|split]]].
    + cbn. constructor; [|exact I1]. intros Hin. unfold ids in Hin. apply in_map_iff in Hin as (n&E&Hn).
      apply I2 in Hn. lia.
    + intros n [<-|Hn]; [cbn [cn_id length]; lia|]. apply I2 in Hn. cbn [length]. lia.
    + intros n Hin. cbn [concat]. destruct Hin as [<-|Hn].
      * split; [reflexivity|]. split; [split; [exact Hs1|exact Hlo1]|]. split.
        -- intros E. apply in_or_app. left. exact (Hlo2 E).
        -- intros k Hk. apply in_or_app. left. exact Hk.
      * destruct (I3 n Hn) as (J1&J2&J3&J4). repeat split; try apply J2; auto.
        -- intros _. apply in_or_app. right. exact (J3 eq_refl).
        -- intros k Hk. apply in_or_app. right. apply J4, Hk.
    + cbn [pairwise]. split; [|exact I4].
      intros y Hy _ _. destruct (I3 y Hy) as (_&_&Hy3&_). specialize (Hy3 eq_refl). cbn [cn_lo cn_keys]. split.
      * subst lo. destruct first; [lia|]. destruct ks as [|k0 ks]; [discriminate|].
        apply N.lt_le_incl, Hs3; [left; reflexivity|exact Hy3].
      * intros k Hk. apply Hs3; assumption.
    + cbn [nexts_ok]. split; [|exact I5].
      cbn [cn_next]. destruct tl as [|ks' tl']; [subst rest; reflexivity|].
      subst rest. cbn [mk_nodes next_ok cn_id]. left. reflexivity.
Qed.

Lemma WF_init kss : kss_ok kss = true -> WF (c_nodes (cinit kss)) (c_fresh (cinit kss)).
Proof.
  unfold kss_ok. intros H. apply andb_true_iff in H as [H H3]. apply andb_true_iff in H as [_ H2].
  destruct (mk_nodes_facts kss 0 true H2 H3) as (I1&I2&I3&I4&I5). cbn [cinit c_nodes c_fresh].
  constructor; auto.
  - intros n Hn. apply I2 in Hn. lia.
  - intros n Hn L. destruct (I3 n Hn) as (Hl&_). congruence.
  - intros n Hn. apply I3, Hn.
Qed.

Lemma cinit_head kss :
  kss_ok kss = true -> exists n tl, c_nodes (cinit kss) = n :: tl /\ cn_id n = 0 /\ cn_lo n = 0 /\ live n = true.
Proof.
  unfold kss_ok. destruct kss as [|ks tl]; [discriminate|]. intros _. cbn [cinit c_nodes mk_nodes].
  eexists. eexists. split; [reflexivity|]. cbn. auto.
Qed.

(** not used below *)
Lemma next_ok_build nx d tl :
  (forall x, In x d -> live x = false) -> next_ok nx tl -> next_ok nx (d ++ tl).
Proof.
  intros Hd H. induction d as [|x d IH]; [exact H|]. cbn [app next_ok]. right.
  split; [apply Hd; left; reflexivity|]. apply IH. intros y Hy. apply Hd. right. exact Hy.
Qed.
Lemma next_ok_hit Y tl : next_ok (Some (cn_id Y)) (Y :: tl).
Proof. left. reflexivity. Qed.
Lemma lk_keys ns f c : WF ns f -> In c ns -> lk c = cn_keys c.
Proof.
  intros W Hin. unfold lk. destruct (live c) eqn:L; [reflexivity|]. symmetry. apply (wf_dead _ _ W c Hin L).
Qed.

(** ** The covering node *)

(** what a reader keeps of a key [B] it saw in a node once that key may have been removed (the version of the
    node does not tell) *)
Definition lo_above (B : N) (l : list cnode) : Prop := forall b, In b l -> live b = true -> B < cn_lo b.

Lemma cover_from_app k l1 : forall best l2,
  cover_from k best (l1 ++ l2) = cover_from k (cover_from k best l1) l2.
Proof.
  induction l1 as [|x l1 IH]; intros best l2; cbn [app cover_from]; [reflexivity|].
  destruct (live x && (cn_lo x <=? k)); apply IH.
Qed.

Lemma cover_from_above k l best : lo_above k l -> cover_from k best l = best.
Proof.
  induction l as [|x l IH]; intros H; cbn [cover_from]; [reflexivity|].
  assert (IH' : cover_from k best l = best) by (apply IH; intros b Hb; apply H; right; exact Hb).
  destruct (live x) eqn:Lx; cbn [andb]; [|exact IH'].
  destruct (N.leb_spec (cn_lo x) k) as [Hle|_]; [|exact IH'].
  specialize (H x (or_introl eq_refl) Lx). lia.
Qed.

Lemma cover_from_spec k ns : forall best n,
  cover_from k best ns = Some n ->
  (best = Some n /\ lo_above k ns) \/
  (exists l1 l2, ns = l1 ++ n :: l2 /\ live n = true /\ cn_lo n <= k /\ lo_above k l2).
Proof.
  induction ns as [|x ns IH]; intros best n; cbn [cover_from].
  - intros ->. left. split; [reflexivity|intros ? []].
  - destruct (live x) eqn:Lx; cbn [andb].
    + destruct (N.leb_spec (cn_lo x) k) as [Hle|Hgt].
      * intros H. apply IH in H as [[E Hb]|(l1&l2&->&H1&H2&H3)].
        -- injection E as ->. right. exists [], ns. repeat split; auto.
        -- right. exists (x :: l1), l2. repeat split; auto.
      * intros H. apply IH in H as [[E Hb]|(l1&l2&->&H1&H2&H3)].
        -- left. split; [exact E|]. intros b [<-|Hin] Hl; [exact Hgt|apply Hb; assumption].
        -- right. exists (x :: l1), l2. repeat split; auto.
    + intros H. apply IH in H as [[E Hb]|(l1&l2&->&H1&H2&H3)].
      * left. split; [exact E|]. intros b [<-|Hin] Hl; [congruence|apply Hb; assumption].
      * right. exists (x :: l1), l2. repeat split; auto.
Qed.

Lemma cover_iff k ns n :
  cover k ns = Some n <->
  exists l1 l2, ns = l1 ++ n :: l2 /\ live n = true /\ cn_lo n <= k /\ lo_above k l2.
Proof.
  unfold cover. split.
  - intros H. apply cover_from_spec in H as [[E _]|H]; [discriminate|exact H].
  - intros (l1&l2&->&Ln&Hlo&Hb). rewrite cover_from_app. cbn [cover_from]. rewrite Ln.
    destruct (N.leb_spec (cn_lo n) k) as [_|Hgt]; [|lia]. apply cover_from_above, Hb.
Qed.

Lemma cover_In k ns n : cover k ns = Some n -> In n ns /\ live n = true /\ cn_lo n <= k.
Proof. intros H. apply cover_iff in H as (l1&l2&->&Ln&Hlo&_). split; [apply in_elt|auto]. Qed.

Lemma cover_find ns f l n : WF ns f -> cover l ns = Some n -> find_node (cn_id n) ns = Some n.
Proof. intros W Hc. apply nodup_find; [apply (wf_nodup _ _ W)|apply (cover_In _ _ _ Hc)]. Qed.

Lemma cover_frontier ns f l n k :
  WF ns f -> cover l ns = Some n -> l <= k -> ~ In k (all_keys (before (cn_id n) ns)).
Proof.
  intros W Hc Hlk Hin. pose proof (cover_find _ _ _ _ W Hc) as Hf.
  destruct (cover_In _ _ _ Hc) as (_&Ln&Hlo).
  pose proof (before_below _ _ _ _ _ W Hf Ln Hin). lia.
Qed.

Lemma after_above ns f id c k :
  WF ns f -> find_node id ns = Some c -> In k (cn_keys c) -> live c = true /\ lo_above k (after id ns).
Proof.
  intros W Hf Hk. pose proof (WF_key_live _ _ _ _ W (find_node_in _ _ _ Hf) Hk) as Lc.
  split; [exact Lc|]. intros b Hb Lb. destruct (proj2 (WF_around _ _ _ _ W Hf) b Hb Lc Lb) as [_ Q]. apply Q, Hk.
Qed.

Lemma lo_above_keys ns f id B k : WF ns f -> lo_above B (after id ns) -> In k (all_keys (after id ns)) -> B < k.
Proof.
  intros W Hab Hk. apply in_all_keys in Hk as (b&Hb&Hkb). apply in_lk in Hkb as [Lb Hkb]. specialize (Hab b Hb Lb).
  destruct (wf_ok _ _ W b (in_after _ _ _ Hb)) as [_ Hlo]. specialize (Hlo k Hkb). lia.
Qed.

Lemma cover_after ns f k n : WF ns f -> cover k ns = Some n -> lo_above k (after (cn_id n) ns).
Proof.
  intros W Hc. apply cover_iff in Hc as (l1&l2&E&_&_&Hb). pose proof (wf_nodup _ _ W) as Hnd. rewrite E in Hnd |- *.
  destruct (nodup_mid _ _ _ Hnd) as [N1 _]. rewrite after_mid by auto. exact Hb.
Qed.

(** where the keys of the layer are, seen from the covering node: [k] is present iff that node holds it *)
Lemma cover_present ns f k n :
  WF ns f -> cover k ns = Some n -> mem k (all_keys ns) = mem k (cn_keys n).
Proof.
  intros W Hc. pose proof (cover_find _ _ _ _ W Hc) as Hf. destruct (cover_In _ _ _ Hc) as (_&Ln&Hlo).
  apply Bool.eq_iff_eq_true. rewrite !mem_true, (in_all_keys_at _ _ _ k Hf), (lk_live n Ln). split; [|auto].
  intros [Hk|[Hk|Hk]]; [|exact Hk|].
  - pose proof (before_below _ _ _ _ _ W Hf Ln Hk). lia.
  - pose proof (lo_above_keys _ _ _ _ _ W (cover_after _ _ _ _ W Hc) Hk). lia.
Qed.

(** ... and seen from the last live node (where a right-to-left scan of ChainLimDefs reads) *)
Lemma last_node_keys ns f id c :
  WF ns f -> find_node id ns = Some c -> live c = true -> next_ok None (after id ns) ->
  all_keys ns = all_keys (before id ns) ++ cn_keys c /\
  (forall a, In a (all_keys (before id ns)) -> a < cn_lo c).
Proof.
  intros W Hf Lc Hn. split; [|intros a; exact (before_below _ _ _ _ _ W Hf Lc)].
  rewrite (before_after_split _ _ _ Hf) at 1. rewrite all_keys_app, all_keys_cons.
  rewrite (all_keys_dead _ (proj1 (next_ok_none _) Hn)), app_nil_r, (lk_live c Lc). reflexivity.
Qed.

(** where a scan of the interval up to [r] may end: at a live node that held a key [k0] at or beyond [r], every
    later live node lying above [k0]; or at the last live node *)
Definition ends_at (r : option N) (ns : list cnode) (id : N) : Prop :=
  (exists k0 c, above_r r k0 /\ find_node id ns = Some c /\ live c = true /\ lo_above k0 (after id ns)) \/
  next_ok None (after id ns).

Lemma nothing_after ns f id l r k :
  WF ns f -> ends_at r ns id -> In k (all_keys (after id ns)) -> in_interval l r k = true -> False.
Proof.
  intros W Hcase Hk Hi. destruct Hcase as [(k0&_&Hr&_&_&Hab)|Hnone].
  - pose proof (lo_above_keys _ _ _ _ _ W Hab Hk). pose proof (Hr k (in_interval_le_r _ _ _ Hi)). lia.
  - rewrite all_keys_dead in Hk; [destruct Hk|]. apply next_ok_none, Hnone.
Qed.

(** ** The writers' node updates keep the chain well-formed *)

(** what the writer branches of [cstep] do to a node.  [EIns k], [ERem k]: to the node covering [k] (a remove
    leaves the version alone) *)
Definition ins_f k (x : cnode) := with_keys x (insert_sorted k (cn_keys x)) (bump_ins (cn_ver x)).
Definition rem_f k (x : cnode) := with_keys x (remove_key k (cn_keys x)) (cn_ver x).
(** [ESplit t m]: the node [t] keeps the keys below [m] and points to the new node, which gets the others *)
Definition split_f (m fresh : N) (x : cnode) : cnode :=
  with_next (with_keys x (filter (fun y => y <? m) (cn_keys x)) (bump_split (cn_ver x))) (Some fresh).
Definition split_nw (m fresh : N) (n : cnode) : cnode :=
  {| cn_id := fresh; cn_lo := m; cn_keys := filter (fun x => m <=? x) (cn_keys n);
     cn_next := cn_next n; cn_ver := cver0 |}.
(** [EUnlink u _]: the node [u] is marked deleted, every live node whose next pointer names [u] bypasses it, and,
    when the right neighbour absorbs the range, the next live node takes the lower bound of [u] *)
Definition kill_f (x : cnode) : cnode := with_keys x [] (set_del (cn_ver x)).
Definition redir (u : N) (nu : option N) (x : cnode) : cnode :=
  if live x && opt_id_eqb (cn_next x) u then with_next x nu else x.
Definition lo_f (lo : N) (x : cnode) : cnode := with_lo x lo.

Lemma redir_id u nu x : cn_id (redir u nu x) = cn_id x.
Proof. unfold redir. destruct (_ && _); reflexivity. Qed.
Lemma redir_lo u nu x : cn_lo (redir u nu x) = cn_lo x.
Proof. unfold redir. destruct (_ && _); reflexivity. Qed.
Lemma redir_keys u nu x : cn_keys (redir u nu x) = cn_keys x.
Proof. unfold redir. destruct (_ && _); reflexivity. Qed.
Lemma redir_ver u nu x : cn_ver (redir u nu x) = cn_ver x.
Proof. unfold redir. destruct (_ && _); reflexivity. Qed.
Lemma redir_live u nu x : live (redir u nu x) = live x.
Proof. unfold live. rewrite redir_ver. reflexivity. Qed.
Lemma redir_dead u nu x : live x = false -> redir u nu x = x.
Proof. unfold redir. intros ->. reflexivity. Qed.
Lemma opt_id_eqb_true a id : opt_id_eqb a id = true <-> a = Some id.
Proof.
  destruct a as [x|]; cbn; [|split; discriminate]. rewrite N.eqb_eq. split; [intros ->; reflexivity|].
  intros H. injection H as ->. reflexivity.
Qed.

Lemma next_ok_replace nx l1 n n' l2 :
  cn_id n' = cn_id n -> (live n = false -> live n' = false) ->
  next_ok nx (l1 ++ n :: l2) -> next_ok nx (l1 ++ n' :: l2).
Proof.
  intros Hid Hl. induction l1 as [|x l1 IH]; cbn [app next_ok].
  - rewrite Hid. intros [H|[H1 H2]]; [left; exact H|right; auto].
  - intros [H|[H1 H2]]; [left; exact H|right; auto].
Qed.
Lemma nexts_ok_replace l1 n n' l2 :
  cn_id n' = cn_id n -> (live n = false -> live n' = false) -> cn_next n' = cn_next n ->
  nexts_ok (l1 ++ n :: l2) -> nexts_ok (l1 ++ n' :: l2).
Proof.
  intros Hid Hl Hnx. induction l1 as [|x l1 IH]; cbn [app nexts_ok].
  - rewrite Hnx. auto.
  - intros [H1 H2]. split; [eapply next_ok_replace; eauto|auto].
Qed.

Lemma WF_replace l1 n n' l2 f :
  WF (l1 ++ n :: l2) f ->
  cn_id n' = cn_id n -> cn_next n' = cn_next n -> (live n = false -> live n' = false) ->
  (live n' = false -> cn_keys n' = []) -> node_ok n' ->
  (forall a, In a l1 -> rel a n') -> (forall b, In b l2 -> rel n' b) ->
  WF (l1 ++ n' :: l2) f.
Proof.
  intros [W1 W2 W3 W4 W5 W6] Hid Hnx Hl Hd Hok Ha Hb. constructor.
  - rewrite ids_app in *. cbn in *. rewrite Hid. exact W1.
  - intros x Hx. apply in_app_or in Hx as [Hx|[<-|Hx]].
    + apply W2, in_or_app. left. exact Hx.
    + rewrite Hid. apply W2, in_elt.
    + apply W2, in_or_app. right. right. exact Hx.
  - intros x Hx. apply in_app_or in Hx as [Hx|[<-|Hx]]; [|exact Hd|].
    + apply W3, in_or_app. left. exact Hx.
    + apply W3, in_or_app. right. right. exact Hx.
  - intros x Hx. apply in_app_or in Hx as [Hx|[<-|Hx]]; [|exact Hok|].
    + apply W4, in_or_app. left. exact Hx.
    + apply W4, in_or_app. right. right. exact Hx.
  - apply pairwise_app in W5 as (P1&P2&P3). cbn [pairwise] in P2. destruct P2 as [P2 P4].
    apply pairwise_app. split; [exact P1|]. split; [split; [exact Hb|exact P4]|].
    intros x y Hx [<-|Hy]; [apply Ha, Hx|apply P3; [exact Hx|right; exact Hy]].
  - eapply nexts_ok_replace; eauto.
Qed.

Lemma WF_keys l1 n l2 f ks v :
  WF (l1 ++ n :: l2) f -> cv_del v = cv_del (cn_ver n) -> sorted_strict ks = true ->
  (live n = false -> ks = []) ->
  (forall k, In k ks -> In k (cn_keys n) \/ (cn_lo n <= k /\ lo_above k l2)) ->
  WF (l1 ++ with_keys n ks v :: l2) f.
Proof.
  intros W Hv Hs Hd Hk. destruct (WF_pair _ _ _ _ W) as [Pa Pb].
  destruct (wf_ok _ _ W n (in_elt _ _ _)) as [_ Hlo].
  assert (Ll : live (with_keys n ks v) = live n) by (apply live_same_ver; exact Hv).
  apply (WF_replace _ _ _ _ _ W); try reflexivity; unfold rel; rewrite ?Ll; auto.
  - split; [exact Hs|]. cbn. intros k Hin. destruct (Hk k Hin) as [H|[H _]]; auto.
  - intros b Hb Ln Lb. destruct (Pb b Hb Ln Lb) as [P1 P2]. split; [exact P1|]. cbn.
    intros k Hin. destruct (Hk k Hin) as [H|[_ H]]; auto.
Qed.

Lemma WF_ins ns f k n :
  WF ns f -> cover k ns = Some n -> ~ In k (all_keys ns) -> WF (update_node (cn_id n) (ins_f k) ns) f.
Proof.
  intros W Hc Hk. apply cover_iff in Hc as (l1&l2&->&Hl&Hlo&Hb).
  destruct (nodup_mid _ _ _ (wf_nodup _ _ W)) as [N1 N2]. rewrite update_node_mid by auto.
  apply WF_keys; auto.
  - apply sorted_insert; [apply (wf_ok _ _ W n), in_elt|]. intros Hi. apply Hk, in_all_keys. exists n.
    split; [apply in_elt|]. apply in_lk. auto.
  - congruence.
  - intros x Hx. apply in_insert_sorted in Hx as [->|Hx]; auto.
Qed.

Lemma WF_rem ns f k n :
  WF ns f -> In n ns -> WF (update_node (cn_id n) (rem_f k) ns) f.
Proof.
  intros W Hin. apply in_split in Hin as (l1&l2&->).
  destruct (nodup_mid _ _ _ (wf_nodup _ _ W)) as [N1 N2]. rewrite update_node_mid by auto.
  apply WF_keys; auto.
  - apply sorted_filter, (wf_ok _ _ W n), in_elt.
  - intros Hd. rewrite (wf_dead _ _ W n (in_elt _ _ _) Hd). reflexivity.
  - intros x Hx. apply in_remove_key in Hx. left. apply Hx.
Qed.

Lemma next_ok_split_in nx l1 T T' nw l2 :
  cn_id T' = cn_id T -> live T = true ->
  next_ok nx (l1 ++ T :: l2) -> next_ok nx (l1 ++ T' :: nw :: l2).
Proof.
  intros Hid Hl. induction l1 as [|x l1 IH]; cbn [app next_ok].
  - rewrite Hid. intros [H|[H1 H2]]; [left; exact H|congruence].
  - intros [H|[H1 H2]]; [left; exact H|right; auto].
Qed.

Lemma WF_split l1 T l2 f m :
  WF (l1 ++ T :: l2) f -> live T = true -> In m (cn_keys T) -> (exists x, In x (cn_keys T) /\ x < m) ->
  WF (l1 ++ split_f m f T :: split_nw m f T :: l2) (f + 1).
Proof.
  intros W Hl Hm (x0&Hx0&Hx0m).
  destruct (WF_pair _ _ _ _ W) as [Pa Pb].
  assert (HinT : In T (l1 ++ T :: l2)) by (apply in_elt).
  destruct (wf_ok _ _ W T HinT) as [Hs Hlo].
  assert (HloT : cn_lo T <= m) by (specialize (Hlo x0 Hx0); lia).
  assert (LT' : live (split_f m f T) = true) by exact Hl.
  destruct W as [W1 W2 W3 W4 W5 W6]. constructor.
  - rewrite ids_app in *. cbn [ids map] in *. change (cn_id (split_f m f T)) with (cn_id T).
    change (cn_id (split_nw m f T)) with f.
    replace (ids l1 ++ cn_id T :: f :: map cn_id l2)
      with ((ids l1 ++ [cn_id T]) ++ f :: map cn_id l2) by (rewrite <- app_assoc; reflexivity).
    apply (NoDup_Add (Add_app f _ _)). rewrite <- app_assoc. cbn [app]. split; [exact W1|].
    intros Hin. assert (Hin' : In f (ids (l1 ++ T :: l2))) by (rewrite ids_app; exact Hin).
    unfold ids in Hin'. apply in_map_iff in Hin' as (y&E&Hy). apply W2 in Hy. lia.
  - intros x Hx. apply in_app_or in Hx as [Hx|[<-|[<-|Hx]]].
    + assert (cn_id x < f) by (apply W2, in_or_app; left; exact Hx). lia.
    + change (cn_id (split_f m f T)) with (cn_id T). specialize (W2 T HinT). lia.
    + cbn. lia.
    + assert (cn_id x < f) by (apply W2, in_or_app; right; right; exact Hx). lia.
  - intros x Hx. apply in_app_or in Hx as [Hx|[<-|[<-|Hx]]].
    + apply W3, in_or_app. left. exact Hx.
    + congruence.
    + discriminate.
    + apply W3, in_or_app. right. right. exact Hx.
  - intros x Hx. apply in_app_or in Hx as [Hx|[<-|[<-|Hx]]].
    + apply W4, in_or_app. left. exact Hx.
    + split; cbn; [apply sorted_filter, Hs|]. intros k Hk. apply filter_In in Hk as [Hk _]. auto.
    + split; cbn; [apply sorted_filter, Hs|]. intros k Hk. apply filter_In in Hk as [_ Hk].
      apply N.leb_le in Hk. exact Hk.
    + apply W4, in_or_app. right. right. exact Hx.
  - apply pairwise_app in W5 as (P1&P2&P3). cbn [pairwise] in P2. destruct P2 as [P2 P4].
    apply pairwise_app. split; [exact P1|]. split; [cbn [pairwise]; split; [|split; [|exact P4]]|].
    + intros y [<-|Hy].
      * intros _ _. cbn. split; [exact HloT|]. intros k Hk. apply filter_In in Hk as [_ Hk].
        apply N.ltb_lt in Hk. exact Hk.
      * intros _ Hly. destruct (Pb y Hy Hl Hly) as [Q1 Q2]. split; [exact Q1|]. cbn.
        intros k Hk. apply filter_In in Hk as [Hk _]. auto.
    + intros y Hy _ Hly. destruct (Pb y Hy Hl Hly) as [Q1 Q2]. cbn. split.
      * apply N.lt_le_incl, Q2, Hm.
      * intros k Hk. apply filter_In in Hk as [Hk _]. auto.
    + intros a y Ha [<-|[<-|Hy]].
      * intros La _. destruct (Pa a Ha La Hl) as [Q1 Q2]. split; [exact Q1|exact Q2].
      * intros La _. destruct (Pa a Ha La Hl) as [Q1 Q2]. cbn. split; [lia|].
        intros k Hk. specialize (Q2 k Hk). lia.
      * apply P3; [exact Ha|right; exact Hy].
  - clear - W6 Hl. induction l1 as [|x l1 IH]; cbn [app nexts_ok] in *.
    + destruct W6 as [H1 H2]. split; [left; reflexivity|]. split; [exact H1|exact H2].
    + destruct W6 as [H1 H2]. split; [|apply IH, H2].
      apply (next_ok_split_in _ _ T); [reflexivity|exact Hl|exact H1].
Qed.

Lemma pairwise_rel_map g l :
  (forall x, live (g x) = live x /\ cn_lo (g x) = cn_lo x /\ cn_keys (g x) = cn_keys x) ->
  pairwise rel l -> pairwise rel (map g l).
Proof.
  intros Hg. induction l as [|x l IH]; cbn [map pairwise]; [auto|]. intros [H1 H2]. split; [|auto].
  intros y Hy. apply in_map_iff in Hy as (y0&<-&Hy0). specialize (H1 y0 Hy0).
  destruct (Hg x) as (A1&A2&A3). destruct (Hg y0) as (B1&B2&B3).
  unfold rel in *. rewrite A1, A2, A3, B1, B2. exact H1.
Qed.

Lemma next_ok_skip u nu tl :
  next_ok (Some u) tl -> nexts_ok tl ->
  (forall Y, In Y tl -> cn_id Y = u -> live Y = false /\ cn_next Y = nu) -> next_ok nu tl.
Proof.
  induction tl as [|Y tl IH]; cbn [next_ok nexts_ok]; [discriminate|].
  intros [H|[H1 H2]] [N1 N2] HU.
  - injection H as H. destruct (HU Y (or_introl eq_refl) (eq_sym H)) as [D E]. right. split; [exact D|].
    rewrite <- E. exact N1.
  - right. split; [exact H1|]. apply IH; auto. intros Z HZ. apply HU. right. exact HZ.
Qed.

Lemma nexts_ok_redir u nu l :
  nexts_ok l -> (forall Y, In Y l -> cn_id Y = u -> live Y = false /\ cn_next Y = nu) ->
  nexts_ok (map (redir u nu) l).
Proof.
  induction l as [|X tl IH]; cbn [map nexts_ok]; [auto|]. intros [H1 H2] HU.
  assert (HU' : forall Y, In Y tl -> cn_id Y = u -> live Y = false /\ cn_next Y = nu)
    by (intros Z HZ; apply HU; right; exact HZ).
  split; [|apply IH; assumption].
  apply next_ok_map; [apply redir_id|intros x _ Hx; rewrite redir_live; exact Hx|].
  unfold redir. destruct (live X && opt_id_eqb (cn_next X) u) eqn:C; [|exact H1].
  cbn [with_next cn_next]. apply andb_true_iff in C as [_ C]. apply opt_id_eqb_true in C.
  rewrite C in H1. eapply next_ok_skip; eauto.
Qed.

Lemma WF_redir ms f u U' :
  WF ms f -> find_node u ms = Some U' -> live U' = false -> WF (map (redir u (cn_next U')) ms) f.
Proof.
  intros W Hf Hd. pose proof (wf_nodup _ _ W) as Hnd. destruct W as [W1 W2 W3 W4 W5 W6]. constructor.
  - rewrite ids_map by apply redir_id. exact W1.
  - intros x Hx. apply in_map_iff in Hx as (y&<-&Hy). rewrite redir_id. auto.
  - intros x Hx. apply in_map_iff in Hx as (y&<-&Hy). rewrite redir_live, redir_keys. auto.
  - intros x Hx. apply in_map_iff in Hx as (y&<-&Hy). unfold node_ok. rewrite redir_keys, redir_lo.
    apply W4, Hy.
  - apply pairwise_rel_map; [|exact W5]. intros x. rewrite redir_live, redir_lo, redir_keys. auto.
  - apply nexts_ok_redir; [exact W6|]. intros Y HY E. rewrite <- E in Hf.
    rewrite (nodup_find _ _ Hnd HY) in Hf. injection Hf as ->. auto.
Qed.

Lemma WF_kill l1 U l2 f :
  WF (l1 ++ U :: l2) f -> WF (l1 ++ kill_f U :: l2) f.
Proof.
  intros W. apply (WF_replace _ _ _ _ _ W); try reflexivity.
  - split; cbn; [reflexivity|intros ? []].
  - intros a _. apply rel_dead_r. reflexivity.
  - intros b _. apply rel_dead_l. reflexivity.
Qed.

Lemma WF_kill_absorb l1 U d NX l3 f :
  WF (l1 ++ U :: d ++ NX :: l3) f -> live U = true -> live NX = true ->
  (forall x, In x d -> live x = false) ->
  WF (l1 ++ kill_f U :: d ++ lo_f (cn_lo U) NX :: l3) f.
Proof.
  intros W LU LN Hd. pose proof (WF_kill _ _ _ _ W) as W'.
  destruct (WF_pair _ _ _ _ W) as [Pa Pb].
  assert (HNX : In NX (d ++ NX :: l3)) by (apply in_elt).
  destruct (Pb NX HNX LU LN) as [Q1 Q2].
  rewrite (app_cons_assoc l1 U d) in W.
  destruct (WF_pair _ _ _ _ W) as [Pa' Pb'].
  assert (Hok : node_ok NX) by (apply (wf_ok _ _ W), in_elt).
  assert (Hdd : live NX = false -> cn_keys NX = [])
    by (apply (wf_dead _ _ W), in_elt).
  rewrite (app_cons_assoc l1 (kill_f U) d) in W' |- *.
  apply (WF_replace _ _ _ _ _ W'); try reflexivity; auto.
  - destruct Hok as [H1 H2]. split; [exact H1|]. cbn. intros k Hk. specialize (H2 k Hk). lia.
  - intros a Ha. apply in_app_or in Ha as [Ha|[<-|Ha]].
    + intros La _. destruct (Pa a Ha La LU) as [R1 R2]. cbn. split; assumption.
    + apply rel_dead_l. reflexivity.
    + apply rel_dead_l. auto.
  - intros b Hb _ Lb. destruct (Pb' b Hb LN Lb) as [R1 R2]. cbn. split; [lia|exact R2].
Qed.

Lemma kill_redir U u : kill_f (redir u (cn_next U) U) = redir u (cn_next U) (kill_f U).
Proof.
  rewrite (redir_dead _ _ (kill_f U)) by reflexivity.
  unfold redir. destruct (_ && _); reflexivity.
Qed.

Lemma WF_unlink l1 U l2 f u :
  ~ In u (ids l1) -> cn_id U = u -> WF (l1 ++ kill_f U :: l2) f ->
  WF (update_node u kill_f (map (redir u (cn_next U)) (l1 ++ U :: l2))) f.
Proof.
  intros Hn Hid W. rewrite map_app. cbn [map]. rewrite update_node_mid;
    [|rewrite ids_map by apply redir_id; exact Hn|rewrite redir_id; exact Hid].
  rewrite kill_redir.
  assert (Hf : find_node u (l1 ++ kill_f U :: l2) = Some (kill_f U)) by (apply find_node_mid; auto).
  pose proof (WF_redir _ _ _ _ W Hf eq_refl) as W'. rewrite map_app in W'. exact W'.
Qed.

Lemma WF_unlink_left ns f u U :
  WF ns f -> find_node u ns = Some U ->
  WF (update_node u kill_f (map (redir u (cn_next U)) ns)) f.
Proof.
  intros W Hf. destruct (find_node_split _ _ _ Hf) as (l1&l2&->&Hn&Hid).
  apply WF_unlink; auto. apply WF_kill, W.
Qed.

Lemma WF_unlink_right ns f u U NX :
  WF ns f -> find_node u ns = Some U -> live U = true -> first_live (after u ns) = Some NX ->
  WF (update_node u kill_f (map (redir u (cn_next U)) (update_node (cn_id NX) (lo_f (cn_lo U)) ns))) f.
Proof.
  intros W Hf LU Hfl. destruct (find_node_split _ _ _ Hf) as (l1&l2&->&Hn&Hid).
  rewrite after_mid in Hfl by auto. destruct (first_live_split _ _ Hfl) as (d&l3&->&Hd&LN).
  assert (E1 : update_node (cn_id NX) (lo_f (cn_lo U)) (l1 ++ U :: d ++ NX :: l3)
               = l1 ++ U :: d ++ lo_f (cn_lo U) NX :: l3).
  { pose proof (wf_nodup _ _ W) as Hnd. rewrite (app_cons_assoc l1 U d) in *.
    destruct (nodup_mid _ _ _ Hnd) as [N1 _]. rewrite update_node_mid by auto.
    rewrite <- app_assoc. reflexivity. }
  rewrite E1. apply WF_unlink; auto. apply WF_kill_absorb; assumption.
Qed.

(** ** The writer transition
    The lookup of ChainGetDefs and the scans of ChainLimDefs run their writers through [cstep true], so through
    [wstep] as well; their [is_writer] and [lwriter] are [writer] (convertible). *)
Definition writer (e : cev) : bool :=
  match e with EIns _ | ERem _ | ESplit _ _ | EUnlink _ _ => true | _ => false end.

Definition wstep (ns : list cnode) (fresh : N) (e : cev) : option (list cnode * N) :=
  match e with
  | EIns k =>
      if mem k (all_keys ns) then None else
      match cover k ns with
      | Some n => Some (update_node (cn_id n) (ins_f k) ns, fresh)
      | None => None
      end
  | ERem k =>
      if negb (mem k (all_keys ns)) then None else
      match cover k ns with
      | Some n => Some (update_node (cn_id n) (rem_f k) ns, fresh)
      | None => None
      end
  | ESplit t m =>
      match find_node t ns with
      | Some T =>
          if live T && mem m (cn_keys T) && existsb (fun x => x <? m) (cn_keys T)
          then Some (insert_after t (split_nw m fresh T) (update_node t (split_f m fresh) ns), fresh + 1)
          else None
      | None => None
      end
  | EUnlink u absorb_right =>
      match find_node u ns with
      | Some U =>
          if live U && (match cn_keys U with [] => true | _ => false end) then
            if absorb_right then
              match first_live (after u ns) with
              | Some NX => Some (update_node u kill_f (map (redir u (cn_next U))
                                   (update_node (cn_id NX) (lo_f (cn_lo U)) ns)), fresh)
              | None => None
              end
            else if has_live (before u ns)
                 then Some (update_node u kill_f (map (redir u (cn_next U)) ns), fresh)
                 else None
          else None
      | None => None
      end
  | _ => None
  end.

Definition stable_after (e : cev) (st : list N) : list N :=
  match e with ERem k => remove_key k st | _ => st end.
Definition ever_after (e : cev) (scan : bool) (ev : list N) : list N :=
  match e with EIns k => if scan then k :: ev else ev | _ => ev end.

Lemma cstep_writer fx s e :
  writer e = true ->
  cstep fx s e =
  match wstep (c_nodes s) (c_fresh s) e with
  | Some (ns', f') => Some {| c_nodes := ns'; c_fresh := f'; c_scan := c_scan s;
                              c_stable := stable_after e (c_stable s);
                              c_ever := ever_after e (scanning (c_scan s)) (c_ever s) |}
  | None => None
  end.
Proof.
  destruct e; try discriminate; intros _; cbn [cstep wstep stable_after ever_after].
  - destruct (mem _ _); [reflexivity|]. destruct (cover _ _); reflexivity.
  - destruct (mem _ _); [|reflexivity]. cbn [negb]. destruct (cover _ _); reflexivity.
  - destruct (find_node _ _); [|reflexivity]. destruct (_ && _ && _); reflexivity.
  - destruct (find_node _ _); [|reflexivity]. destruct (live _ && _); [|reflexivity].
    destruct absorb_right; [destruct (first_live _)|destruct (has_live _)]; reflexivity.
Qed.

Lemma in_stable_after e st k : In k (stable_after e st) <-> In k st /\ e <> ERem k.
Proof.
  destruct e; cbn [stable_after]; try (split; [intros H; split; [exact H|discriminate]|tauto]).
  rewrite in_remove_key. split; intros [H1 H2]; (split; [exact H1|congruence]).
Qed.
Lemma in_ever_after e scan ev k : In k (ever_after e scan ev) <-> In k ev \/ (scan = true /\ e = EIns k).
Proof.
  destruct e; cbn [ever_after]; try (split; [tauto|intros [H|[_ H]]; [exact H|discriminate]]).
  destruct scan; cbn [In]; split; intros H.
  - destruct H as [<-|H]; auto.
  - destruct H as [H|[_ H]]; [right; exact H|left; congruence].
  - auto.
  - destruct H as [H|[H _]]; [exact H|discriminate].
Qed.

Lemma wstep_ins ns f k r :
  wstep ns f (EIns k) = Some r ->
  exists n, ~ In k (all_keys ns) /\ cover k ns = Some n /\ r = (update_node (cn_id n) (ins_f k) ns, f).
Proof.
  cbn [wstep]. destruct (mem k (all_keys ns)) eqn:M; [discriminate|].
  destruct (cover k ns) as [n|]; [|discriminate]. intros H. injection H as <-.
  exists n. apply mem_false in M. auto.
Qed.
Lemma wstep_rem ns f k r :
  wstep ns f (ERem k) = Some r ->
  exists n, In k (all_keys ns) /\ cover k ns = Some n /\ r = (update_node (cn_id n) (rem_f k) ns, f).
Proof.
  cbn [wstep]. destruct (mem k (all_keys ns)) eqn:M; [|discriminate]. cbn [negb].
  destruct (cover k ns) as [n|]; [|discriminate]. intros H. injection H as <-.
  exists n. apply mem_true in M. auto.
Qed.
Lemma wstep_split ns f t m r :
  wstep ns f (ESplit t m) = Some r ->
  exists T, find_node t ns = Some T /\ live T = true /\ In m (cn_keys T) /\
    (exists x, In x (cn_keys T) /\ x < m) /\
    r = (insert_after t (split_nw m f T) (update_node t (split_f m f) ns), f + 1).
Proof.
  cbn [wstep]. destruct (find_node t ns) as [T|]; [|discriminate].
  destruct (live T && mem m (cn_keys T) && existsb (fun x => x <? m) (cn_keys T)) eqn:C; [|discriminate].
  apply andb_true_iff in C as [C C3]. apply andb_true_iff in C as [C1 C2].
  intros H. injection H as <-. exists T. apply mem_true in C2. apply existsb_exists in C3 as (x&Hx&Hxm).
  apply N.ltb_lt in Hxm. repeat split; eauto.
Qed.
Lemma wstep_unlink ns f u ar r :
  wstep ns f (EUnlink u ar) = Some r ->
  exists U, find_node u ns = Some U /\ live U = true /\ cn_keys U = [] /\
    ((ar = true /\ exists NX, first_live (after u ns) = Some NX /\
       r = (update_node u kill_f (map (redir u (cn_next U)) (update_node (cn_id NX) (lo_f (cn_lo U)) ns)), f)) \/
     (ar = false /\ has_live (before u ns) = true /\
       r = (update_node u kill_f (map (redir u (cn_next U)) ns), f))).
Proof.
  cbn [wstep]. destruct (find_node u ns) as [U|]; [|discriminate].
  destruct (live U) eqn:LU; [|discriminate]. cbn [andb].
  destruct (cn_keys U) as [|? ?] eqn:K; [|discriminate].
  destruct ar.
  - destruct (first_live (after u ns)) as [NX|] eqn:FL; [|discriminate].
    intros H. injection H as <-. exists U. repeat split; auto. left. split; [reflexivity|]. exists NX. auto.
  - destruct (has_live (before u ns)) eqn:HL; [|discriminate].
    intros H. injection H as <-. exists U. repeat split; auto.
Qed.

Lemma WF_wstep ns f e ns' f' : WF ns f -> wstep ns f e = Some (ns', f') -> WF ns' f'.
Proof.
  intros W H. destruct e; try discriminate.
  - apply wstep_ins in H as (n&Hk&Hc&E). injection E as -> ->. apply WF_ins; assumption.
  - apply wstep_rem in H as (n&Hk&Hc&E). injection E as -> ->. apply WF_rem; [assumption|].
    apply (cover_In _ _ _ Hc).
  - apply wstep_split in H as (T&Hf&LT&Hm&Hx&E). injection E as -> ->.
    destruct (find_node_split _ _ _ Hf) as (l1&l2&->&Hn&Hid).
    rewrite update_node_mid by auto. rewrite insert_after_mid by auto.
    apply WF_split; assumption.
  - apply wstep_unlink in H as (U&Hf&LU&HK&[(_&NX&Hfl&E)|(_&_&E)]); injection E as -> ->.
    + apply WF_unlink_right; assumption.
    + apply WF_unlink_left; assumption.
Qed.

(** ** The writer steps as id-preserving maps
    [g] maps each node to what the step makes of it; [gain] bounds the keys that may appear in a node, [lost] those
    that may leave it (removed, or moved to the new node of a split) *)
Record wmap (ns : list cnode) (g : cnode -> cnode) (gain lost : N -> Prop) : Prop := {
  wm_id : forall x, cn_id (g x) = cn_id x;
  wm_dead : forall x, In x ns -> live x = false -> g x = x;
  wm_vle : forall x, In x ns -> vle (cn_ver x) (cn_ver (g x));
  (* an unchanged version only excludes inserts, splits and the unlink: keys may have been removed *)
  wm_same : forall x, In x ns -> cn_ver (g x) = cn_ver x -> forall k, In k (cn_keys (g x)) -> In k (cn_keys x);
  wm_lo : forall x, In x ns -> cn_lo (g x) <= cn_lo x;
  (* a lower bound only moves when the node absorbs the range of the live node unlinked right before it *)
  wm_lo_up : forall x, In x ns -> live (g x) = true ->
            cn_lo (g x) = cn_lo x \/
            exists u U, find_node u ns = Some U /\ live U = true /\ live (g U) = false /\
                        cn_lo (g x) = cn_lo U /\ first_live (after u ns) = Some x;
  wm_keys : forall x, In x ns -> forall k, In k (lk (g x)) -> In k (lk x) \/ gain k;
  wm_keep : forall x, In x ns -> forall k, In k (lk x) -> In k (lk (g x)) \/ lost k;
  (* for the lookup of ChainGetProofs, which must find a border at every restart: the range of an unlinked node
     goes to a live node *)
  wm_heir : forall x, In x ns -> live x = true -> live (g x) = false ->
           exists y, In y ns /\ live (g y) = true /\ cn_lo (g y) <= cn_lo x }.

Lemma upd_id id f x : (forall y, cn_id (f y) = cn_id y) -> cn_id (upd id f x) = cn_id x.
Proof. intros H. unfold upd. destruct (_ =? _); auto. Qed.

Lemma wmap_upd ns f0 n f gain lost :
  WF ns f0 -> In n ns -> live n = true ->
  (forall y, cn_id (f y) = cn_id y) -> live (f n) = true -> cn_lo (f n) = cn_lo n ->
  vle (cn_ver n) (cn_ver (f n)) ->
  (cn_ver (f n) = cn_ver n -> forall k, In k (cn_keys (f n)) -> In k (cn_keys n)) ->
  (forall k, In k (cn_keys (f n)) -> In k (cn_keys n) \/ gain k) ->
  (forall k, In k (cn_keys n) -> In k (cn_keys (f n)) \/ lost k) ->
  wmap ns (upd (cn_id n) f) gain lost.
Proof.
  intros W Hin Ln Fid Fl Flo Fv Fsame Fkeys Fkeep.
  assert (Hu : forall x, In x ns -> cn_id x = cn_id n -> x = n)
    by (intros x Hx; apply (nodup_uniq _ _ _ (wf_nodup _ _ W) Hx Hin)).
  constructor; intros x; unfold upd; [destruct (_ =? _); auto|..]; intros Hx;
    (destruct (N.eqb_spec (cn_id x) (cn_id n)) as [Ex|_]; [rewrite (Hu x Hx Ex)|]).
  - congruence.
  - reflexivity.
  - exact Fv.
  - apply vle_refl.
  - exact Fsame.
  - auto.
  - lia.
  - lia.
  - auto.
  - auto.
  - intros k. rewrite !in_lk, Fl, Ln. intros [_ Hk]. destruct (Fkeys k Hk); auto.
  - auto.
  - intros k. rewrite !in_lk, Fl, Ln. intros [_ Hk]. destruct (Fkeep k Hk); auto.
  - auto.
  - congruence.
  - congruence.
Qed.

Lemma wmap_ins ns f k n (gain : N -> Prop) :
  WF ns f -> cover k ns = Some n -> gain k -> wmap ns (upd (cn_id n) (ins_f k)) gain (fun _ => False).
Proof.
  intros W Hc Hg. destruct (cover_In _ _ _ Hc) as (Hin&Ln&_).
  apply (wmap_upd ns f n); auto; cbn.
  - apply vle_bump_ins.
  - intros H. destruct (bump_ins_neq _ H).
  - intros k' Hk'. apply in_insert_sorted in Hk' as [->|Hk']; auto.
  - intros k' Hk'. left. apply in_insert_sorted. auto.
Qed.

Lemma wmap_rem ns f k n (gain lost : N -> Prop) :
  WF ns f -> In n ns -> live n = true -> lost k -> wmap ns (upd (cn_id n) (rem_f k)) gain lost.
Proof.
  intros W Hin Ln Hl. apply (wmap_upd ns f n); auto; cbn.
  - apply vle_refl.
  - intros _ k' Hk'. apply in_remove_key in Hk'. apply Hk'.
  - intros k' Hk'. apply in_remove_key in Hk'. left. apply Hk'.
  - intros k' Hk'. destruct (N.eq_dec k' k) as [->|Hne]; [right; exact Hl|left]. apply in_remove_key. auto.
Qed.

Lemma wmap_split ns f T m gain :
  WF ns f -> In T ns -> live T = true ->
  wmap ns (upd (cn_id T) (split_f m f)) gain (fun k => In k (lk (split_nw m f T))).
Proof.
  intros W Hin Ln. apply (wmap_upd ns f T); auto; cbn.
  - apply vle_bump_split.
  - intros H. destruct (bump_split_neq _ H).
  - intros k' Hk'. apply filter_In in Hk'. left. apply Hk'.
  - intros k' Hk'. rewrite !filter_In, N.ltb_lt, N.leb_le.
    destruct (N.lt_ge_cases k' m); [left|right]; auto.
Qed.

(** what an unlink of [u] makes of a node; [L] is the update of the lower bound of the node that absorbs the range
    ([lo_f] at the next live node), the identity when the left neighbour absorbs it: its own bound stays *)
Definition unl_g (u : N) (nu : option N) (L : cnode -> cnode) (x : cnode) : cnode :=
  upd u kill_f (redir u nu (L x)).

Lemma wmap_unlink ns f u U nu L gain lost :
  WF ns f -> find_node u ns = Some U -> live U = true -> cn_keys U = [] ->
  (forall x, cn_id (L x) = cn_id x /\ cn_ver (L x) = cn_ver x /\ cn_keys (L x) = cn_keys x) ->
  (forall x, In x ns -> live x = false -> L x = x) ->
  (forall x, In x ns -> cn_lo (L x) <= cn_lo x) ->
  (forall x, In x ns -> cn_lo (L x) = cn_lo x \/ (cn_lo (L x) = cn_lo U /\ first_live (after u ns) = Some x)) ->
  (exists y, In y ns /\ cn_id y <> u /\ live y = true /\ cn_lo (L y) <= cn_lo U) ->
  wmap ns (unl_g u nu L) gain lost.
Proof.
  intros W Hf LU KU HL HLd HLlo HLup (y&Hy&Hyu&Ly&Hylo).
  pose proof (find_node_in _ _ _ Hf) as Hin. pose proof (find_node_id _ _ _ Hf) as Hid. subst u.
  assert (Hu : forall x, In x ns -> cn_id x = cn_id U -> x = U)
    by (intros x Hx Ex; exact (nodup_uniq _ _ _ (wf_nodup _ _ W) Hx Hin Ex)).
  assert (Hlive : forall x, live (redir (cn_id U) nu (L x)) = live x).
  { intros x. rewrite redir_live. apply live_same_ver. destruct (HL x) as (_&->&_). reflexivity. }
  constructor; intros x; unfold unl_g, upd; rewrite ?redir_id; destruct (HL x) as (L1&L2&L3); rewrite ?L1.
  - destruct (_ =? _); cbn; rewrite ?redir_id; auto.
  - intros Hx Hd. destruct (N.eqb_spec (cn_id x) (cn_id U)) as [Ex|].
    + rewrite (Hu x Hx Ex) in Hd. congruence.
    + rewrite (HLd x Hx Hd). apply redir_dead, Hd.
  - intros _. destruct (_ =? _); cbn; rewrite redir_ver, L2; [apply vle_set_del|apply vle_refl].
  - intros Hx. destruct (N.eqb_spec (cn_id x) (cn_id U)) as [Ex|].
    + cbn. rewrite redir_ver, L2. rewrite (Hu x Hx Ex). intros H. apply (f_equal cv_del) in H. cbn in H.
      apply live_true in LU. congruence.
    + intros _ k. rewrite redir_keys, L3. auto.
  - intros Hx. destruct (_ =? _); cbn; rewrite redir_lo; auto.
  - intros Hx. destruct (N.eqb_spec (cn_id x) (cn_id U)) as [Ex|Ex].
    + cbn. discriminate.
    + rewrite redir_lo. intros _. destruct (HLup x Hx) as [E|[E1 E2]]; [left; exact E|right].
      exists (cn_id U), U. split; [exact Hf|]. split; [exact LU|]. split; [|split; assumption].
      unfold unl_g, upd. rewrite redir_id. destruct (HL U) as (LU1&_&_). rewrite LU1, N.eqb_refl. reflexivity.
  - intros Hx k. destruct (N.eqb_spec (cn_id x) (cn_id U)) as [Ex|].
    + rewrite in_lk. cbn. intros [_ []].
    + rewrite !in_lk, Hlive, redir_keys, L3. auto.
  - intros Hx k. destruct (N.eqb_spec (cn_id x) (cn_id U)) as [Ex|].
    + rewrite (Hu x Hx Ex). rewrite in_lk, KU. intros [_ []].
    + rewrite !in_lk, Hlive, redir_keys, L3. auto.
  - intros Hx Lx. destruct (N.eqb_spec (cn_id x) (cn_id U)) as [Ex|]; [|rewrite Hlive; congruence].
    intros _. exists y. split; [exact Hy|]. rewrite (Hu x Hx Ex). unfold unl_g, upd. rewrite redir_id.
    destruct (HL y) as (Y1&_&_). rewrite Y1. destruct (N.eqb_spec (cn_id y) (cn_id U)); [contradiction|].
    rewrite Hlive, redir_lo. auto.
Qed.

Lemma unlink_left_map ns u nu :
  NoDup (ids ns) ->
  update_node u kill_f (map (redir u nu) ns) = map (unl_g u nu (fun x => x)) ns.
Proof.
  intros Hnd. rewrite update_node_map by (rewrite ids_map by apply redir_id; exact Hnd).
  rewrite map_map. reflexivity.
Qed.
Lemma unlink_right_map ns u nu nx lo :
  NoDup (ids ns) ->
  update_node u kill_f (map (redir u nu) (update_node nx (lo_f lo) ns))
  = map (unl_g u nu (upd nx (lo_f lo))) ns.
Proof.
  intros Hnd. rewrite (update_node_map nx) by exact Hnd.
  rewrite update_node_map.
  - rewrite !map_map. reflexivity.
  - rewrite ids_map by apply redir_id. rewrite ids_map; [exact Hnd|].
    intros x. apply upd_id. reflexivity.
Qed.

(** what [wmap_unlink] asks of [L], when the next live node [NX] absorbs the range *)
Lemma L_right_facts ns f u U NX :
  WF ns f -> find_node u ns = Some U -> live U = true -> first_live (after u ns) = Some NX ->
  let L := upd (cn_id NX) (lo_f (cn_lo U)) in
  (forall x, cn_id (L x) = cn_id x /\ cn_ver (L x) = cn_ver x /\ cn_keys (L x) = cn_keys x) /\
  (forall x, In x ns -> live x = false -> L x = x) /\
  (forall x, In x ns -> cn_lo (L x) <= cn_lo x) /\
  (forall x, In x ns -> cn_lo (L x) = cn_lo x \/ (cn_lo (L x) = cn_lo U /\ first_live (after u ns) = Some x)) /\
  (exists y, In y ns /\ cn_id y <> u /\ live y = true /\ cn_lo (L y) <= cn_lo U).
Proof.
  intros W Hf LU Hfl L. pose proof Hfl as Hfl0. destruct (find_node_split _ _ _ Hf) as (l1&l2&E&Hn&Hid).
  rewrite E, after_mid in Hfl by auto. destruct (first_live_split _ _ Hfl) as (d&l3&E2&Hd&LN).
  assert (HinN : In NX ns).
  { rewrite E, E2. apply in_or_app. right. right. apply in_elt. }
  assert (Hlo : cn_lo U <= cn_lo NX).
  { rewrite E in W. destruct (WF_pair _ _ _ _ W) as [_ Pb].
    apply (Pb NX); auto. rewrite E2. apply in_elt. }
  subst L. unfold upd. split; [|split; [|split; [|split]]]; [intros x..|].
  - destruct (_ =? _); auto.
  - intros Hx Hdx. destruct (N.eqb_spec (cn_id x) (cn_id NX)) as [Ex|]; [|reflexivity].
    rewrite (nodup_uniq _ _ _ (wf_nodup _ _ W) Hx HinN Ex) in Hdx. congruence.
  - intros Hx. destruct (N.eqb_spec (cn_id x) (cn_id NX)) as [Ex|]; [|lia].
    rewrite (nodup_uniq _ _ _ (wf_nodup _ _ W) Hx HinN Ex). cbn. exact Hlo.
  - intros Hx. destruct (N.eqb_spec (cn_id x) (cn_id NX)) as [Ex|]; [right|left; reflexivity].
    rewrite (nodup_uniq _ _ _ (wf_nodup _ _ W) Hx HinN Ex). cbn. split; [reflexivity|exact Hfl0].
  - exists NX. rewrite N.eqb_refl. cbn. repeat split; auto; [|lia].
    pose proof (wf_nodup _ _ W) as Hnd. rewrite E in Hnd. destruct (nodup_mid _ _ _ Hnd) as [_ N2].
    intros EN. apply N2. rewrite Hid, <- EN, E2. apply in_map, in_elt.
Qed.

(** the split case of [wshape]: [T] is split and stays live, the new node [nw] goes right after it, has the fresh
    id, a lower bound at or above that of [T], and holds keys of [T] only: all those that [T] loses *)
Record wsplit {ns : list cnode} {f : N} {g : cnode -> cnode} {lost : N -> Prop} {t : N} {T nw : cnode} : Prop := {
  ws_find : find_node t ns = Some T;
  ws_live : live T = true;
  ws_bump : cv_split (cn_ver T) < cv_split (cn_ver (g T));
  ws_glive : live (g T) = true;
  ws_id : cn_id nw = f;
  ws_lo : cn_lo T <= cn_lo nw;
  ws_lost : forall k, lost k -> In k (lk nw);
  ws_sub : forall k, In k (lk nw) -> In k (lk T) }.
Arguments wsplit : clear implicits.

(** the new node list is the image of the old one under [g], with the new node inserted if the step is a split *)
Definition wshape (ns : list cnode) (f : N) (e : cev) (ns' : list cnode) (g : cnode -> cnode)
                  (lost : N -> Prop) : Prop :=
  (ns' = map g ns /\ forall k, lost k -> e = ERem k) \/
  (exists t T nw, wsplit ns f g lost t T nw /\ ns' = insert_after t nw (map g ns)).

Lemma wstep_shape ns f e ns' f' :
  WF ns f -> wstep ns f e = Some (ns', f') ->
  exists g lost, wmap ns g (fun k => e = EIns k) lost /\ wshape ns f e ns' g lost /\
    forall k, e = EIns k -> ~ In k (all_keys ns) /\ In k (all_keys ns').
Proof.
  intros W H. pose proof (wf_nodup _ _ W) as Hnd. destruct e; try discriminate.
  - apply wstep_ins in H as (n&Hk&Hc&E). injection E as -> ->. destruct (cover_In _ _ _ Hc) as (Hin&Ln&_).
    exists (upd (cn_id n) (ins_f k)), (fun _ => False).
    split; [eapply wmap_ins; eauto|]. rewrite update_node_map by exact Hnd.
    split; [left; split; [reflexivity|intros ? []]|].
    intros k' E. injection E as <-. split; [exact Hk|]. apply in_all_keys.
    exists (upd (cn_id n) (ins_f k) n). split; [apply in_map, Hin|].
    unfold upd. rewrite N.eqb_refl. apply in_lk. split; [exact Ln|]. apply in_insert_sorted. auto.
  - apply wstep_rem in H as (n&Hk&Hc&E). injection E as -> ->. destruct (cover_In _ _ _ Hc) as (Hin&Ln&_).
    exists (upd (cn_id n) (rem_f k)), (fun k' => ERem k = ERem k').
    split; [eapply wmap_rem; eauto|]. rewrite update_node_map by exact Hnd.
    split; [left; split; [reflexivity|auto]|discriminate].
  - apply wstep_split in H as (T&Hf&LT&Hm&Hx&E). injection E as -> ->.
    pose proof (find_node_in _ _ _ Hf) as Hin. pose proof (find_node_id _ _ _ Hf) as Hid. subst id.
    exists (upd (cn_id T) (split_f m f)), (fun k => In k (lk (split_nw m f T))).
    split; [eapply wmap_split; eauto|]. split; [|discriminate].
    right. exists (cn_id T), T, (split_nw m f T). rewrite update_node_map by exact Hnd. split; [|reflexivity].
    constructor; unfold upd; rewrite ?N.eqb_refl; auto.
    + cbn. lia.
    + apply (wf_ok _ _ W T Hin), Hm.
    + intros k. rewrite !in_lk. cbn. intros [_ Hk]. apply filter_In in Hk as [Hk _]. auto.
  - apply wstep_unlink in H as (U&Hf&LU&HK&[(_&NX&Hfl&E)|(_&Hbef&E)]); injection E as -> ->.
    + destruct (L_right_facts _ _ _ _ _ W Hf LU Hfl) as (A1&A2&A3&A4&A5).
      exists (unl_g id (cn_next U) (upd (cn_id NX) (lo_f (cn_lo U)))), (fun _ => False).
      split; [eapply wmap_unlink; eauto|]. split; [|discriminate].
      left. split; [apply unlink_right_map, Hnd|intros ? []].
    + exists (unl_g id (cn_next U) (fun x => x)), (fun _ => False).
      assert (Hheir : exists y, In y ns /\ cn_id y <> id /\ live y = true /\ cn_lo y <= cn_lo U).
      { apply existsb_exists in Hbef as (a&Ha&La). exists a. split; [apply (in_before _ _ _ Ha)|].
        split; [intros Ea; apply (before_not_in id ns); rewrite <- Ea at 1; apply in_map, Ha|]. split; [exact La|].
        apply (proj1 (WF_around _ _ _ _ W Hf) a Ha La LU). }
      split; [eapply wmap_unlink; eauto; intros; solve [lia|left; reflexivity]|]. split; [|discriminate].
      left. split; [apply unlink_left_map, Hnd|intros ? []].
Qed.

(** ** What a writer step does to the node list: find, after, lo_above, keys *)

(** if the heir [x] of the unlinked node [U] lies after the live node [n], so does [U]: the range that [x] takes over
    was already after [n] *)
Lemma after_first_live_pos ns id n u U x :
  NoDup (ids ns) -> find_node id ns = Some n -> live n = true -> find_node u ns = Some U -> id <> u ->
  first_live (after u ns) = Some x -> In x (after id ns) -> In U (after id ns).
Proof.
  intros Hnd Hf Ln HfU Hne Hfl Hx.
  destruct (find_node_split _ _ _ Hf) as (l1&l2&E&Hn&Hid).
  pose proof (find_node_in _ _ _ HfU) as HinU. pose proof (find_node_id _ _ _ HfU) as HidU.
  subst ns. rewrite after_mid in Hx by assumption. rewrite after_mid by assumption.
  assert (Hnd2 : NoDup (ids ((l1 ++ [n]) ++ l2))) by (rewrite <- app_assoc; exact Hnd).
  apply in_app_or in HinU as [HinU|[EU|HinU]];
    [|exfalso; apply Hne; rewrite <- Hid, <- HidU, EU; reflexivity|exact HinU].
  exfalso. apply in_split in HinU as (a&b&->).
  assert (N1 : ~ In u (ids a)).
  { rewrite <- app_assoc in Hnd. cbn [app] in Hnd. destruct (nodup_mid _ _ _ Hnd) as [N1 _].
    rewrite HidU in N1. exact N1. }
  rewrite <- app_assoc in Hfl. cbn [app] in Hfl. rewrite after_mid in Hfl by assumption.
  apply (first_live_app_live b n l2 x Ln) in Hfl.
  apply (nodup_ids_app_disj _ _ x Hnd2); [|exact Hx].
  apply in_app_or in Hfl as [Hfl|Hfl]; apply in_or_app; [left; apply in_or_app; right; right; exact Hfl|right; exact Hfl].
Qed.

Section Shape.
  Variables (ns : list cnode) (f : N) (e : cev) (ns' : list cnode) (g : cnode -> cnode) (lost : N -> Prop).
  Hypothesis W : WF ns f.
  Hypothesis Wm : wmap ns g (fun k => e = EIns k) lost.
  Hypothesis Hsh : wshape ns f e ns' g lost.

  Lemma wsplit_fresh t T nw id n : wsplit ns f g lost t T nw -> find_node id ns = Some n -> id <> cn_id nw.
  Proof.
    intros S Hf. rewrite (ws_id S), <- (find_node_id _ _ _ Hf).
    pose proof (wf_fresh _ _ W n (find_node_in _ _ _ Hf)). lia.
  Qed.

  (* a node whose split counter the step leaves alone is not the node that is split *)
  Lemma wsplit_after t T nw id n :
    wsplit ns f g lost t T nw -> find_node id ns = Some n -> cv_split (cn_ver (g n)) = cv_split (cn_ver n) ->
    after id (insert_after t nw (map g ns)) = insert_after t nw (map g (after id ns)).
  Proof.
    intros S Hf Hv. pose proof (wm_id _ _ _ _ Wm) as gid.
    rewrite after_insert_after; [rewrite after_map by exact gid; reflexivity| | |].
    - rewrite ids_map by exact gid. apply (wf_nodup _ _ W).
    - exact (wsplit_fresh _ _ _ _ _ S Hf).
    - intros ->. rewrite (ws_find S) in Hf. injection Hf as ->. pose proof (ws_bump S). lia.
  Qed.

  Lemma wshape_find id n : find_node id ns = Some n -> find_node id ns' = Some (g n).
  Proof.
    intros Hf.
    assert (Hm : find_node id (map g ns) = Some (g n))
      by (rewrite find_node_map by apply (wm_id _ _ _ _ Wm); rewrite Hf; reflexivity).
    destruct Hsh as [(->&_)|(t&T&nw&S&->)]; [exact Hm|].
    rewrite find_node_insert_after; [exact Hm|exact (wsplit_fresh _ _ _ _ _ S Hf)].
  Qed.

  Lemma wshape_in x : In x ns -> In (g x) ns'.
  Proof. intros Hx. exact (find_node_in _ _ _ (wshape_find _ _ (nodup_find _ _ (wf_nodup _ _ W) Hx))). Qed.

  (** versions only grow: a node that still has a version [v] recorded before the step was left alone by it *)
  Lemma wshape_current id n v n' :
    find_node id ns = Some n -> vle v (cn_ver n) -> find_node id ns' = Some n' -> cn_ver n' = v ->
    n' = g n /\ cn_ver n = v /\ cn_ver (g n) = cn_ver n /\ live (g n) = live n.
  Proof.
    intros Hf Hv Hf' Hv'. rewrite (wshape_find _ _ Hf) in Hf'. injection Hf' as <-.
    pose proof (vle_squeeze _ _ _ Hv (wm_vle _ _ _ _ Wm n (find_node_in _ _ _ Hf)) Hv') as E.
    assert (Eg : cn_ver (g n) = cn_ver n) by congruence.
    split; [reflexivity|]. split; [exact E|]. split; [exact Eg|]. apply live_same_ver. rewrite Eg. reflexivity.
  Qed.

  Lemma wshape_after id n nx :
    find_node id ns = Some n -> cv_split (cn_ver (g n)) = cv_split (cn_ver n) ->
    next_ok nx (after id ns) -> next_ok nx (after id ns').
  Proof.
    intros Hf Hv Hn. pose proof (wm_id _ _ _ _ Wm) as gid.
    assert (Hmap : next_ok nx (map g (after id ns))).
    { apply next_ok_map; [exact gid| |exact Hn]. intros x Hx Hd.
      rewrite (wm_dead _ _ _ _ Wm x (in_after _ _ _ Hx) Hd). exact Hd. }
    destruct Hsh as [(->&_)|(t&T&nw&S&->)].
    - rewrite after_map by exact gid. exact Hmap.
    - rewrite (wsplit_after _ _ _ _ _ S Hf Hv). apply next_ok_insert_after; [|exact Hmap].
      intros Y HY E. apply in_map_iff in HY as (y&<-&Hy). rewrite gid in E.
      rewrite (nodup_uniq ns y T (wf_nodup _ _ W) (in_after _ _ _ Hy) (find_node_in _ _ _ (ws_find S)));
        [exact (ws_glive S)|rewrite (find_node_id _ _ _ (ws_find S)); exact E].
  Qed.

  Lemma wshape_lo_above id n B :
    find_node id ns = Some n -> live n = true -> live (g n) = true ->
    cv_split (cn_ver (g n)) = cv_split (cn_ver n) ->
    lo_above B (after id ns) -> lo_above B (after id ns').
  Proof.
    intros Hf Ln Lgn Hv Hab. pose proof (wm_id _ _ _ _ Wm) as gid. pose proof (wf_nodup _ _ W) as Hnd.
    assert (Hmap : lo_above B (map g (after id ns))).
    { intros b' Hb' Lb. apply in_map_iff in Hb' as (b&<-&Hb). pose proof (in_after _ _ _ Hb) as Hbin.
      destruct (wm_lo_up _ _ _ _ Wm b Hbin Lb) as [E|(u&U&HfU&LU&LgU&E&Hfl)]; rewrite E.
      - apply Hab; [exact Hb|]. destruct (live b) eqn:L; [reflexivity|].
        rewrite (wm_dead _ _ _ _ Wm b Hbin L) in Lb. congruence.
      - apply Hab; [|exact LU]. apply (after_first_live_pos _ id n u U b); auto.
        intros ->. rewrite Hf in HfU. injection HfU as ->. congruence. }
    destruct Hsh as [(->&_)|(t&T&nw&S&->)].
    - rewrite after_map by exact gid. exact Hmap.
    - rewrite (wsplit_after _ _ _ _ _ S Hf Hv). intros b' Hb' Lb'.
      apply in_insert_after in Hb' as [Hb'|[-> Ht]]; [exact (Hmap b' Hb' Lb')|].
      (* the new node stands after the split node, which is a live node after [id] *)
      rewrite ids_map in Ht by exact gid.
      assert (HTa : In T (after id ns))
        by (apply (in_ids_find ns t); auto; [intros x; apply in_after|exact (ws_find S)]).
      specialize (Hab T HTa (ws_live S)). pose proof (ws_lo S). lia.
  Qed.

  Lemma wmap_keys_sub l k :
    (forall x, In x l -> In x ns) -> In k (all_keys (map g l)) -> In k (all_keys l) \/ e = EIns k.
  Proof.
    intros Hl H. apply in_all_keys in H as (y&Hy&Hk). apply in_map_iff in Hy as (x&<-&Hx).
    destruct (wm_keys _ _ _ _ Wm x (Hl x Hx) k Hk); [left|right; assumption]. apply in_all_keys. eauto.
  Qed.

  Lemma wshape_before_keys id n k :
    find_node id ns = Some n ->
    In k (all_keys (before id ns')) -> In k (all_keys (before id ns)) \/ e = EIns k.
  Proof.
    intros Hf. pose proof (wm_id _ _ _ _ Wm) as gid.
    pose proof (wmap_keys_sub (before id ns) k (fun x => in_before x id ns)) as Hmap.
    destruct Hsh as [(->&_)|(t&T&nw&S&->)].
    - rewrite before_map by exact gid. exact Hmap.
    - destruct (N.eq_dec id t) as [->|Hne].
      + rewrite before_insert_after_same, before_map by exact gid. exact Hmap.
      + rewrite before_insert_after; [|exact (wsplit_fresh _ _ _ _ _ S Hf)|exact Hne].
        rewrite before_map by exact gid. intros H. apply in_all_keys_insert_after in H as [H|[H1 H2]]; [auto|].
        (* the new node stands before [id]: so does the split node, whose keys its keys were *)
        left. rewrite ids_map in H1 by exact gid. apply in_all_keys. exists T. split; [|apply (ws_sub S), H2].
        apply (in_ids_find ns t); auto; [apply (wf_nodup _ _ W)|intros x; apply in_before|exact (ws_find S)].
  Qed.

  Lemma wshape_keys_sub k : In k (all_keys ns') -> In k (all_keys ns) \/ e = EIns k.
  Proof.
    pose proof (wmap_keys_sub ns k (fun x H => H)) as Hmap.
    destruct Hsh as [(->&_)|(t&T&nw&S&->)]; [exact Hmap|].
    intros H. apply in_all_keys_insert_after in H as [H|[_ H]]; [exact (Hmap H)|].
    left. apply in_all_keys. exists T. split; [exact (find_node_in _ _ _ (ws_find S))|apply (ws_sub S), H].
  Qed.

  Lemma wshape_keys_sup k : In k (all_keys ns) -> In k (all_keys ns') \/ e = ERem k.
  Proof.
    intros H. apply in_all_keys in H as (x&Hx&Hk).
    assert (Hgx : In k (lk (g x)) -> In k (all_keys (map g ns))).
    { intros H. apply in_all_keys. exists (g x). split; [apply in_map, Hx|exact H]. }
    destruct (wm_keep _ _ _ _ Wm x Hx k Hk) as [H|H];
      destruct Hsh as [(->&Hl)|(t&T&nw&S&->)]; auto;
      left; apply in_all_keys_insert_after; [left; auto|right].
    split; [|apply (ws_lost S), H]. rewrite ids_map by apply (wm_id _ _ _ _ Wm).
    rewrite <- (find_node_id _ _ _ (ws_find S)). apply in_map, (find_node_in _ _ _ (ws_find S)).
  Qed.

  (** where a scan has ended it still ends, as long as the step has left that node alone *)
  Lemma wshape_ends_at r id n :
    find_node id ns = Some n -> cn_ver (g n) = cn_ver n -> ends_at r ns id -> ends_at r ns' id.
  Proof.
    intros Hf Eg [(k0&c&Hr&Hf'&Lc&Hab)|Hn]; [left|right; exact (wshape_after _ _ _ Hf (f_equal cv_split Eg) Hn)].
    rewrite Hf in Hf'. injection Hf' as <-.
    assert (Lg : live (g n) = true) by (rewrite (live_same_ver _ _ (f_equal cv_del Eg)); exact Lc).
    exists k0, (g n). split; [exact Hr|]. split; [exact (wshape_find _ _ Hf)|]. split; [exact Lg|].
    exact (wshape_lo_above _ _ _ Hf Lc Lg (f_equal cv_split Eg) Hab).
  Qed.

  (** for the lookup of ChainGetProofs: the node covering [k] goes on covering it until it is split or unlinked *)
  Lemma wshape_cover k n :
    cover k ns = Some n -> cv_split (cn_ver (g n)) = cv_split (cn_ver n) -> live (g n) = true ->
    cover k ns' = Some (g n).
  Proof.
    intros Hc Hsp Lgn. pose proof (cover_find _ _ _ _ W Hc) as Hf. pose proof (wshape_find _ _ Hf) as Hf'.
    destruct (cover_In _ _ _ Hc) as (_&Ln&Hlo).
    apply cover_iff. exists (before (cn_id n) ns'), (after (cn_id n) ns').
    split; [apply (before_after_split _ _ _ Hf')|]. split; [exact Lgn|]. split.
    - pose proof (wm_lo _ _ _ _ Wm n (find_node_in _ _ _ Hf)). lia.
    - exact (wshape_lo_above _ _ k Hf Ln Lgn Hsp (cover_after _ _ _ _ W Hc)).
  Qed.
End Shape.

(** ** The steps of a state *)

Record wtrans (e : cev) (s s' : cstate) : Prop := {
  wt_step : wstep (c_nodes s) (c_fresh s) e = Some (c_nodes s', c_fresh s');
  wt_scan : c_scan s' = c_scan s;
  wt_stable : c_stable s' = stable_after e (c_stable s);
  wt_ever : c_ever s' = ever_after e (scanning (c_scan s)) (c_ever s) }.

Lemma cstep_wtrans fx s e s' : writer e = true -> cstep fx s e = Some s' -> wtrans e s s'.
Proof.
  intros We H. rewrite (cstep_writer _ _ _ We) in H.
  destruct (wstep (c_nodes s) (c_fresh s) e) as [[ns' f']|] eqn:E; [|discriminate].
  injection H as <-. constructor; auto.
Qed.

Definition sc_restart (l : N) (r : option N) (rs : N) (n : cnode) : cscan :=
  {| sc_pc := CRead; sc_l := l; sc_r := r; sc_cur := cn_id n; sc_v := cn_ver n; sc_snap := [];
     sc_nxt := None; sc_nv := cver0; sc_res := []; sc_nvset := []; sc_restarts := rs |}.
Definition beyond (sc : cscan) : bool :=
  existsb (fun k => negb (le_r k (sc_r sc))) (filter (fun k => sc_l sc <=? k) (sc_snap sc)).
Definition deliver_res (sc : cscan) : list N :=
  sc_res sc ++ filter (fun k => le_r k (sc_r sc)) (filter (fun k => sc_l sc <=? k) (sc_snap sc)).
Definition sc_done (sc : cscan) : cscan :=
  {| sc_pc := CDone; sc_l := sc_l sc; sc_r := sc_r sc; sc_cur := sc_cur sc; sc_v := sc_v sc;
     sc_snap := []; sc_nxt := None; sc_nv := cver0; sc_res := deliver_res sc;
     sc_nvset := sc_nvset sc ++ [(sc_cur sc, sc_v sc)]; sc_restarts := sc_restarts sc |}.
Definition sc_adv (sc : cscan) (nx : N) : cscan :=
  {| sc_pc := CRead; sc_l := sc_l sc; sc_r := sc_r sc; sc_cur := nx; sc_v := sc_nv sc;
     sc_snap := []; sc_nxt := None; sc_nv := cver0; sc_res := deliver_res sc;
     sc_nvset := sc_nvset sc ++ [(sc_cur sc, sc_v sc)]; sc_restarts := sc_restarts sc |}.
Definition sc_reread (sc : cscan) (w : cver) : cscan :=
  {| sc_pc := CRead; sc_l := sc_l sc; sc_r := sc_r sc; sc_cur := sc_cur sc; sc_v := w;
     sc_snap := []; sc_nxt := None; sc_nv := cver0; sc_res := sc_res sc;
     sc_nvset := sc_nvset sc; sc_restarts := sc_restarts sc |}.
Definition sc_read (sc : cscan) (n : cnode) : cscan :=
  {| sc_pc := CNextVer; sc_l := sc_l sc; sc_r := sc_r sc; sc_cur := sc_cur sc; sc_v := sc_v sc;
     sc_snap := cn_keys n; sc_nxt := cn_next n; sc_nv := sc_nv sc; sc_res := sc_res sc;
     sc_nvset := sc_nvset sc; sc_restarts := sc_restarts sc |}.
Definition sc_nextver (sc : cscan) (nv : cver) : cscan :=
  {| sc_pc := CValidate; sc_l := sc_l sc; sc_r := sc_r sc; sc_cur := sc_cur sc; sc_v := sc_v sc;
     sc_snap := sc_snap sc; sc_nxt := sc_nxt sc; sc_nv := nv; sc_res := sc_res sc;
     sc_nvset := sc_nvset sc; sc_restarts := sc_restarts sc |}.
Definition stale (sc : cscan) : bool :=
  match last_key (sc_res sc) with
  | Some lk => existsb (fun k => k <=? lk) (sc_snap sc)
  | None => false
  end.

Lemma scanning_of_pc sc : sc_pc sc = CNextVer \/ sc_pc sc = CValidate -> scanning sc = true.
Proof. unfold scanning. intros [-> | ->]; reflexivity. Qed.
Lemma scanning_not_done sc : scanning sc = true -> sc_pc sc <> CDone.
Proof. unfold scanning. intros H E. rewrite E in H. discriminate. Qed.

Lemma start_scan_eq ns l r rs : start_scan ns l r rs = option_map (sc_restart l r rs) (cover l ns).
Proof. reflexivity. Qed.
Lemma start_scan_inv ns l r rs sc' :
  start_scan ns l r rs = Some sc' -> exists n, cover l ns = Some n /\ sc' = sc_restart l r rs n.
Proof.
  rewrite start_scan_eq. destruct (cover l ns) as [n|]; [|discriminate]. intros H. injection H as <-.
  exists n. split; reflexivity.
Qed.

Lemma cstep_begin fx s l r s' :
  cstep fx s (EBegin l r) = Some s' ->
  sc_pc (c_scan s) = CIdle /\ exists n, cover l (c_nodes s) = Some n /\
  s' = {| c_nodes := c_nodes s; c_fresh := c_fresh s; c_scan := sc_restart l r 0 n;
          c_stable := all_keys (c_nodes s); c_ever := all_keys (c_nodes s) |}.
Proof.
  cbn [cstep]. destruct (sc_pc (c_scan s)); try discriminate.
  destruct (start_scan _ _ _ _) as [sc'|] eqn:E; [|discriminate].
  apply start_scan_inv in E as (n&Hc&->). intros H. injection H as <-. split; [reflexivity|]. exists n. auto.
Qed.
Lemma cstep_read fx s s' :
  cstep fx s ERead = Some s' ->
  sc_pc (c_scan s) = CRead /\ scanning (c_scan s) = true /\
  exists c, find_node (sc_cur (c_scan s)) (c_nodes s) = Some c /\ s' = set_scan s (sc_read (c_scan s) c).
Proof.
  cbn [cstep]. unfold scanning. destruct (sc_pc (c_scan s)); try discriminate.
  destruct (find_node _ _) as [c|]; [|discriminate]. intros H. injection H as <-.
  split; [reflexivity|]. split; [reflexivity|]. exists c. auto.
Qed.
Lemma cstep_nextver fx s s' :
  cstep fx s ENextVer = Some s' ->
  sc_pc (c_scan s) = CNextVer /\ scanning (c_scan s) = true /\
  s' = set_scan s (sc_nextver (c_scan s)
         match sc_nxt (c_scan s) with
         | Some id => match find_node id (c_nodes s) with Some n => cn_ver n | None => cver0 end
         | None => cver0 end).
Proof.
  cbn [cstep]. unfold scanning. destruct (sc_pc (c_scan s)); try discriminate. intros H. injection H as <-. auto.
Qed.

Lemma cstep_validate fx s s' :
  cstep fx s EValidate = Some s' ->
  let sc := c_scan s in
  sc_pc sc = CValidate /\ scanning sc = true /\ exists c, find_node (sc_cur sc) (c_nodes s) = Some c /\
  ((exists n, cover (sc_l sc) (c_nodes s) = Some n /\
      s' = set_scan s (sc_restart (sc_l sc) (sc_r sc) (sc_restarts sc + 1) n)) \/
   (cn_ver c = sc_v sc /\ (fx = true -> stale sc = false) /\
      (((beyond sc = true \/ sc_nxt sc = None) /\ s' = set_scan s (sc_done sc)) \/
       (exists nx, beyond sc = false /\ sc_nxt sc = Some nx /\ s' = set_scan s (sc_adv sc nx)))) \/
   (cn_ver c <> sc_v sc /\ cv_del (cn_ver c) = false /\ s' = set_scan s (sc_reread sc (cn_ver c)))).
Proof.
  cbn [cstep]. cbv zeta. unfold scanning. destruct (sc_pc (c_scan s)); try discriminate.
  destruct (find_node _ _) as [c|]; [|discriminate]. intros H. split; [reflexivity|]. split; [reflexivity|].
  exists c. split; [reflexivity|].
  assert (Hrs : forall x, match start_scan (c_nodes s) (sc_l (c_scan s)) (sc_r (c_scan s))
                                 (sc_restarts (c_scan s) + 1) with
                          | Some sc' => Some (set_scan s sc') | None => None end = Some x ->
          exists n, cover (sc_l (c_scan s)) (c_nodes s) = Some n /\
            x = set_scan s (sc_restart (sc_l (c_scan s)) (sc_r (c_scan s)) (sc_restarts (c_scan s) + 1) n)).
  { intros x. destruct (start_scan _ _ _ _) as [sc'|] eqn:E; [|discriminate].
    apply start_scan_inv in E as (n&Hc&->). intros Hx. injection Hx as <-. exists n. auto. }
  destruct (cver_eqb_spec (cn_ver c) (sc_v (c_scan s))) as [Ev|Ev].
  - fold (stale (c_scan s)) in H.
    destruct (fx && stale (c_scan s)) eqn:Est.
    + left. apply Hrs, H.
    + right. left. split; [exact Ev|]. split.
      { intros ->. exact Est. }
      fold (beyond (c_scan s)) in H. fold (deliver_res (c_scan s)) in H.
      destruct (beyond (c_scan s)) eqn:Eb.
      * left. injection H as <-. split; [left; reflexivity|reflexivity].
      * destruct (sc_nxt (c_scan s)) as [nx|] eqn:En.
        -- right. exists nx. injection H as <-. repeat split.
        -- left. injection H as <-. split; [right; reflexivity|reflexivity].
  - destruct (negb (cv_split (cn_ver c) =? cv_split (sc_v (c_scan s))) || cv_del (cn_ver c)) eqn:Eo.
    + left. apply Hrs, H.
    + right. right. apply orb_false_iff in Eo as [_ Eo]. injection H as <-. auto.
Qed.

(** a scanner event leaves the layer alone, and of the ghosts it at most starts them anew (the invocation) *)
Lemma cstep_scan_frame fx s e s' :
  writer e = false -> cstep fx s e = Some s' ->
  c_nodes s' = c_nodes s /\ c_fresh s' = c_fresh s /\ (c_ever s' = c_ever s \/ c_ever s' = all_keys (c_nodes s)).
Proof.
  destruct e; try discriminate; intros _ H.
  - apply cstep_begin in H as (_&n&_&->). auto.
  - apply cstep_read in H as (_&_&c&_&->). auto.
  - apply cstep_nextver in H as (_&_&->). auto.
  - apply cstep_validate in H as (_&_&c&_&[(n&_&->)|[(_&_&[(_&->)|(nx&_&_&->)])|(_&_&->)]]); auto.
Qed.

Lemma WF_step fx s e s' :
  WF (c_nodes s) (c_fresh s) -> cstep fx s e = Some s' -> WF (c_nodes s') (c_fresh s').
Proof.
  intros W H. destruct (writer e) eqn:We.
  - eapply WF_wstep; [exact W|]. apply (wt_step _ _ _ (cstep_wtrans _ _ _ _ We H)).
  - destruct (cstep_scan_frame _ _ _ _ We H) as (-> & -> & _). exact W.
Qed.

Lemma deliver_res_eq sc :
  deliver_res sc = sc_res sc ++ filter (in_interval (sc_l sc) (sc_r sc)) (sc_snap sc).
Proof. unfold deliver_res. rewrite filter_filter. reflexivity. Qed.

Lemma stale_false sc :
  stale sc = false -> sorted_strict (sc_res sc) = true ->
  forall a b, In a (sc_res sc) -> In b (sc_snap sc) -> a < b.
Proof.
  unfold stale. intros Hst Hs a b Ha Hb. destruct (last_key (sc_res sc)) as [k|] eqn:E.
  - pose proof (sorted_last_le _ _ _ Hs E Ha). destruct (N.ltb_spec k b) as [|Hle]; [lia|]. exfalso.
    assert (existsb (fun k0 => k0 <=? k) (sc_snap sc) = true); [|congruence].
    apply existsb_exists. exists b. split; [exact Hb|]. apply N.leb_le. exact Hle.
  - apply last_key_none in E. rewrite E in Ha. destruct Ha.
Qed.

(** ** First layer: the ghosts, and the result sound and ascending *)

Record InvA (fx : bool) (s : cstate) : Prop := {
  ia_stable : forall k, In k (c_stable s) -> In k (all_keys (c_nodes s));
  ia_ever : scanning (c_scan s) = true -> forall k, In k (all_keys (c_nodes s)) -> In k (c_ever s);
  ia_sorted : fx = true -> sorted_strict (sc_res (c_scan s)) = true;
  ia_res : forall k, In k (sc_res (c_scan s)) ->
             in_interval (sc_l (c_scan s)) (sc_r (c_scan s)) k = true /\ In k (c_ever s);
  ia_snap : sorted_strict (sc_snap (c_scan s)) = true /\
            forall k, In k (sc_snap (c_scan s)) -> In k (c_ever s) }.

Lemma InvA_init fx kss : InvA fx (cinit kss).
Proof.
  constructor; cbn.
  - intros ? [].
  - discriminate.
  - reflexivity.
  - intros ? [].
  - split; [reflexivity|intros ? []].
Qed.

Lemma InvA_wtrans fx e s s' :
  WF (c_nodes s) (c_fresh s) -> InvA fx s -> wtrans e s s' -> InvA fx s'.
Proof.
  intros W [I1 I2 I3 I4 I5] [Hst Hsc Hstab Hev].
  destruct (wstep_shape _ _ _ _ _ W Hst) as (g&lost&Wm&Hsh&_).
  assert (E1 : forall k, In k (c_ever s) -> In k (c_ever s')).
  { intros k Hk. rewrite Hev. apply in_ever_after. auto. }
  constructor; rewrite ?Hsc.
  - intros k Hk. rewrite Hstab in Hk. apply in_stable_after in Hk as [Hk Hne].
    destruct (wshape_keys_sup _ _ _ _ _ _ Wm Hsh k (I1 k Hk)) as [H|H]; [exact H|contradiction].
  - intros Hscan k Hk. destruct (wshape_keys_sub _ _ _ _ _ _ Wm Hsh k Hk) as [H|H].
    + apply E1, I2; assumption.
    + rewrite Hev. apply in_ever_after. auto.
  - exact I3.
  - intros k Hk. destruct (I4 k Hk). auto.
  - destruct I5 as [H1 H2]. split; [exact H1|]. intros k Hk. apply E1, H2, Hk.
Qed.

Lemma deliver_ok fx s :
  InvA fx s ->
  (forall k, In k (deliver_res (c_scan s)) ->
     in_interval (sc_l (c_scan s)) (sc_r (c_scan s)) k = true /\ In k (c_ever s)) /\
  (fx = true -> stale (c_scan s) = false -> sorted_strict (deliver_res (c_scan s)) = true).
Proof.
  intros [I1 I2 I3 I4 I5]. rewrite deliver_res_eq. split.
  - intros k Hk. apply in_app_or in Hk as [Hk|Hk]; [auto|].
    apply filter_In in Hk as [Hk1 Hk2]. split; [exact Hk2|]. apply I5, Hk1.
  - intros Hfx Hst. apply sorted_app. split; [auto|]. split.
    + apply sorted_filter, I5.
    + intros a b Ha Hb. apply filter_In in Hb as [Hb _]. eapply stale_false; eauto.
Qed.

(** a validation that delivers: the new result is part of [deliver_res], within a right end that may have moved
    left (see [InvC_deliver]) *)
Lemma InvA_deliver fx s sc' :
  InvA fx s -> scanning (c_scan s) = true -> sc_l sc' = sc_l (c_scan s) ->
  (forall k, In k (sc_res sc') -> In k (deliver_res (c_scan s)) /\ le_r k (sc_r sc') = true) ->
  (fx = true -> sorted_strict (sc_res sc') = true) -> sc_snap sc' = [] ->
  InvA fx (set_scan s sc').
Proof.
  intros IA Hs El Hres Hsort Hsnap. destruct (deliver_ok _ _ IA) as [Hdel _]. destruct IA as [I1 I2 I3 I4 I5].
  constructor; cbn [set_scan c_scan c_nodes c_stable c_ever]; rewrite ?El, ?Hsnap; auto.
  - intros k Hk. destruct (Hres k Hk) as [Hd Hr]. destruct (Hdel k Hd) as [Hi He]. split; [|exact He].
    apply in_interval_iff. split; [exact (in_interval_l _ _ _ Hi)|exact Hr].
  - split; [reflexivity|intros ? []].
Qed.

Lemma InvA_step fx s e s' :
  WF (c_nodes s) (c_fresh s) -> InvA fx s -> cstep fx s e = Some s' -> InvA fx s'.
Proof.
  intros W I H. destruct (writer e) eqn:We.
  { eapply InvA_wtrans; eauto. eapply cstep_wtrans; eauto. }
  destruct (deliver_ok _ _ I) as [Hdel Hsort]. pose proof I as [I1 I2 I3 I4 I5]. destruct e; try discriminate.
  - apply cstep_begin in H as (Hpc&n&Hc&->). constructor; cbn; auto; try (intros ? []).
    split; [reflexivity|intros ? []].
  - apply cstep_read in H as (Hpc&Hscan&c&Hf&->). pose proof (find_node_in _ _ _ Hf) as Hin.
    constructor; cbn; auto. split; [apply (wf_ok _ _ W c Hin)|].
    intros k Hk. apply I2; [exact Hscan|]. apply in_all_keys. exists c. split; [exact Hin|].
    apply in_lk. split; [exact (WF_key_live _ _ _ _ W Hin Hk)|exact Hk].
  - apply cstep_nextver in H as (Hpc&Hscan&->). constructor; cbn; auto.
  - apply cstep_validate in H as (Hpc&Hscan&c&Hf&Hcases).
    destruct Hcases as [(n&Hc&->)|[(Hv&Hst&Hcases)|(_&_&->)]].
    + constructor; cbn; auto; try (intros ? []). split; [reflexivity|intros ? []].
    + destruct Hcases as [(_&->)|(nx&_&_&->)]; apply InvA_deliver; cbn; auto;
        intros k Hk; exact (conj Hk (in_interval_le_r _ _ _ (proj1 (Hdel k Hk)))).
    + constructor; cbn; auto. split; [reflexivity|intros ? []].
Qed.

(** ** Second layer: versions, snapshot, frontier (no stable key is lost) *)

Record InvB (s : cstate) : Prop := {
  ib_cur : scanning (c_scan s) = true ->
           exists c, find_node (sc_cur (c_scan s)) (c_nodes s) = Some c /\ vle (sc_v (c_scan s)) (cn_ver c);
  ib_nvset : forall id v, In (id, v) (sc_nvset (c_scan s)) ->
           exists n, find_node id (c_nodes s) = Some n /\ vle v (cn_ver n);
  ib_snap : sc_pc (c_scan s) = CNextVer \/ sc_pc (c_scan s) = CValidate ->
           forall c, find_node (sc_cur (c_scan s)) (c_nodes s) = Some c -> cn_ver c = sc_v (c_scan s) ->
           (* the version does not count removes: the snapshot is a superset of the keys of the node *)
           (forall k, In k (cn_keys c) -> In k (sc_snap (c_scan s))) /\
           next_ok (sc_nxt (c_scan s)) (after (sc_cur (c_scan s)) (c_nodes s)) /\
           (* ... and every key of the snapshot, still there or not, is below the range of all later nodes *)
           (forall k, In k (sc_snap (c_scan s)) ->
              live c = true /\ lo_above k (after (sc_cur (c_scan s)) (c_nodes s)));
  (* the node that the next pointer read names exists; its version is loaded by [ENextVer] only, so [sc_nv] is
     a lower bound of it from [CValidate] on *)
  ib_nxt : sc_pc (c_scan s) = CNextVer \/ sc_pc (c_scan s) = CValidate ->
           forall y, sc_nxt (c_scan s) = Some y ->
           exists Y, find_node y (c_nodes s) = Some Y /\
                     (sc_pc (c_scan s) = CValidate -> vle (sc_nv (c_scan s)) (cn_ver Y));
  ib_front : scanning (c_scan s) = true ->
           forall k, In k (c_stable s) -> in_interval (sc_l (c_scan s)) (sc_r (c_scan s)) k = true ->
           In k (sc_res (c_scan s)) \/ ~ In k (all_keys (before (sc_cur (c_scan s)) (c_nodes s)));
  ib_done : sc_pc (c_scan s) = CDone ->
           forall k, In k (c_stable s) -> in_interval (sc_l (c_scan s)) (sc_r (c_scan s)) k = true ->
           In k (sc_res (c_scan s)) }.

Lemma InvB_init kss : InvB (cinit kss).
Proof.
  constructor; cbn; try discriminate; try (intros [|]; discriminate).
  intros ? ? [].
Qed.

Lemma InvB_wtrans fx e s s' :
  WF (c_nodes s) (c_fresh s) -> InvA fx s -> InvB s -> wtrans e s s' -> InvB s'.
Proof.
  intros W IA [B1 B2 B3 B4 B5 B6] [Hst Hsc Hstab Hev].
  destruct (wstep_shape _ _ _ _ _ W Hst) as (g&lost&Wm&Hsh&Hins).
  pose proof (wshape_find _ _ _ _ _ _ W Wm Hsh) as Hfind.
  assert (Hvle : forall id n v, find_node id (c_nodes s) = Some n -> vle v (cn_ver n) ->
            exists n', find_node id (c_nodes s') = Some n' /\ vle v (cn_ver n')).
  { intros id n v Hf Hv. exists (g n). split; [apply Hfind, Hf|]. eapply vle_trans; [exact Hv|].
    apply (wm_vle _ _ _ _ Wm), (find_node_in _ _ _ Hf). }
  constructor; rewrite ?Hsc.
  - intros Hs. destruct (B1 Hs) as (c&Hf&Hv). eauto.
  - intros id v Hin. destruct (B2 id v Hin) as (n&Hf&Hv). eauto.
  - intros Hpc c' Hf' Hv'. destruct (B1 (scanning_of_pc _ Hpc)) as (c&Hf&Hv).
    destruct (wshape_current _ _ _ _ _ _ W Wm Hsh _ _ _ _ Hf Hv Hf' Hv') as (->&Ec&Eg&Lg).
    destruct (B3 Hpc c Hf Ec) as (Hsnap&Hnx&Hlo). split; [|split].
    + intros k Hk. apply Hsnap. exact (wm_same _ _ _ _ Wm c (find_node_in _ _ _ Hf) Eg k Hk).
    + exact (wshape_after _ _ _ _ _ _ W Wm Hsh _ c _ Hf (f_equal cv_split Eg) Hnx).
    + intros k Hk. destruct (Hlo k Hk) as [Lc Hab]. rewrite Lg. split; [exact Lc|].
      apply (wshape_lo_above _ _ _ _ _ _ W Wm Hsh _ c); auto; [rewrite Lg; exact Lc|exact (f_equal cv_split Eg)].
  - intros Hpc y Hy. destruct (B4 Hpc y Hy) as (Y&Hf&Hv). exists (g Y). split; [apply Hfind, Hf|].
    intros Hp. eapply vle_trans; [exact (Hv Hp)|]. apply (wm_vle _ _ _ _ Wm), (find_node_in _ _ _ Hf).
  - intros Hs k Hk Hi. destruct (B1 Hs) as (c&Hf&_). rewrite Hstab in Hk. apply in_stable_after in Hk as [Hk _].
    destruct (B5 Hs k Hk Hi) as [H|H]; [left; exact H|right]. intros Hin.
    destruct (wshape_before_keys _ _ _ _ _ _ W Wm Hsh _ _ k Hf Hin) as [H'|H']; [contradiction|].
    apply (proj1 (Hins k H')), (ia_stable _ _ IA), Hk.
  - intros Hpc k Hk Hi. rewrite Hstab in Hk. apply in_stable_after in Hk as [Hk _]. apply B6; auto.
Qed.

Lemma InvB_restart s' l r rs n :
  WF (c_nodes s') (c_fresh s') -> cover l (c_nodes s') = Some n -> c_scan s' = sc_restart l r rs n -> InvB s'.
Proof.
  intros W Hc Hsc. constructor; rewrite Hsc; cbn; try discriminate; try (intros [|]; discriminate).
  - intros _. exists n. split; [eapply cover_find; eauto|apply vle_refl].
  - intros ? ? [].
  - intros _ k _ Hi. right. eapply cover_frontier; eauto. apply (in_interval_l _ _ _ Hi).
Qed.

Lemma beyond_spec sc :
  beyond sc = true -> exists k0, In k0 (sc_snap sc) /\ le_r k0 (sc_r sc) = false.
Proof.
  unfold beyond. intros H. apply existsb_exists in H as (k0&Hk&Hr). apply filter_In in Hk as [Hk _].
  exists k0. split; [exact Hk|]. apply negb_true_iff in Hr. exact Hr.
Qed.

(** a validated snapshot with a key beyond the right end, or without a next pointer: the scan ends here *)
Lemma scan_end s c :
  InvB s -> sc_pc (c_scan s) = CValidate -> find_node (sc_cur (c_scan s)) (c_nodes s) = Some c ->
  cn_ver c = sc_v (c_scan s) -> beyond (c_scan s) = true \/ sc_nxt (c_scan s) = None ->
  ends_at (sc_r (c_scan s)) (c_nodes s) (sc_cur (c_scan s)).
Proof.
  intros IB Hpc Hf Hv Hend. destruct (ib_snap _ IB (or_intror Hpc) c Hf Hv) as (_&Hnx&Hlo).
  destruct Hend as [Hb|Hn]; [left|right; rewrite <- Hn; exact Hnx].
  apply beyond_spec in Hb as (k0&Hk0&Hr). destruct (Hlo k0 Hk0) as [Lc Hab]. exists k0, c.
  split; [apply above_r_beyond, Hr|auto].
Qed.

(** a stable key of the interval that a validated snapshot does not deliver is neither in the current node nor
    before it *)
Lemma stable_delivered s c k :
  InvB s -> sc_pc (c_scan s) = CValidate ->
  find_node (sc_cur (c_scan s)) (c_nodes s) = Some c -> cn_ver c = sc_v (c_scan s) ->
  In k (c_stable s) -> in_interval (sc_l (c_scan s)) (sc_r (c_scan s)) k = true ->
  In k (deliver_res (c_scan s)) \/
  (~ In k (all_keys (before (sc_cur (c_scan s)) (c_nodes s))) /\ ~ In k (lk c)).
Proof.
  intros IB Hpc Hf Hv Hk Hi. rewrite deliver_res_eq.
  destruct (ib_snap _ IB (or_intror Hpc) c Hf Hv) as (Hsnap&_).
  destruct (ib_front _ IB (scanning_of_pc _ (or_intror Hpc)) k Hk Hi) as [H|H]; [left; apply in_or_app; left; exact H|].
  destruct (in_dec N.eq_dec k (lk c)) as [Hc|Hc]; [left|right; split; assumption].
  apply in_or_app. right. apply filter_In. split; [|exact Hi]. apply Hsnap. apply in_lk in Hc. apply Hc.
Qed.

Lemma nvset_deliver s c :
  InvB s -> find_node (sc_cur (c_scan s)) (c_nodes s) = Some c -> cn_ver c = sc_v (c_scan s) ->
  forall id v, In (id, v) (sc_nvset (c_scan s) ++ [(sc_cur (c_scan s), sc_v (c_scan s))]) ->
    exists n, find_node id (c_nodes s) = Some n /\ vle v (cn_ver n).
Proof.
  intros IB Hf Hv id v Hin. apply in_app_or in Hin as [Hin|[Hin|[]]]; [exact (ib_nvset _ IB id v Hin)|].
  injection Hin as <- <-. exists c. split; [exact Hf|]. rewrite Hv. apply vle_refl.
Qed.

(** a validation that ends the scan, with the hypotheses of [InvC_deliver] *)
Lemma InvB_finish fx s c sc' :
  WF (c_nodes s) (c_fresh s) -> InvA fx s -> InvB s -> sc_pc (c_scan s) = CValidate ->
  find_node (sc_cur (c_scan s)) (c_nodes s) = Some c -> cn_ver c = sc_v (c_scan s) ->
  sc_pc sc' = CDone -> sc_l sc' = sc_l (c_scan s) ->
  (forall k, le_r k (sc_r sc') = true -> le_r k (sc_r (c_scan s)) = true) ->
  (forall k, In k (deliver_res (c_scan s)) -> le_r k (sc_r sc') = true -> In k (sc_res sc')) ->
  sc_nvset sc' = sc_nvset (c_scan s) ++ [(sc_cur (c_scan s), sc_v (c_scan s))] ->
  ends_at (sc_r sc') (c_nodes s) (sc_cur (c_scan s)) ->
  InvB (set_scan s sc').
Proof.
  intros W IA IB Hpc Hf Hv Hpc' El Hnar Eres Env Hend.
  constructor; cbn [set_scan c_scan c_nodes c_stable]; rewrite ?Hpc', ?El; try discriminate;
    try (intros [|]; discriminate); try (intros Hs; destruct (scanning_not_done _ Hs Hpc')).
  - rewrite Env. exact (nvset_deliver s c IB Hf Hv).
  - (* a stable key that is not delivered lies after this node, where a scan that ends here leaves none *)
    intros _ k Hk Hi. pose proof (in_interval_le_r _ _ _ Hi) as Hr.
    destruct (stable_delivered s c k IB Hpc Hf Hv Hk (in_interval_widen _ _ _ _ (Hnar k) Hi)) as [H|[H1 H2]];
      [apply Eres; assumption|exfalso].
    pose proof (ia_stable _ _ IA k Hk) as Hall.
    apply (in_all_keys_at _ _ _ k Hf) in Hall as [Hall|[Hall|Hall]]; [contradiction|contradiction|].
    exact (nothing_after _ _ _ _ _ _ W Hend Hall Hi).
Qed.

Lemma InvB_step fx s e s' :
  WF (c_nodes s) (c_fresh s) -> InvA fx s -> InvB s -> cstep fx s e = Some s' -> InvB s'.
Proof.
  intros W IA IB H. destruct (writer e) eqn:We.
  { eapply InvB_wtrans; eauto. eapply cstep_wtrans; eauto. }
  pose proof (wf_nodup _ _ W) as Hnd.
  destruct e; try discriminate.
  - apply cstep_begin in H as (Hpc&n&Hc&->). eapply InvB_restart; cbn; eauto.
  - apply cstep_read in H as (Hpc&Hs&c&Hf&->). destruct IB as [B1 B2 B3 B4 B5 B6].
    pose proof (nexts_ok_after _ _ _ (wf_next _ _ W) Hf) as Hn.
    constructor; cbn; auto; try discriminate.
    + intros _ c' Hf' _. rewrite Hf in Hf'. injection Hf' as <-. split; [auto|]. split; [exact Hn|].
      intros k Hk. eapply after_above; eauto.
    + intros _ y Hy. rewrite Hy in Hn. destruct (next_node _ _ _ _ Hnd Hf Hn) as (_&Y&HfY&_).
      exists Y. split; [exact HfY|discriminate].
  - apply cstep_nextver in H as (Hpc&Hs&->). destruct IB as [B1 B2 B3 B4 B5 B6].
    constructor; cbn; auto; try discriminate.
    intros _ y Hy. destruct (B4 (or_introl Hpc) y Hy) as (Y&HfY&_). exists Y. split; [exact HfY|].
      intros _. rewrite Hy, HfY. apply vle_refl.
  - apply cstep_validate in H as (Hpc&Hs&c&Hf&Hcases).
    destruct Hcases as [(n&Hc&->)|[(Hv&Hst&[(Hend&->)|(nx&Hbey&Hnxt&->)])|(Hv&Hdel&->)]].
    + eapply InvB_restart; cbn; eauto.
    + apply (InvB_finish fx s c); auto. exact (scan_end s c IB Hpc Hf Hv Hend).
    + pose proof (fun k => stable_delivered s c k IB Hpc Hf Hv) as Hkeys.
      pose proof (nvset_deliver s c IB Hf Hv) as Hnv.
      destruct IB as [B1 B2 B3 B4 B5 B6]. destruct (B3 (or_intror Hpc) c Hf Hv) as (_&Hnx&_).
      rewrite Hnxt in Hnx. destruct (next_node _ _ _ _ Hnd Hf Hnx) as (d&Y&_&Hd&_&Ebef).
      constructor; cbn; auto; try discriminate; try (intros [|]; discriminate).
      * intros _. destruct (B4 (or_intror Hpc) nx Hnxt) as (Y'&HfY'&Hvy). exists Y'. auto.
      * (* between this node and the next there are unlinked nodes only *)
        intros _ k Hk Hi. destruct (Hkeys k Hk Hi) as [H|[H1 H2]]; [left; exact H|right].
        rewrite Ebef, all_keys_app, all_keys_cons, (all_keys_dead d Hd), app_nil_r. intros Hb.
        apply in_app_or in Hb as [Hb|Hb]; contradiction.
    + destruct IB as [B1 B2 B3 B4 B5 B6].
      constructor; cbn; auto; try discriminate; try (intros [|]; discriminate).
      intros _. exists c. split; [exact Hf|apply vle_refl].
Qed.

(** ** Third layer: the recorded nodes are linked, their keys are in the result (no insert goes undetected) *)

Definition recs_current (s : cstate) : Prop :=
  forall id v, In (id, v) (sc_nvset (c_scan s)) ->
    exists n, find_node id (c_nodes s) = Some n /\ cn_ver n = v.
(** the first recorded pair and the last recorded node; while nothing is recorded both are the current position,
    so that [ic_first] speaks from the invocation on *)
Definition first_rec (sc : cscan) : N * cver := hd (sc_cur sc, sc_v sc) (sc_nvset sc).
Definition last_rec (sc : cscan) : N := last (map fst (sc_nvset sc)) (sc_cur sc).

Lemma first_rec_deliver sc sc' :
  sc_nvset sc' = sc_nvset sc ++ [(sc_cur sc, sc_v sc)] -> first_rec sc' = first_rec sc.
Proof. unfold first_rec. intros ->. destruct (sc_nvset sc); reflexivity. Qed.
Lemma last_rec_deliver sc sc' :
  sc_nvset sc' = sc_nvset sc ++ [(sc_cur sc, sc_v sc)] -> last_rec sc' = sc_cur sc.
Proof. unfold last_rec. intros ->. rewrite map_app. apply last_last. Qed.
Lemma last_rec_in sc : sc_nvset sc <> [] -> In (last_rec sc) (map fst (sc_nvset sc)).
Proof.
  intros H. unfold last_rec. destruct (sc_nvset sc) as [|p l]; [destruct H; reflexivity|].
  cbn [map]. rewrite (app_removelast_last (sc_cur sc) (l := fst p :: map fst l)) at 2 by discriminate. apply in_elt.
Qed.

(** each node of [l] is followed in the chain, up to unlinked nodes in between, by the next node of [l] *)
Fixpoint linked (ns : list cnode) (l : list N) : Prop :=
  match l with
  | a :: ((b :: _) as tl) => next_ok (Some b) (after a ns) /\ linked ns tl
  | _ => True
  end.

Lemma linked_snoc ns c d l :
  linked ns l -> (l <> [] -> next_ok (Some c) (after (last l d) ns)) -> linked ns (l ++ [c]).
Proof.
  induction l as [|a [|b tl] IH]; intros Hl Hc; [exact I|split; [apply Hc; discriminate|exact I]|].
  destruct Hl as [Hab Hl]. split; [exact Hab|]. apply IH; [exact Hl|]. intros _. apply Hc. discriminate.
Qed.

Lemma linked_mono ns ns' l :
  (forall a b, In a l -> next_ok (Some b) (after a ns) -> next_ok (Some b) (after a ns')) ->
  linked ns l -> linked ns' l.
Proof.
  induction l as [|a [|b tl] IH]; intros H Hl; try exact I.
  destruct Hl as [Hab Hl]. split; [apply H; [left; reflexivity|exact Hab]|].
  apply IH; [intros x y Hx; apply H; right; exact Hx|exact Hl].
Qed.

Lemma linked_cover ns f : WF ns f -> forall l a A k,
  linked ns (a :: l) -> find_node a ns = Some A -> In k (all_keys (after a ns)) ->
  (exists b B, In b l /\ find_node b ns = Some B /\ In k (lk B)) \/ In k (all_keys (after (last l a) ns)).
Proof.
  intros W. induction l as [|b l IH]; intros a A k Hl Hf Hk; [right; exact Hk|].
  destruct Hl as [Hab Hl]. destruct (next_node _ _ _ _ (wf_nodup _ _ W) Hf Hab) as (d&B&HfB&Hd&Ea&_).
  rewrite Ea, all_keys_app, (all_keys_dead _ Hd), all_keys_cons in Hk. cbn [app] in Hk.
  apply in_app_or in Hk as [Hk|Hk].
  - left. exists b, B. split; [left; reflexivity|]. split; assumption.
  - rewrite last_cons. destruct (IH b B k Hl HfB Hk) as [(b'&B'&Hb&HfB'&Hk')|Hk']; [left|right; exact Hk'].
    exists b', B'. split; [right; exact Hb|]. split; assumption.
Qed.

Record InvC (s : cstate) : Prop := {
  ic_first :
    exists n, find_node (fst (first_rec (c_scan s))) (c_nodes s) = Some n /\
              cn_lo n <= sc_l (c_scan s) /\ cv_del (snd (first_rec (c_scan s))) = false;
  ic_empty : sc_nvset (c_scan s) = [] -> sc_res (c_scan s) = [] /\ sc_pc (c_scan s) <> CDone;
  ic_main : recs_current s ->
    (* removes are invisible in the versions: the result holds the present keys of each recorded node that
       are in the interval, it may hold removed ones *)
    (forall id n, In id (map fst (sc_nvset (c_scan s))) -> find_node id (c_nodes s) = Some n ->
       forall k, In k (cn_keys n) -> in_interval (sc_l (c_scan s)) (sc_r (c_scan s)) k = true ->
       In k (sc_res (c_scan s))) /\
    (* no live node between two recorded ones has been passed over *)
    linked (c_nodes s) (map fst (sc_nvset (c_scan s))) /\
    (* the scan stands at the successor of the last recorded node *)
    (sc_nvset (c_scan s) <> [] -> scanning (c_scan s) = true ->
       next_ok (Some (sc_cur (c_scan s))) (after (last_rec (c_scan s)) (c_nodes s))) /\
    (sc_pc (c_scan s) = CDone -> ends_at (sc_r (c_scan s)) (c_nodes s) (last_rec (c_scan s))) }.

Lemma InvC_init kss : kss_ok kss = true -> InvC (cinit kss).
Proof.
  intros Hk. destruct (cinit_head kss Hk) as (n0&tl&E&Hid&Hlo&_). constructor.
  - exists n0. rewrite E. cbn. rewrite Hid, Hlo. split; [reflexivity|]. split; [lia|reflexivity].
  - intros _. split; [reflexivity|discriminate].
  - cbn. intros _. split; [intros id n []|]. split; [exact I|]. split; [intros []; reflexivity|discriminate].
Qed.

(** every clause speaks of one recorded node, which the step has left alone since its version is still current *)
Lemma InvC_wtrans e s s' :
  WF (c_nodes s) (c_fresh s) -> InvB s -> InvC s -> wtrans e s s' -> InvC s'.
Proof.
  intros W IB [C1 C2 C3] [Hst Hsc _ _].
  destruct (wstep_shape _ _ _ _ _ W Hst) as (g&lost&Wm&Hsh&_).
  pose proof (wshape_find _ _ _ _ _ _ W Wm Hsh) as Hfind.
  constructor; rewrite ?Hsc.
  - destruct C1 as (n&Hf&Hlo&Hd). exists (g n). split; [apply Hfind, Hf|]. split; [|exact Hd].
    pose proof (wm_lo _ _ _ _ Wm n (find_node_in _ _ _ Hf)). lia.
  - exact C2.
  - intros HC'. unfold recs_current in HC'. rewrite Hsc in HC'.
    assert (Hrec : forall id v, In (id, v) (sc_nvset (c_scan s)) ->
              exists n, find_node id (c_nodes s) = Some n /\ cn_ver n = v /\ cn_ver (g n) = cn_ver n).
    { intros id v Hin. destruct (ib_nvset _ IB id v Hin) as (n&Hf&Hv). destruct (HC' id v Hin) as (n'&Hf'&Hv').
      destruct (wshape_current _ _ _ _ _ _ W Wm Hsh _ _ _ _ Hf Hv Hf' Hv') as (_&E&Eg&_). eauto. }
    assert (HC : recs_current s).
    { intros id v Hin. destruct (Hrec id v Hin) as (n&Hf&Hv&_). eauto. }
    assert (Hun : forall id, In id (map fst (sc_nvset (c_scan s))) ->
              exists n, find_node id (c_nodes s) = Some n /\ cn_ver (g n) = cn_ver n).
    { intros id Hid. apply in_map_iff in Hid as ([id' v]&<-&Hin). destruct (Hrec _ _ Hin) as (n&Hf&_&Hg). eauto. }
    destruct (C3 HC) as (R1&R2&R3&R4). split; [|split; [|split]].
    + intros id n' Hid Hf' k Hk. destruct (Hun id Hid) as (n&Hf&Hg).
      rewrite (Hfind _ _ Hf) in Hf'. injection Hf' as <-.
      apply (R1 id n Hid Hf). exact (wm_same _ _ _ _ Wm n (find_node_in _ _ _ Hf) Hg k Hk).
    + apply (linked_mono (c_nodes s)); [|exact R2]. intros a b Ha. destruct (Hun a Ha) as (n&Hf&Hg).
      exact (wshape_after _ _ _ _ _ _ W Wm Hsh a n _ Hf (f_equal cv_split Hg)).
    + intros Hne Hs. destruct (Hun _ (last_rec_in _ Hne)) as (PM&HfPM&HgPM).
      exact (wshape_after _ _ _ _ _ _ W Wm Hsh _ PM _ HfPM (f_equal cv_split HgPM) (R3 Hne Hs)).
    + intros Hpc. assert (Hne : sc_nvset (c_scan s) <> []) by (intros E; apply (C2 E), Hpc).
      destruct (Hun _ (last_rec_in _ Hne)) as (PM&HfPM&HgPM).
      exact (wshape_ends_at _ _ _ _ _ _ W Wm Hsh _ _ PM HfPM HgPM (R4 Hpc)).
Qed.

Lemma InvC_restart s' l r rs n :
  WF (c_nodes s') (c_fresh s') -> cover l (c_nodes s') = Some n -> c_scan s' = sc_restart l r rs n -> InvC s'.
Proof.
  intros W Hc Hsc. destruct (cover_In _ _ _ Hc) as (_&Ln&Hlo).
  constructor; rewrite Hsc; cbn.
  - exists n. split; [eapply cover_find; eauto|]. split; [exact Hlo|apply live_true, Ln].
  - intros _. split; [reflexivity|discriminate].
  - intros _. split; [intros id n' []|]. split; [exact I|]. split; [intros []; reflexivity|discriminate].
Qed.

(** the version the scan validates against matters only as long as nothing is recorded, and then only by its
    deleted flag *)
Lemma InvC_frame s sc' :
  InvC s -> scanning (c_scan s) = true -> scanning sc' = true ->
  sc_l sc' = sc_l (c_scan s) -> sc_r sc' = sc_r (c_scan s) -> sc_cur sc' = sc_cur (c_scan s) ->
  (cv_del (sc_v (c_scan s)) = false -> cv_del (sc_v sc') = false) ->
  sc_res sc' = sc_res (c_scan s) -> sc_nvset sc' = sc_nvset (c_scan s) ->
  InvC (set_scan s sc').
Proof.
  intros [C1 C2 C3] Hs Hs' El Er Ec Hv Eres Env.
  assert (Ef : fst (first_rec sc') = fst (first_rec (c_scan s)) /\
               (cv_del (snd (first_rec (c_scan s))) = false -> cv_del (snd (first_rec sc')) = false)).
  { unfold first_rec. rewrite Env, Ec. destruct (sc_nvset (c_scan s)); auto. }
  destruct Ef as [Ef Hd].
  pose proof (scanning_not_done _ Hs') as Hnd.
  constructor; cbn [set_scan c_scan c_nodes]; unfold recs_current, last_rec; cbn [set_scan c_scan c_nodes];
    rewrite ?Ef, ?El, ?Er, ?Ec, ?Eres, ?Env.
  - destruct C1 as (n&Hf&Hlo&Hdel). exists n. auto.
  - intros E. split; [apply (C2 E)|exact Hnd].
  - intros HC. destruct (C3 HC) as (R1&R2&R3&_).
    split; [exact R1|]. split; [exact R2|]. split; [auto|]. intros E. destruct (Hnd E).
Qed.

Lemma InvC_deliver s c sc' :
  InvC s -> sc_pc (c_scan s) = CValidate -> find_node (sc_cur (c_scan s)) (c_nodes s) = Some c ->
  (forall k, In k (cn_keys c) -> In k (sc_snap (c_scan s))) ->
  sc_l sc' = sc_l (c_scan s) ->
  (* the right end may move left: the scanner of ChainLimProofs, which a size limit ends after a key [d], has
     scanned the interval up to [d] *)
  (forall k, le_r k (sc_r sc') = true -> le_r k (sc_r (c_scan s)) = true) ->
  (forall k, In k (deliver_res (c_scan s)) -> le_r k (sc_r sc') = true -> In k (sc_res sc')) ->
  sc_nvset sc' = sc_nvset (c_scan s) ++ [(sc_cur (c_scan s), sc_v (c_scan s))] ->
  (scanning sc' = true -> next_ok (Some (sc_cur sc')) (after (sc_cur (c_scan s)) (c_nodes s))) ->
  (sc_pc sc' = CDone -> ends_at (sc_r sc') (c_nodes s) (sc_cur (c_scan s))) ->
  InvC (set_scan s sc').
Proof.
  intros [C1 C2 C3] Hpc Hf Hsnap El Hnar Eres Env Hnext Hdone.
  constructor; cbn [set_scan c_scan c_nodes];
    rewrite ?(first_rec_deliver _ _ Env), ?(last_rec_deliver _ _ Env), ?El.
  - exact C1.
  - rewrite Env. intros E. destruct (sc_nvset (c_scan s)); discriminate.
  - intros HC'.
    assert (HC : recs_current s).
    { intros id v Hin. apply HC'. cbn [set_scan c_scan]. rewrite Env. apply in_or_app. left. exact Hin. }
    destruct (C3 HC) as (R1&R2&R3&_). rewrite Env, map_app. cbn [map fst]. split; [|split; [|split]].
    + (* the keys of an earlier node are in the result already; those of this node are in the snapshot *)
      intros id n Hid Hfn k Hk Hi. apply Eres; [|exact (in_interval_le_r _ _ _ Hi)].
      apply (in_interval_widen _ _ _ _ (Hnar k)) in Hi. rewrite deliver_res_eq. apply in_or_app.
      apply in_app_or in Hid as [Hid|[<-|[]]]; [left; exact (R1 id n Hid Hfn k Hk Hi)|right].
      rewrite Hf in Hfn. injection Hfn as <-. apply filter_In. split; [apply Hsnap, Hk|exact Hi].
    + apply (linked_snoc _ _ (sc_cur (c_scan s))); [exact R2|]. intros Hne.
      apply R3; [|exact (scanning_of_pc _ (or_intror Hpc))]. intros E. apply Hne. rewrite E. reflexivity.
    + intros _. exact Hnext.
    + exact Hdone.
Qed.

Lemma InvC_step fx s e s' :
  WF (c_nodes s) (c_fresh s) -> InvB s -> InvC s -> cstep fx s e = Some s' -> InvC s'.
Proof.
  intros W IB IC H. destruct (writer e) eqn:We.
  { apply (InvC_wtrans e s s' W IB IC). eapply cstep_wtrans; eauto. }
  destruct e; try discriminate.
  - pose proof (WF_step _ _ _ _ W H) as W'. apply cstep_begin in H as (Hpc&n&Hc&->).
    eapply InvC_restart; cbn; eauto.
  - apply cstep_read in H as (Hpc&Hs&c&Hf&->). apply InvC_frame; auto.
  - apply cstep_nextver in H as (Hpc&Hs&->). apply InvC_frame; auto.
  - apply cstep_validate in H as (Hpc&Hs&c&Hf&Hcases).
    destruct Hcases as [(n&Hc&->)|[(Hv&Hst&Hcases)|(Hv&Hdel&->)]].
    + eapply InvC_restart; cbn; eauto.
    + destruct (ib_snap _ IB (or_intror Hpc) c Hf Hv) as (Hsnap&Hnx&_).
      destruct Hcases as [(Hend&->)|(nx&Hbey&Hnxt&->)]; apply (InvC_deliver s c); auto; cbn; try discriminate.
      * intros _. exact (scan_end s c IB Hpc Hf Hv Hend).
      * intros _. rewrite <- Hnxt. exact Hnx.
    + apply InvC_frame; auto.
Qed.

Record CInv (fx : bool) (s : cstate) : Prop := {
  inv_wf : WF (c_nodes s) (c_fresh s);
  inv_A : InvA fx s;
  inv_B : InvB s;
  inv_C : InvC s }.

Lemma CInv_init fx kss : kss_ok kss = true -> CInv fx (cinit kss).
Proof.
  intros Hk. constructor; [apply WF_init, Hk|apply InvA_init|apply InvB_init|apply InvC_init, Hk].
Qed.

Lemma CInv_wtrans fx e s s' : CInv fx s -> wtrans e s s' -> CInv fx s'.
Proof.
  intros [W IA IB IC] Wt. constructor.
  - exact (WF_wstep _ _ _ _ _ W (wt_step _ _ _ Wt)).
  - exact (InvA_wtrans fx e s s' W IA Wt).
  - exact (InvB_wtrans fx e s s' W IA IB Wt).
  - exact (InvC_wtrans e s s' W IB IC Wt).
Qed.

Lemma CInv_step fx s e s' : CInv fx s -> cstep fx s e = Some s' -> CInv fx s'.
Proof.
  intros [W IA IB IC] H. constructor.
  - exact (WF_step fx s e s' W H).
  - exact (InvA_step fx s e s' W IA H).
  - exact (InvB_step fx s e s' W IA IB H).
  - exact (InvC_step fx s e s' W IB IC H).
Qed.

(** what [run_inv_ev], [run_inv] and [run_app] of ListAux ask of a run *)
Lemma crun_eq fx s evs :
  crun fx s evs = match evs with
                  | [] => Some s
                  | e :: tl => match cstep fx s e with Some s' => crun fx s' tl | None => None end
                  end.
Proof. destruct evs; reflexivity. Qed.
Lemma creach fx kss evs s : kss_ok kss = true -> crun fx (cinit kss) evs = Some s -> CInv fx s.
Proof.
  intros Hk. apply (run_inv _ _ (crun_eq fx) (CInv fx)); [apply CInv_step|apply CInv_init, Hk].
Qed.

(** ** What the recorded versions tell

    A remove does not change the version word of its border, so "every recorded (node, version) pair is still
    current" excludes inserts into, splits of and unlinks of the recorded nodes, not removes.  What holds:
    - no undetected insert: every key of the interval that exists now is in the result;
    - the result is the current keys of the interval plus keys removed since they were read (which, by
      [chain_scan_sound], were present at an instant of the scan);
    - without a remove since the invocation the result is exactly the current keys of the interval;
    - with a remove after the scan the exact form fails ([chain_phantom_free_with_remove_refuted]). *)

(** with every recorded version current, a key of the interval is in the result or lies after the last
    recorded node: below the first recorded node there is none, and the recorded nodes are [linked] *)
Lemma InvC_covered s k :
  WF (c_nodes s) (c_fresh s) -> InvC s -> recs_current s -> sc_nvset (c_scan s) <> [] ->
  In k (all_keys (c_nodes s)) -> in_interval (sc_l (c_scan s)) (sc_r (c_scan s)) k = true ->
  In k (sc_res (c_scan s)) \/ In k (all_keys (after (last_rec (c_scan s)) (c_nodes s))).
Proof.
  intros W [C1 _ C3] HC Hne Hin Hi. destruct (C3 HC) as (R1&R2&_).
  destruct C1 as (P1&HfP1&Hlo&Hdel). unfold last_rec, first_rec, recs_current in *.
  destruct (sc_nvset (c_scan s)) as [|[p1 v1] tl]; [destruct Hne; reflexivity|]. cbn [hd fst snd map] in *.
  destruct (HC p1 v1 (or_introl eq_refl)) as (P1'&HfP1'&HvP1). rewrite HfP1 in HfP1'. injection HfP1' as <-.
  assert (LP1 : live P1 = true) by (eapply live_of_ver; eauto).
  apply (in_all_keys_at _ _ _ k HfP1) in Hin as [Hin|[Hin|Hin]].
  - pose proof (before_below _ _ _ _ _ W HfP1 LP1 Hin). apply in_interval_l in Hi. lia.
  - left. apply in_lk in Hin as [_ Hin]. exact (R1 p1 P1 (or_introl eq_refl) HfP1 k Hin Hi).
  - rewrite last_cons. destruct (linked_cover _ _ W _ _ _ k R2 HfP1 Hin) as [(b&B&Hb&HfB&Hk)|Hk]; [left|right; exact Hk].
    apply in_lk in Hk as [_ Hk]. exact (R1 b B (or_intror Hb) HfB k Hk Hi).
Qed.

Lemma InvC_no_phantom_insert s k :
  WF (c_nodes s) (c_fresh s) -> InvC s -> sc_pc (c_scan s) = CDone -> recs_current s ->
  In k (all_keys (c_nodes s)) -> in_interval (sc_l (c_scan s)) (sc_r (c_scan s)) k = true ->
  In k (sc_res (c_scan s)).
Proof.
  intros W IC Hpc HC Hin Hi.
  assert (Hne : sc_nvset (c_scan s) <> []) by (intros E; apply (ic_empty _ IC E), Hpc).
  destruct (InvC_covered s k W IC HC Hne Hin Hi) as [H|H]; [exact H|exfalso].
  destruct (ic_main _ IC HC) as (_&_&_&R4). exact (nothing_after _ _ _ _ _ _ W (R4 Hpc) H Hi).
Qed.

Theorem chain_scan_ascending : forall kss evs s,
  kss_ok kss = true -> crun true (cinit kss) evs = Some s ->
  sorted_strict (sc_res (c_scan s)) = true.
Proof. intros kss evs s Hk H. apply (ia_sorted _ _ (inv_A _ _ (creach _ _ _ _ Hk H)) eq_refl). Qed.

Theorem chain_scan_sound_any : forall fx kss evs s k,
  kss_ok kss = true -> crun fx (cinit kss) evs = Some s ->
  In k (sc_res (c_scan s)) ->
  in_interval (sc_l (c_scan s)) (sc_r (c_scan s)) k = true /\ In k (c_ever s).
Proof. intros fx kss evs s k Hk H. apply (ia_res _ _ (inv_A _ _ (creach _ _ _ _ Hk H))). Qed.

Theorem chain_scan_sound : forall kss evs s k,
  kss_ok kss = true -> crun true (cinit kss) evs = Some s ->
  In k (sc_res (c_scan s)) ->
  in_interval (sc_l (c_scan s)) (sc_r (c_scan s)) k = true /\ In k (c_ever s).
Proof. intros kss evs s k. apply chain_scan_sound_any. Qed.

Theorem chain_stable_present : forall fx kss evs s k,
  kss_ok kss = true -> crun fx (cinit kss) evs = Some s -> In k (c_stable s) -> In k (all_keys (c_nodes s)).
Proof. intros fx kss evs s k Hk H. apply (ia_stable _ _ (inv_A _ _ (creach _ _ _ _ Hk H))). Qed.

Theorem chain_present_ever : forall fx kss evs s k,
  kss_ok kss = true -> crun fx (cinit kss) evs = Some s -> scanning (c_scan s) = true ->
  In k (all_keys (c_nodes s)) -> In k (c_ever s).
Proof. intros fx kss evs s k Hk H Hs. apply (ia_ever _ _ (inv_A _ _ (creach _ _ _ _ Hk H)) Hs). Qed.

Theorem chain_scan_no_lost_stable_key_any : forall fx kss evs s k,
  kss_ok kss = true -> crun fx (cinit kss) evs = Some s ->
  sc_pc (c_scan s) = CDone -> In k (c_stable s) ->
  in_interval (sc_l (c_scan s)) (sc_r (c_scan s)) k = true ->
  In k (sc_res (c_scan s)).
Proof. intros fx kss evs s k Hk H Hpc. apply (ib_done _ (inv_B _ _ (creach _ _ _ _ Hk H)) Hpc). Qed.

Theorem chain_scan_no_lost_stable_key : forall kss evs s k,
  kss_ok kss = true -> crun true (cinit kss) evs = Some s ->
  sc_pc (c_scan s) = CDone -> In k (c_stable s) ->
  in_interval (sc_l (c_scan s)) (sc_r (c_scan s)) k = true ->
  In k (sc_res (c_scan s)).
Proof. intros kss evs s k. apply chain_scan_no_lost_stable_key_any. Qed.

Theorem chain_scan_no_phantom_insert_any : forall fx kss evs s k,
  kss_ok kss = true -> crun fx (cinit kss) evs = Some s ->
  sc_pc (c_scan s) = CDone ->
  (forall id v, In (id, v) (sc_nvset (c_scan s)) ->
     exists n, find_node id (c_nodes s) = Some n /\ cn_ver n = v) ->
  In k (all_keys (c_nodes s)) -> in_interval (sc_l (c_scan s)) (sc_r (c_scan s)) k = true ->
  In k (sc_res (c_scan s)).
Proof.
  intros fx kss evs s k Hk H Hpc HC Hin Hi. destruct (creach _ _ _ _ Hk H) as [W _ _ IC].
  apply InvC_no_phantom_insert; assumption.
Qed.

Theorem chain_scan_no_phantom_insert : forall kss evs s k,
  kss_ok kss = true -> crun true (cinit kss) evs = Some s -> sc_pc (c_scan s) = CDone ->
  (forall id v, In (id, v) (sc_nvset (c_scan s)) -> exists n, find_node id (c_nodes s) = Some n /\ cn_ver n = v) ->
  In k (all_keys (c_nodes s)) -> in_interval (sc_l (c_scan s)) (sc_r (c_scan s)) k = true ->
  In k (sc_res (c_scan s)).
Proof. intros kss evs s k. apply chain_scan_no_phantom_insert_any. Qed.

Definition removed_since (s : cstate) : list N :=
  filter (fun k => negb (mem k (all_keys (c_nodes s)))) (sc_res (c_scan s)).

Lemma in_removed_since s k :
  In k (removed_since s) <-> In k (sc_res (c_scan s)) /\ ~ In k (all_keys (c_nodes s)).
Proof. unfold removed_since. rewrite filter_In, negb_true_iff, mem_false. reflexivity. Qed.

(** no hypothesis on the recorded versions: this is soundness ([chain_scan_sound_any]) *)
Theorem chain_scan_result_split_any : forall fx kss evs s k,
  kss_ok kss = true -> crun fx (cinit kss) evs = Some s -> In k (sc_res (c_scan s)) ->
  In k (filter (in_interval (sc_l (c_scan s)) (sc_r (c_scan s))) (all_keys (c_nodes s))) \/
  (In k (removed_since s) /\ In k (c_ever s)).
Proof.
  intros fx kss evs s k Hk H Hin. destruct (chain_scan_sound_any _ _ _ _ _ Hk H Hin) as [Hi He].
  destruct (mem k (all_keys (c_nodes s))) eqn:M.
  - left. apply filter_In. split; [apply mem_true, M|exact Hi].
  - right. split; [|exact He]. apply in_removed_since. split; [exact Hin|apply mem_false, M].
Qed.

Theorem chain_scan_current_keys_sublist : forall kss evs s,
  kss_ok kss = true -> crun true (cinit kss) evs = Some s -> sc_pc (c_scan s) = CDone ->
  (forall id v, In (id, v) (sc_nvset (c_scan s)) -> exists n, find_node id (c_nodes s) = Some n /\ cn_ver n = v) ->
  filter (in_interval (sc_l (c_scan s)) (sc_r (c_scan s))) (all_keys (c_nodes s)) =
  filter (fun k => mem k (all_keys (c_nodes s))) (sc_res (c_scan s)).
Proof.
  intros kss evs s Hk H Hpc HC. destruct (creach _ _ _ _ Hk H) as [W IA _ _].
  apply sorted_ext.
  - apply sorted_filter, (WF_sorted _ _ W).
  - apply sorted_filter, (ia_sorted _ _ IA eq_refl).
  - intros k. rewrite !filter_In, mem_true. split.
    + intros [Hin Hi]. split; [|exact Hin]. eapply chain_scan_no_phantom_insert; eauto.
    + intros [Hin Hm]. split; [exact Hm|]. apply (ia_res _ _ IA k Hin).
Qed.

Theorem chain_scan_result_superset : forall kss evs s,
  kss_ok kss = true -> crun true (cinit kss) evs = Some s -> sc_pc (c_scan s) = CDone ->
  (forall id v, In (id, v) (sc_nvset (c_scan s)) -> exists n, find_node id (c_nodes s) = Some n /\ cn_ver n = v) ->
  exists removed,
    Permutation (sc_res (c_scan s))
      (filter (in_interval (sc_l (c_scan s)) (sc_r (c_scan s))) (all_keys (c_nodes s)) ++ removed) /\
    (forall k, In k removed -> ~ In k (all_keys (c_nodes s))).
Proof.
  intros kss evs s Hk H Hpc HC. exists (removed_since s).
  split; [|intros k Hkr; apply in_removed_since in Hkr; apply Hkr].
  rewrite (chain_scan_current_keys_sublist _ _ _ Hk H Hpc HC). apply filter_split_perm.
Qed.

(** ** No remove since the invocation: the result is exact *)
Definition NoRem (s : cstate) : Prop := forall k, In k (c_ever s) -> In k (all_keys (c_nodes s)).
Definition no_rem (e : cev) : Prop := forall k, e <> ERem k.

Lemma NoRem_wtrans e s s' : WF (c_nodes s) (c_fresh s) -> no_rem e -> NoRem s -> wtrans e s s' -> NoRem s'.
Proof.
  intros W Hnr HN [Hst _ _ Hev]. destruct (wstep_shape _ _ _ _ _ W Hst) as (g&lost&Wm&Hsh&Hins).
  intros k Hk. rewrite Hev in Hk. apply in_ever_after in Hk as [Hk|[_ Hk]]; [|apply (Hins k Hk)].
  destruct (wshape_keys_sup _ _ _ _ _ _ Wm Hsh k (HN k Hk)) as [H|H]; [exact H|destruct (Hnr k H)].
Qed.

Lemma NoRem_step fx s e s' :
  WF (c_nodes s) (c_fresh s) -> no_rem e -> NoRem s -> cstep fx s e = Some s' -> NoRem s'.
Proof.
  intros W Hnr HN H. destruct (writer e) eqn:We.
  { exact (NoRem_wtrans e s s' W Hnr HN (cstep_wtrans _ _ _ _ We H)). }
  destruct (cstep_scan_frame _ _ _ _ We H) as (En&_&Ee). intros k Hk. rewrite En.
  destruct Ee as [Ee|Ee]; rewrite Ee in Hk; [exact (HN k Hk)|exact Hk].
Qed.

Lemma NoRem_run fx evs s s' :
  WF (c_nodes s) (c_fresh s) -> NoRem s -> (forall k, ~ In (ERem k) evs) -> crun fx s evs = Some s' -> NoRem s'.
Proof.
  intros W HN Hnr H.
  assert (HP : WF (c_nodes s') (c_fresh s') /\ NoRem s'); [|apply HP].
  apply (run_inv_ev _ _ (crun_eq fx) no_rem (fun s => WF (c_nodes s) (c_fresh s) /\ NoRem s))
    with (evs := evs) (s := s); auto.
  - intros s0 e s1 HQ [W0 N0] Hs. split; [eapply WF_step; eauto|eapply NoRem_step; eauto].
  - intros e He k ->. exact (Hnr k He).
Qed.

Lemma phantom_free_core s :
  WF (c_nodes s) (c_fresh s) -> InvA true s -> NoRem s ->
  (forall k, In k (all_keys (c_nodes s)) -> in_interval (sc_l (c_scan s)) (sc_r (c_scan s)) k = true ->
             In k (sc_res (c_scan s))) ->
  sc_res (c_scan s) = filter (in_interval (sc_l (c_scan s)) (sc_r (c_scan s))) (all_keys (c_nodes s)).
Proof.
  intros W IA HN Hsup. apply sorted_ext.
  - apply (ia_sorted _ _ IA eq_refl).
  - apply sorted_filter, (WF_sorted _ _ W).
  - intros k. rewrite filter_In. split.
    + intros Hin. destruct (ia_res _ _ IA k Hin) as [Hi He]. split; [apply HN, He|exact Hi].
    + intros [Hin Hi]. apply Hsup; assumption.
Qed.

Theorem chain_scan_phantom_free_no_removes_since_begin : forall kss pre l r post s,
  kss_ok kss = true -> crun true (cinit kss) (pre ++ EBegin l r :: post) = Some s -> sc_pc (c_scan s) = CDone ->
  (forall k, ~ In (ERem k) post) ->
  (forall id v, In (id, v) (sc_nvset (c_scan s)) -> exists n, find_node id (c_nodes s) = Some n /\ cn_ver n = v) ->
  sc_res (c_scan s) = filter (in_interval (sc_l (c_scan s)) (sc_r (c_scan s))) (all_keys (c_nodes s)).
Proof.
  intros kss pre l r post s Hk H Hpc Hnr HC.
  destruct (creach _ _ _ _ Hk H) as [W IA _ _].
  apply phantom_free_core; auto; [|intros k; eapply chain_scan_no_phantom_insert; eauto].
  rewrite (run_app _ _ (crun_eq true)) in H. destruct (crun true (cinit kss) pre) as [s0|] eqn:E0; [|discriminate].
  cbn [crun] in H. destruct (cstep true s0 (EBegin l r)) as [s1|] eqn:E1; [|discriminate].
  destruct (creach _ _ _ _ Hk E0) as [W0 _ _ _]. pose proof (WF_step _ _ _ _ W0 E1) as W1.
  apply (NoRem_run true post s1 s W1); auto.
  apply cstep_begin in E1 as (_&n&_&->). intros k. cbn. auto.
Qed.

Theorem chain_scan_phantom_free_no_removes : forall kss evs s,
  kss_ok kss = true -> crun true (cinit kss) evs = Some s -> sc_pc (c_scan s) = CDone ->
  (forall k, ~ In (ERem k) evs) ->
  (forall id v, In (id, v) (sc_nvset (c_scan s)) -> exists n, find_node id (c_nodes s) = Some n /\ cn_ver n = v) ->
  sc_res (c_scan s) = filter (in_interval (sc_l (c_scan s)) (sc_r (c_scan s))) (all_keys (c_nodes s)).
Proof.
  intros kss evs s Hk H Hpc Hnr HC. destruct (creach _ _ _ _ Hk H) as [W IA _ _].
  apply phantom_free_core; auto; [|intros k; eapply chain_scan_no_phantom_insert; eauto].
  apply (NoRem_run true evs (cinit kss) s (WF_init _ Hk)); auto. intros k [].
Qed.

(** ** Counterexamples and examples *)

(** the original scanner on [f8_trace]: the border it has left is emptied and unlinked, keys inserted at or below the
    delivered ones land in the next border and are delivered again; the repaired scanner restarts *)
Theorem chain_original_not_ascending :
  exists evs s, crun false (cinit [[10]; [20; 30]]) evs = Some s /\
    sc_pc (c_scan s) = CDone /\ sorted_strict (sc_res (c_scan s)) = false.
Proof.
  exists f8_trace. eexists. split; [vm_compute; reflexivity|]. split; reflexivity.
Qed.

Example chain_nonvacuous : exists evs s, crun true (cinit [[10]; [20; 30]]) evs = Some s /\
  sc_pc (c_scan s) = CDone /\ sc_res (c_scan s) = [10; 20; 30] /\ (1 <=? sc_restarts (c_scan s)) = true.
Proof.
  exists (f8_trace ++ [ERead; ENextVer; EValidate]). eexists. split; [vm_compute; reflexivity|].
  repeat split; reflexivity.
Qed.

(** a remove does not change the version word, so the exact form is false: scan everything, then remove 20 --
    every recorded pair is still current, the result still holds 20 *)
Definition refute_trace : list cev :=
  [EBegin 0 None; ERead; ENextVer; EValidate; ERead; ENextVer; EValidate; ERem 20].

Theorem chain_phantom_free_with_remove_refuted :
  exists evs s, crun true (cinit [[10]; [20; 30]]) evs = Some s /\ sc_pc (c_scan s) = CDone /\
    (forall id v, In (id, v) (sc_nvset (c_scan s)) -> exists n, find_node id (c_nodes s) = Some n /\ cn_ver n = v) /\
    sc_res (c_scan s) = [10; 20; 30] /\ all_keys (c_nodes s) = [10; 30] /\
    sc_res (c_scan s) <> filter (in_interval (sc_l (c_scan s)) (sc_r (c_scan s))) (all_keys (c_nodes s)).
Proof.
  exists refute_trace. eexists. split; [vm_compute; reflexivity|].
  cbn [c_scan c_nodes sc_pc sc_nvset sc_res sc_l sc_r]. split; [reflexivity|]. split.
  { intros id v [Hin|[Hin|[]]]; injection Hin as <- <-; eexists; split; reflexivity. }
  split; [reflexivity|]. split; [reflexivity|]. discriminate.
Qed.

(** the hypotheses of the theorems above are satisfiable: in the run of [chain_nonvacuous] (which contains a
    remove, an unlink and a restart) every recorded version is still current at the end *)
Example chain_phantom_free_nonvacuous :
  exists evs s, crun true (cinit [[10]; [20; 30]]) evs = Some s /\ sc_pc (c_scan s) = CDone /\
    sc_nvset (c_scan s) <> [] /\
    forallb (fun p => match find_node (fst p) (c_nodes s) with
                      | Some n => cver_eqb (cn_ver n) (snd p) | None => false end)
            (sc_nvset (c_scan s)) = true /\
    sc_res (c_scan s) = filter (in_interval (sc_l (c_scan s)) (sc_r (c_scan s))) (all_keys (c_nodes s)).
Proof.
  exists (f8_trace ++ [ERead; ENextVer; EValidate]). eexists. split; [vm_compute; reflexivity|].
  repeat split; try reflexivity. discriminate.
Qed.

(** ... and a run with an insert and a split but no remove after the invocation, to which the exact theorem
    applies (the remove before the invocation does not matter) *)
Example chain_phantom_free_no_removes_nonvacuous :
  exists pre l r post s, crun true (cinit [[10]; [20; 30]]) (pre ++ EBegin l r :: post) = Some s /\
    sc_pc (c_scan s) = CDone /\ (forall k, ~ In (ERem k) post) /\
    (forall id v, In (id, v) (sc_nvset (c_scan s)) -> exists n, find_node id (c_nodes s) = Some n /\ cn_ver n = v) /\
    sc_res (c_scan s) = [10; 25; 30].
Proof.
  exists [ERem 20], 0, None, [ERead; ENextVer; EValidate; EIns 25; ERead; ENextVer; EValidate; ERead; ENextVer; EValidate].
  eexists. split; [vm_compute; reflexivity|]. cbn [c_scan c_nodes sc_pc sc_nvset sc_res sc_l sc_r].
  split; [reflexivity|]. split.
  { intros k Hin. cbn in Hin. repeat (destruct Hin as [Hin|Hin]; [discriminate|]). exact Hin. }
  split; [|reflexivity].
  intros id v [Hin|[Hin|[]]]; injection Hin as <- <-; eexists; split; reflexivity.
Qed.

Print Assumptions chain_scan_ascending.
Print Assumptions chain_scan_sound.
Print Assumptions chain_scan_sound_any.
Print Assumptions chain_scan_no_lost_stable_key.
Print Assumptions chain_scan_no_lost_stable_key_any.
Print Assumptions chain_scan_no_phantom_insert.
Print Assumptions chain_scan_no_phantom_insert_any.
Print Assumptions chain_scan_result_split_any.
Print Assumptions chain_scan_result_superset.
Print Assumptions chain_scan_current_keys_sublist.
Print Assumptions chain_scan_phantom_free_no_removes.
Print Assumptions chain_scan_phantom_free_no_removes_since_begin.
Print Assumptions chain_phantom_free_with_remove_refuted.
Print Assumptions chain_stable_present.
Print Assumptions chain_present_ever.
Print Assumptions chain_original_not_ascending.
Print Assumptions chain_nonvacuous.
Print Assumptions chain_phantom_free_nonvacuous.
Print Assumptions chain_phantom_free_no_removes_nonvacuous.
