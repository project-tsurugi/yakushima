(** * VersionReportProofs: C12 for one layer -- put reports exactly the border
    nodes whose version word its insert changed.

    The leaves ("border nodes") of the new tree are the leaves of the old tree, in
    order, with the leaf reached by the key replaced by its new version (insert
    counter moved) and -- exactly when that leaf was full -- followed by one new
    leaf, whose id is [pi_created].  That is [layer_put_borders], with the new leaves as a
    list and the report as two equations; [c12_exact], [c12_modified_changes] and
    [c12_other_leaves_unchanged] read it in terms of ids and version lookups, [c12_exact]
    through [leaves_exact], which serves the store level (PutInfoProofs) as well.
    No hypothesis [lf_ver l < w64] is needed: the version change is shown on the
    insert-counter field ([get_vinsert_delete]), which moves by
    [unlock_moves_vinsert_delete] for every word. *)
From Coq Require Import NArith PeanoNat Lia ZifyBool ZifyN List.
From Yk Require Import VersionProofs KeyProofs TreeDefs ScanDefs LeafProofs LayerProofs.
Import ListNotations.

Definition leaf_versions (t : bt) : list (N * N) :=
  map (fun l => (lf_id l, lf_ver l)) (bt_leaves t).
Definition leaf_ids (t : bt) : list N := map lf_id (bt_leaves t).
Definition leaf_ver_of (t : bt) (i : N) : option N :=
  option_map lf_ver (find (fun l => N.eqb (lf_id l) i) (bt_leaves t)).
Definition ires_leaves (r : insres) : list leaf :=
  match r with IOne t => bt_leaves t | ISplit l _ r => bt_leaves l ++ bt_leaves r end.

(** ** The version words written by [leaf_put] *)

Lemma put_dirty_facts l :
  get_inserting_deleting (put_dirty l) = true /\
  get_splitting (put_dirty l) = get_splitting (lf_ver l) /\
  get_vinsert_delete (put_dirty l) = get_vinsert_delete (lf_ver l) /\
  get_vsplit (put_dirty l) = get_vsplit (lf_ver l) /\
  get_deleted (put_dirty l) = if (leaf_cnk l =? 0)%N then false else get_deleted (lf_ver l).
Proof.
  unfold put_dirty, v_lock. cbv zeta. destruct (leaf_cnk l =? 0)%N; repeat split; vframe.
Qed.

Lemma split_word_facts v1 :
  let v3 := set_root (set_splitting v1 true) false in
  get_inserting_deleting v3 = get_inserting_deleting v1 /\ get_splitting v3 = true /\
  get_vinsert_delete v3 = get_vinsert_delete v1 /\ get_vsplit v3 = get_vsplit v1.
Proof. cbv zeta. repeat split; vframe. Qed.

Lemma unlock_keeps_vsplit w : get_splitting w = false -> get_vsplit (unlock w) = get_vsplit w.
Proof.
  intros H. rewrite get_vsplit_unlock, H. reflexivity.
Qed.

Lemma leaf_put_report l k lv nid :
  (leaf_cnk l <> 15%N /\
   exists l',
     leaf_put l k lv nid = (IOne (BLeaf l'), {| pi_modified := lf_id l; pi_created := None |}) /\
     lf_id l' = lf_id l /\
     get_vinsert_delete (lf_ver l') <> get_vinsert_delete (lf_ver l) /\
     (get_splitting (lf_ver l) = false -> get_vsplit (lf_ver l') = get_vsplit (lf_ver l))) \/
  (leaf_cnk l = 15%N /\
   exists L sep R,
     leaf_put l k lv nid =
       (ISplit (BLeaf L) sep (BLeaf R), {| pi_modified := lf_id l; pi_created := Some nid |}) /\
     lf_id L = lf_id l /\ lf_id R = nid /\ lf_ver R = lf_ver L /\
     get_vinsert_delete (lf_ver L) <> get_vinsert_delete (lf_ver l) /\
     get_vsplit (lf_ver L) <> get_vsplit (lf_ver l)).
Proof.
  pose proof (leaf_put_words l k lv nid) as W.
  destruct (put_dirty_facts l) as (D1 & D2 & D3 & D4 & _).
  destruct (N.eqb_spec (leaf_cnk l) 15) as [E15|N15].
  - right. split; [exact E15|]. destruct W as (L & sep & R & E & HiL & HiR & HvL & HvR).
    exists L, sep, R. split; [exact E|]. split; [exact HiL|]. split; [exact HiR|]. split; [exact HvR|].
    destruct (split_word_facts (put_dirty l)) as (S1 & S2 & S3 & S4). rewrite HvL. split.
    + rewrite <- D3, <- S3. apply unlock_moves_vinsert_delete. rewrite S1. exact D1.
    + rewrite <- D4, <- S4. apply unlock_moves_vsplit. exact S2.
  - left. split; [exact N15|]. destruct W as (l' & E & Hi & Hv).
    exists l'. split; [exact E|]. split; [exact Hi|]. rewrite Hv. split.
    + rewrite <- D3. apply unlock_moves_vinsert_delete. exact D1.
    + intros Hs. rewrite <- D4. apply unlock_keeps_vsplit. rewrite D2. exact Hs.
Qed.

Lemma leaf_put_deleted l k lv nid r0 info :
  leaf_put l k lv nid = (r0, info) ->
  forall l', In l' (ires_leaves r0) ->
    get_deleted (lf_ver l') = if (leaf_cnk l =? 0)%N then false else get_deleted (lf_ver l).
Proof.
  intros E. pose proof (leaf_put_words l k lv nid) as W.
  destruct (put_dirty_facts l) as (_ & _ & _ & _ & D). rewrite <- D.
  destruct (leaf_cnk l =? 15)%N.
  - destruct W as (L & sep & R & E' & _ & _ & HvL & HvR). rewrite E in E'. injection E' as -> _.
    intros l' [<-|[<-|[]]]; rewrite ?HvR, HvL, get_deleted_unlock, get_deleted_set_root, get_deleted_set_splitting; reflexivity.
  - destruct W as (l1 & E' & _ & Hv). rewrite E in E'. injection E' as -> _.
    intros l' [<-|[]]. rewrite Hv. apply get_deleted_unlock.
Qed.

(** ** Interior nodes only rearrange their children *)

Lemma leaf_versions_int id ver keys ch :
  leaf_versions (BInt id ver keys ch) = flat_map leaf_versions ch.
Proof. apply map_flat_map. Qed.

Lemma leaf_ids_int id ver keys ch : leaf_ids (BInt id ver keys ch) = flat_map leaf_ids ch.
Proof. apply map_flat_map. Qed.

Lemma int_absorb_leaves lo hi id ver keys ch i l sep r nid :
  (1 <= length keys <= 15)%nat -> kids_ok lo hi keys ch -> (i < length ch)%nat ->
  kt_wf sep = true -> sep_bnd (lo_at lo keys i) (hi_at hi keys i) sep ->
  ires_leaves (int_absorb id ver keys ch i l sep r nid) =
    flat_map bt_leaves (insert_at (S i) r (set_nth i l ch)).
Proof.
  intros Hn (Hlen & Hs & Hw & _) Hi Hwsep Hb.
  rewrite (int_absorb_shape id ver keys ch i l sep r nid Hs Hw Hwsep
             (sep_is_pos lo hi keys sep i Hs ltac:(lia) Hb) Hlen). cbv zeta.
  destruct (length keys =? 15)%nat; cbn [ires_leaves bt_leaves]; [|reflexivity].
  rewrite <- flat_map_app, firstn_skipn. reflexivity.
Qed.

(** ** The leaves of the result of [bt_put] *)

Lemma bt_put_leaves k lv fuel : forall t lo hi ctr res info ctr',
  WF_bt lo hi t -> kt_wf k = true -> in_bnd lo hi k -> ~ In k (bt_keys t) ->
  entry_ok {| sl_key := k; sl_lv := lv |} -> (bt_height t < fuel)%nat ->
  bt_put fuel t k lv ctr = Some (res, info, ctr') ->
  exists lm A B r0,
    bt_find_leaf fuel t k = Some lm /\
    bt_leaves t = A ++ lm :: B /\
    leaf_put lm k lv ctr = (r0, info) /\
    ires_leaves res = A ++ ires_leaves r0 ++ B.
Proof.
  intros t lo hi ctr res info ctr' Hwf Hk Hbk Hnin Hok Hh. revert ctr res info ctr' Hbk Hnin.
  revert fuel t lo hi Hwf Hh. refine (descent_ind k _ Hk _ _).
  - intros f lo hi l _ ctr res info ctr' _ _ E. cbn [bt_put bt_find_leaf] in *.
    destruct (leaf_put l k lv ctr) as [r0 info0] eqn:El. injection E as <- <- <-.
    exists l, [], [], r0. cbn [bt_leaves app]. rewrite app_nil_r.
    split; [reflexivity|]. split; [reflexivity|]. split; [exact El|reflexivity].
  - intros f lo hi id ver keys ch i Hwf Hi Hnth Hwc Hbnd _ Hkeys Hhc IH ctr res info ctr' Hbk Hnin E.
    cbn [bt_put bt_find_leaf] in *. fold i in E |- *. rewrite Hnth in *. rewrite Hkeys in Hnin.
    set (c := nth i ch dbt) in *.
    destruct (bt_put_spec k lv f c _ _ ctr Hwc Hk (Hbnd Hbk) Hnin Hok Hhc)
      as (resc & infoc & ctrc & nw & Ec & Hres & _).
    rewrite Ec in E.
    destruct (IH ctr resc infoc ctrc (Hbnd Hbk) Hnin Ec) as (lm & A & B & r0 & F & HL & ELP & HR).
    exists lm, (flat_map bt_leaves (firstn i ch) ++ A), (B ++ flat_map bt_leaves (skipn (S i) ch)), r0.
    split; [exact F|]. split.
    { cbn [bt_leaves]. rewrite (flat_map_split bt_leaves dbt ch i Hi). fold c.
      rewrite HL, <- !app_assoc. reflexivity. }
    destruct resc as [c'|l sep r].
    + injection E as <- <- <-. split; [exact ELP|].
      cbn [ires_leaves bt_leaves] in *. rewrite flat_map_set_nth by exact Hi.
      rewrite HR, <- !app_assoc. reflexivity.
    + injection E as <- <- <-. split; [exact ELP|].
      cbn [ires_ok] in Hres. destruct Hres as (_ & _ & Hwsep & Hbsep & _).
      apply WF_int_iff in Hwf. destruct Hwf as [Hn Hkids].
      rewrite (int_absorb_leaves lo hi id ver keys ch i l sep r ctrc Hn Hkids Hi Hwsep Hbsep).
      rewrite flat_map_insert_after_set by exact Hi.
      cbn [ires_leaves] in HR. rewrite HR, <- !app_assoc. reflexivity.
Qed.

Lemma layer_put_leaves root k lv ctr root' info ctr' :
  WF_layer root -> kt_wf k = true -> ~ In k (bt_keys root) ->
  entry_ok {| sl_key := k; sl_lv := lv |} ->
  layer_put root k lv ctr = Some (root', info, ctr') ->
  exists lm A B r0,
    find_leaf root k = Some lm /\
    bt_leaves root = A ++ lm :: B /\
    leaf_put lm k lv ctr = (r0, info) /\
    bt_leaves root' = A ++ ires_leaves r0 ++ B.
Proof.
  intros [Hwf _] Hk Hnin Hok E. apply layer_put_inv in E. destruct E as (res & c0 & Eb & E).
  destruct (bt_put_leaves k lv (S (bt_height root)) root None None ctr res info c0 Hwf Hk)
    as (lm & A & B & r0 & F & HL & ELP & HR);
    [split; exact I|exact Hnin|exact Hok|lia|exact Eb|].
  exists lm, A, B, r0. unfold find_leaf.
  destruct res as [t|l sep r]; destruct E as [-> ->].
  - repeat split; assumption.
  - repeat split; try assumption.
    cbn [bt_leaves flat_map]. rewrite app_nil_r. exact HR.
Qed.

(** ** Leaf ids and version lookup *)

Lemma leaf_ids_incl t i : In i (leaf_ids t) -> In i (bt_ids t).
Proof.
  unfold leaf_ids. intros H. apply in_map_iff in H. destruct H as (l & <- & H).
  apply bt_leaves_ids_incl. exact H.
Qed.

Lemma leaf_ids_NoDup t : NoDup (bt_ids t) -> NoDup (leaf_ids t).
Proof.
  induction t as [l|id ver keys ch IH] using bt_ind'.
  - intros _. cbn. constructor; [intros []|constructor].
  - rewrite leaf_ids_int. cbn [bt_ids]. intros H. apply NoDup_cons_iff in H. destruct H as [_ H].
    induction ch as [|c ch IHch]; [constructor|].
    cbn [flat_map] in *. apply Forall_cons_iff in IH. destruct IH as [IHc IHr].
    apply NoDup_app in H. destruct H as (H1 & H2 & H3).
    apply NoDup_app. split; [apply IHc; exact H1|]. split; [apply IHch; assumption|].
    intros x X1 X2. apply (H3 x); [apply leaf_ids_incl; exact X1|].
    apply in_flat_map in X2. destruct X2 as (c0 & Hc0 & X2). apply in_flat_map.
    exists c0. split; [exact Hc0|apply leaf_ids_incl; exact X2].
Qed.

Lemma leaf_versions_ids t : map fst (leaf_versions t) = leaf_ids t.
Proof. unfold leaf_versions, leaf_ids. rewrite map_map. reflexivity. Qed.

Lemma leaf_versions_in t lf :
  In lf (bt_leaves t) -> In (lf_id lf, lf_ver lf) (leaf_versions t).
Proof. intros H. unfold leaf_versions. apply (in_map (fun l => (lf_id l, lf_ver l))). exact H. Qed.

Lemma leaf_versions_inv t i w :
  In (i, w) (leaf_versions t) -> exists lf, In lf (bt_leaves t) /\ lf_ver lf = w.
Proof.
  unfold leaf_versions. intros H. apply in_map_iff in H. destruct H as (lf & E & H).
  injection E as _ <-. exists lf. split; [exact H|reflexivity].
Qed.

(** [leaf_ver_of] and [PhantomProofs.store_leaf_ver] are this lookup on the borders of one layer /
    of a store *)
Definition ver_in (L : list leaf) (i : N) : option N := option_map lf_ver (find (fun l => N.eqb (lf_id l) i) L).

Lemma leaf_ver_of_ver_in t i : leaf_ver_of t i = ver_in (bt_leaves t) i.
Proof. reflexivity. Qed.

Lemma ver_in_iff (ls : list leaf) i v :
  NoDup (map lf_id ls) -> (ver_in ls i = Some v <-> In (i, v) (map (fun l => (lf_id l, lf_ver l)) ls)).
Proof.
  unfold ver_in. induction ls as [|a ls IH]; intros Hnd; cbn [find map In option_map].
  - split; [discriminate|intros []].
  - cbn [map] in Hnd. apply NoDup_cons_iff in Hnd. destruct Hnd as [Hna Hnd].
    destruct (N.eqb_spec (lf_id a) i) as [E|NE].
    + cbn [option_map]. split.
      * intros H. injection H as <-. left. rewrite E. reflexivity.
      * intros [H|H]; [injection H as _ <-; reflexivity|].
        exfalso. apply Hna. apply in_map_iff in H. destruct H as (l & H & Hl).
        injection H as H1 H2. rewrite E, <- H1. apply in_map. exact Hl.
    + rewrite (IH Hnd). split; [intros H; right; exact H|].
      intros [H|H]; [injection H as H _; contradiction|exact H].
Qed.

Lemma ver_in_some L i v : ver_in L i = Some v -> exists l, In l L /\ lf_id l = i /\ lf_ver l = v.
Proof.
  unfold ver_in. intros H. destruct (find (fun l => N.eqb (lf_id l) i) L) as [l|] eqn:E; [|discriminate].
  injection H as <-. apply find_some in E. destruct E as [Hl E]. apply N.eqb_eq in E. exists l. repeat split; assumption.
Qed.

Lemma leaf_ver_of_spec t i v :
  NoDup (leaf_ids t) -> (leaf_ver_of t i = Some v <-> In (i, v) (leaf_versions t)).
Proof. rewrite leaf_ver_of_ver_in. apply ver_in_iff. Qed.

Lemma ver_in_spec L l : NoDup (map lf_id L) -> In l L -> ver_in L (lf_id l) = Some (lf_ver l).
Proof.
  intros Hnd Hin. apply (ver_in_iff _ _ _ Hnd). apply (in_map (fun l => (lf_id l, lf_ver l))). exact Hin.
Qed.

(** exactness of a report on lists of borders: [lm] is replaced by [lm'], [N] are the new
    borders, [R] those that stay *)
Lemma leaves_exact (old new R N : list leaf) (lm lm' : leaf) :
  NoDup (map lf_id old) -> NoDup (map lf_id new) ->
  (forall l, In l old <-> lm = l \/ In l R) ->
  (forall l, In l new <-> lm' = l \/ In l N \/ In l R) ->
  lf_id lm' = lf_id lm -> lf_ver lm' <> lf_ver lm ->
  (forall l, In l N -> ~ In (lf_id l) (map lf_id old)) ->
  (forall i, In i (map lf_id old) -> (ver_in new i <> ver_in old i <-> i = lf_id lm)) /\
  (forall i, In i (map lf_id old) -> In i (map lf_id new)) /\
  (forall i, In i (map lf_id new) /\ ~ In i (map lf_id old) <-> In i (map lf_id N)).
Proof.
  intros Hnd Hnd' Hold Hnew Hid Hv HN.
  assert (In lm old) as Hlm by (apply Hold; left; reflexivity).
  assert (In lm' new) as Hlm' by (apply Hnew; left; reflexivity).
  (* a border of [old] with another id than [lm] is in [R], hence in [new] *)
  assert (forall l, In l old -> lf_id l <> lf_id lm -> In l new) as Hkeep.
  { intros l Hl Hne. apply Hnew. right. right. apply Hold in Hl. destruct Hl as [<-|Hl]; [contradiction|exact Hl]. }
  split; [|split].
  - intros i Hi. apply in_map_iff in Hi. destruct Hi as (l & <- & Hl). rewrite (ver_in_spec old l Hnd Hl).
    destruct (N.eq_dec (lf_id l) (lf_id lm)) as [Ei|Ni].
    + rewrite (map_NoDup_inj lf_id old l lm Hnd Hl Hlm Ei), <- Hid, (ver_in_spec new lm' Hnd' Hlm').
      split; [reflexivity|intros _ X]. injection X as X. exact (Hv X).
    + rewrite (ver_in_spec new l Hnd' (Hkeep l Hl Ni)). split; [intros X; destruct (X eq_refl)|intros X; contradiction].
  - intros i Hi. apply in_map_iff in Hi. destruct Hi as (l & <- & Hl).
    destruct (N.eq_dec (lf_id l) (lf_id lm)) as [Ei|Ni].
    + rewrite Ei, <- Hid. apply in_map. exact Hlm'.
    + apply in_map. exact (Hkeep l Hl Ni).
  - intros i. split.
    + intros [H1 H2]. apply in_map_iff in H1. destruct H1 as (l & <- & Hl). apply Hnew in Hl.
      destruct Hl as [<-|[Hl|Hl]]; [|apply in_map; exact Hl|].
      * destruct H2. rewrite Hid. apply in_map. exact Hlm.
      * destruct H2. apply in_map. apply Hold. right. exact Hl.
    + intros H. apply in_map_iff in H. destruct H as (l & <- & Hl).
      split; [apply in_map; apply Hnew; right; left; exact Hl|exact (HN l Hl)].
Qed.

(** ** C12 for an insert into one layer *)

Theorem layer_put_borders root k lv ctr root' info ctr' :
  WF_layer root -> kt_wf k = true -> ~ In k (bt_keys root) ->
  entry_ok {| sl_key := k; sl_lv := lv |} ->
  layer_put root k lv ctr = Some (root', info, ctr') ->
  exists lm lm' A NW B,
    find_leaf root k = Some lm /\ bt_leaves root = A ++ lm :: B /\ bt_leaves root' = A ++ lm' :: NW ++ B /\
    pi_modified info = lf_id lm /\ lf_id lm' = lf_id lm /\
    get_vinsert_delete (lf_ver lm') <> get_vinsert_delete (lf_ver lm) /\
    map lf_id NW = match pi_created info with Some c => [c] | None => [] end /\
    pi_created info = if (leaf_cnk lm =? 15)%N then Some ctr else None.
Proof.
  intros Hwfl Hk Hnin Hok E.
  destruct (layer_put_leaves root k lv ctr root' info ctr' Hwfl Hk Hnin Hok E)
    as (lm & A & B & r0 & F & HL & ELP & HR).
  destruct (leaf_put_report lm k lv ctr)
    as [(N15 & l' & E1 & Hid & Hv & _)|(E15 & L & sep & R & E1 & HidL & HidR & _ & Hv & _)];
    rewrite E1 in ELP; injection ELP as <- <-; cbn [ires_leaves bt_leaves app] in HR.
  - exists lm, l', A, [], B. apply N.eqb_neq in N15. rewrite N15. repeat split; assumption.
  - exists lm, L, A, [R], B. rewrite E15. cbn [map]. rewrite HidR. repeat split; assumption.
Qed.

Lemma created_iff info (NW : list leaf) c :
  map lf_id NW = match pi_created info with Some c => [c] | None => [] end ->
  (In c (map lf_id NW) <-> pi_created info = Some c).
Proof.
  intros ->. destruct (pi_created info) as [c0|]; cbn [In]; [|split; [intros []|discriminate]].
  split; [intros [->|[]]; reflexivity|intros X; injection X as ->; left; reflexivity].
Qed.

Theorem c12_other_leaves_unchanged root k lv ctr root' info ctr' :
  WF_layer root -> kt_wf k = true -> ~ In k (bt_keys root) ->
  entry_ok {| sl_key := k; sl_lv := lv |} ->
  (forall i, In i (bt_ids root) -> (i < ctr)%N) ->
  layer_put root k lv ctr = Some (root', info, ctr') ->
  forall l, In l (bt_leaves root) -> lf_id l <> pi_modified info ->
            In l (bt_leaves root') /\ In (lf_id l, lf_ver l) (leaf_versions root').
Proof.
  intros Hwfl Hk Hnin Hok _ E l Hl Hne.
  destruct (layer_put_borders root k lv ctr root' info ctr' Hwfl Hk Hnin Hok E)
    as (lm & lm' & A & NW & B & _ & HL & HL' & Hm & _).
  assert (In l (bt_leaves root')) as Hin.
  { rewrite HL in Hl. rewrite HL'. apply in_app_or in Hl. apply in_or_app.
    destruct Hl as [Hl|[<-|Hl]]; [left; exact Hl|destruct (Hne (eq_sym Hm))|right; right; apply in_or_app; right; exact Hl]. }
  split; [exact Hin|exact (leaf_versions_in root' l Hin)].
Qed.

Theorem c12_modified_changes root k lv ctr root' info ctr' :
  WF_layer root -> kt_wf k = true -> ~ In k (bt_keys root) ->
  entry_ok {| sl_key := k; sl_lv := lv |} ->
  (forall i, In i (bt_ids root) -> (i < ctr)%N) ->
  layer_put root k lv ctr = Some (root', info, ctr') ->
  exists lm lm',
    find_leaf root k = Some lm /\ In lm (bt_leaves root) /\ lf_id lm = pi_modified info /\
    In lm' (bt_leaves root') /\ lf_id lm' = pi_modified info /\
    lf_ver lm' <> lf_ver lm /\
    get_vinsert_delete (lf_ver lm') <> get_vinsert_delete (lf_ver lm).
Proof.
  intros Hwfl Hk Hnin Hok _ E.
  destruct (layer_put_borders root k lv ctr root' info ctr' Hwfl Hk Hnin Hok E)
    as (lm & lm' & A & NW & B & F & HL & HL' & Hm & Hid & Hv & _).
  exists lm, lm'. rewrite HL, HL', Hm, Hid.
  split; [exact F|]. split; [apply in_elt|]. split; [reflexivity|]. split; [apply in_elt|]. split; [reflexivity|].
  split; [intros X; apply Hv; rewrite X; reflexivity|exact Hv].
Qed.

(** C12: among the border nodes of the old tree, the one whose version word differs after the
    call is precisely [pi_modified info]; the border nodes of the new tree that are not border
    nodes of the old tree are precisely [pi_created info] *)
Theorem c12_exact root k lv ctr root' info ctr' :
  WF_layer root -> kt_wf k = true -> ~ In k (bt_keys root) ->
  entry_ok {| sl_key := k; sl_lv := lv |} ->
  (forall i, In i (bt_ids root) -> (i < ctr)%N) ->
  layer_put root k lv ctr = Some (root', info, ctr') ->
  NoDup (leaf_ids root) /\ NoDup (leaf_ids root') /\
  (forall i, In i (leaf_ids root) -> In i (leaf_ids root')) /\
  (forall i, In i (leaf_ids root) ->
     (leaf_ver_of root' i <> leaf_ver_of root i <-> i = pi_modified info)) /\
  (forall i v, In (i, v) (leaf_versions root) ->
     (In (i, v) (leaf_versions root') <-> i <> pi_modified info)) /\
  (forall c, In c (leaf_ids root') /\ ~ In c (leaf_ids root) <-> pi_created info = Some c).
Proof.
  intros Hwfl Hk Hnin Hok Hctr E.
  destruct (layer_put_spec root k lv ctr Hwfl Hk Hnin Hok Hctr) as (root2 & info2 & ctr2 & E2 & Hwfl' & _).
  rewrite E in E2. injection E2 as <- <- <-.
  pose proof (leaf_ids_NoDup root (proj2 Hwfl)) as Hnd.
  pose proof (leaf_ids_NoDup root' (proj2 Hwfl')) as Hnd'.
  destruct (layer_put_borders root k lv ctr root' info ctr' Hwfl Hk Hnin Hok E)
    as (lm & lm' & A & NW & B & _ & HL & HL' & Hm & Hid & Hv & HN & Hc).
  destruct (leaves_exact (bt_leaves root) (bt_leaves root') (A ++ B) NW lm lm' Hnd Hnd') as (X1 & X2 & X3).
  - intros l. rewrite HL, !in_app_iff. cbn [In]. clear. tauto.
  - intros l. rewrite HL', !in_app_iff. cbn [In]. rewrite in_app_iff. clear. tauto.
  - exact Hid.
  - intros X. apply Hv. rewrite X. reflexivity.
  - (* a new border has the id [ctr], above the old ones *)
    intros l Hl X. apply (in_map lf_id), (created_iff info NW _ HN) in Hl. rewrite Hc in Hl.
    destruct (leaf_cnk lm =? 15)%N; [|discriminate]. injection Hl as Hl.
    apply leaf_ids_incl, Hctr in X. lia.
  - rewrite <- Hm in X1.
    assert (forall i, In i (leaf_ids root) ->
              (leaf_ver_of root' i <> leaf_ver_of root i <-> i = pi_modified info)) as P2.
    { intros i. rewrite !leaf_ver_of_ver_in. exact (X1 i). }
    split; [exact Hnd|]. split; [exact Hnd'|]. split; [exact X2|]. split; [exact P2|]. split.
    + intros i v Hiv.
      assert (In i (leaf_ids root)) as Hi.
      { rewrite <- leaf_versions_ids. apply (in_map fst) in Hiv. exact Hiv. }
      specialize (P2 i Hi).
      apply (leaf_ver_of_spec root i v Hnd) in Hiv. rewrite Hiv in P2.
      rewrite <- (leaf_ver_of_spec root' i v Hnd').
      split.
      * intros X Y. apply P2 in Y. apply Y. exact X.
      * intros X. destruct (leaf_ver_of root' i) as [v'|] eqn:Ev.
        -- destruct (N.eq_dec v' v) as [->|Nv]; [reflexivity|].
           exfalso. apply X. apply P2. intros Z. injection Z as Z. contradiction.
        -- exfalso. apply X. apply P2. discriminate.
    + intros c. rewrite <- (created_iff info NW c HN). exact (X3 c).
Qed.

(** ** Overwrite: no border version changes *)

Lemma bt_update_leaf_versions k f fuel : forall t,
  (forall l, lf_id (f l) = lf_id l /\ lf_ver (f l) = lf_ver l) ->
  leaf_versions (bt_update_leaf fuel t k f) = leaf_versions t.
Proof.
  intros t Hf. revert fuel t. apply bt_update_leaf_flat.
  - intros l. unfold leaf_versions. cbn [bt_leaves map]. destruct (Hf l) as [-> ->]. reflexivity.
  - intros id ver keys ch ch' E. rewrite !leaf_versions_int. exact E.
Qed.

(** the value overwrite of [put_walk] / [layer_update_spec], for any slot and any new slot
    contents *)
Theorem c12_overwrite_silent root k slot x :
  leaf_versions (update_leaf root k (fun l0 =>
                   leaf_with l0 (lf_ver l0) (lf_perm l0)
                             (set_nth (N.to_nat slot) x (lf_slots l0)))) =
  leaf_versions root.
Proof.
  unfold update_leaf. apply bt_update_leaf_versions. intros l. split; reflexivity.
Qed.

(** ** Delete: the leaves that stay keep their version words *)

Theorem c12_delete_keeps_versions k fuel : forall t t' ret,
  bt_delete fuel t k = Some (DKept t', ret) ->
  incl (leaf_versions t') (leaf_versions t).
Proof.
  induction fuel as [|fu IH]; intros t t' ret E; [discriminate|]. destruct t as [l|id ver keys ch].
  - apply bt_delete_leaf_inv in E. destruct E as (rank & slot & s & _ & E).
    destruct (leaf_cnk l =? 1)%N; destruct E as [E _]; [discriminate|]. injection E as ->.
    unfold leaf_versions. cbn [bt_leaves map]. rewrite leaf_delete_id, leaf_delete_ver. apply incl_refl.
  - apply bt_delete_int_inv in E. destruct E as (c & rc & ret0 & Hi & En & Ed & E).
    rewrite leaf_versions_int. destruct rc as [c'|].
    + destruct E as [E _]. injection E as ->. rewrite leaf_versions_int, flat_map_set_nth by exact Hi.
      rewrite (flat_map_split leaf_versions dbt ch _ Hi).
      apply incl_app_app; [apply incl_refl|]. apply incl_app_app; [|apply incl_refl].
      rewrite (nth_error_nth ch _ dbt En). exact (IH c c' ret0 Ed).
    + destruct (Nat.eqb (length keys) 1).
      * destruct E as (sib & Es & E & _). injection E as ->. intros y Hy. apply in_flat_map. exists sib.
        split; [eapply nth_error_In; exact Es|exact Hy].
      * destruct E as [E _]. injection E as ->. rewrite leaf_versions_int, flat_map_remove_at.
        rewrite (flat_map_split leaf_versions dbt ch _ Hi).
        apply incl_app_app; [apply incl_refl|]. apply incl_appr. apply incl_refl.
Qed.

(** ** sanity: plain insert, border split below an interior node, and a border split that
    splits the interior root as well *)
Module VersionReportExample.
  Local Open Scope N_scope.
  Definition kk (i : N) : ktuple := {| ks := i; kl := 8 |}.
  Definition vv (i : N) : lvw := LValue {| v_id := i; v_bytes := []; v_align := 8; v_inline := false |}.
  Definition kvs (n : nat) : list (ktuple * lvw) :=
    map (fun i => (kk (N.of_nat i), vv (N.of_nat i))) (seq 2 n).
  Definition root0 : bt := BLeaf (single_leaf 1 (kk 1) (vv 1)).
  Definition tn (n : nat) : bt :=
    match put_all root0 2 (kvs n) with Some (t, _) => t | None => root0 end.
  (* 39 ascending keys: leaves of 8, 8, 8, 15 entries under one interior node *)
  Definition t39 : bt := tn 38.
  (* 135 keys: 15 leaves of 8 and one of 15 under a full interior root *)
  Definition t135 : bt := tn 134.

  Definition ver_diff (t t' : bt) : list N :=
    filter (fun i => match leaf_ver_of t i, leaf_ver_of t' i with
                     | Some a, Some b => negb (a =? b)
                     | _, _ => true
                     end) (leaf_ids t).
  Definition new_ids (t t' : bt) : list N :=
    filter (fun c => negb (existsb (N.eqb c) (leaf_ids t))) (leaf_ids t').
  Definition report (t : bt) (k : ktuple) (ctr : N) :=
    match layer_put t k (vv 1000) ctr with
    | Some (t', info, c') =>
      Some (info, ver_diff t t', new_ids t t', length (bt_leaves t), length (bt_leaves t'),
            bt_height t, bt_height t', c')
    | None => None
    end.

  Example t39_shape : map leaf_cnk (bt_leaves t39) = [8; 8; 8; 15] /\ bt_height t39 = 1%nat.
  Proof. vm_compute. split; reflexivity. Qed.

  (* plain insert into the first leaf: only that leaf's version changes *)
  Example t39_plain :
    report t39 (kk 0) 500 =
    Some ({| pi_modified := 1; pi_created := None |}, [1], [], 4%nat, 4%nat, 1%nat, 1%nat, 501).
  Proof. vm_compute. reflexivity. Qed.

  (* insert into the full last leaf: it splits, the new border has id ctr
     (the id counter also advances past the id reserved for an interior sibling) *)
  Example t39_split :
    match report t39 (kk 1000) 500 with
    | Some (info, d, n, l0, l1, h0, h1, c') =>
      pi_created info = Some 500 /\ d = [pi_modified info] /\ n = [500] /\
      l0 = 4%nat /\ l1 = 5%nat /\ h0 = 1%nat /\ h1 = 1%nat /\ c' = 502
    | None => False
    end.
  Proof. vm_compute. repeat split; reflexivity. Qed.

  (* the 135-key tree is built once, for both examples below *)
  Lemma t135_run :
    (fun t => length (bt_leaves t) = 16%nat /\ leaf_cnk (last (bt_leaves t) dleaf) = 15 /\ bt_height t = 1%nat /\
              report t (kk 1000) 500 =
              Some ({| pi_modified := 142; pi_created := Some 500 |}, [142], [500], 16%nat, 17%nat, 1%nat, 2%nat, 503))
      t135.
  Proof. vm_compute. repeat split; reflexivity. Qed.

  Example t135_shape :
    length (bt_leaves t135) = 16%nat /\ leaf_cnk (last (bt_leaves t135) dleaf) = 15 /\
    bt_height t135 = 1%nat.
  Proof.
    destruct t135_run as (E1 & E2 & E3 & _). exact (conj E1 (conj E2 E3)).
  Qed.

  (* border split + interior split + new root: still exactly one changed and one new border *)
  Example t135_split :
    match report t135 (kk 1000) 500 with
    | Some (info, d, n, l0, l1, h0, h1, c') =>
      pi_created info = Some 500 /\ d = [pi_modified info] /\ n = [500] /\
      l0 = 16%nat /\ l1 = 17%nat /\ h0 = 1%nat /\ h1 = 2%nat /\ c' = 503
    | None => False
    end.
  Proof.
    destruct t135_run as (_ & _ & _ & E). rewrite E. repeat split; reflexivity.
  Qed.

  Lemma kk_ok i : i < 2 ^ 64 -> kt_wf (kk i) = true /\ entry_ok {| sl_key := kk i; sl_lv := vv i |}.
  Proof.
    intros H. assert (kt_wf (kk i) = true) as W by (apply kt_wf_spec; cbn [kk ks kl]; lia).
    split; [exact W|]. split; [exact W|cbn; lia].
  Qed.

  Lemma t39_WF : WF_layer t39 /\ (forall i, In i (bt_ids t39) -> i < 500).
  Proof.
    destruct (single_leaf_WF_layer 1 (kk 1) (vv 1) (proj2 (kk_ok 1 eq_refl))) as (H1 & H2 & H3).
    fold root0 in H1, H2, H3.
    destruct (put_all_spec (kvs 38) root0 2 H1) as (t' & c' & E & Hwf & Hlt & _).
    - rewrite H3. intros i [<-|[]]. lia.
    - apply Forall_forall. intros x Hx. apply in_map_iff in Hx. destruct Hx as (i & <- & Hi).
      apply in_seq in Hi. apply kk_ok. lia.
    - apply LayerExample.nodupb_sound. vm_compute. reflexivity.
    - intros k Hk X. unfold root0 in X. rewrite single_leaf_keys in X.
      destruct X as [<-|[]]. revert Hk. apply LayerExample.existsb_kt_eq_false. vm_compute. reflexivity.
    - unfold t39, tn. rewrite E. split; [exact Hwf|].
      intros i Hi. apply Hlt in Hi.
      assert (option_map snd (put_all root0 2 (kvs 38)) = Some 43) as X by (vm_compute; reflexivity).
      rewrite E in X. cbn [option_map snd] in X. injection X as ->. lia.
  Qed.

  Lemma kk_fresh i : (39 < i)%N \/ i = 0 -> ~ In (kk i) (bt_keys t39).
  Proof.
    intros Hi X.
    assert (forall t, In t (bt_keys t39) -> 1 <= ks t <= 39) as Hr.
    { assert (forallb (fun t => (1 <=? ks t) && (ks t <=? 39)) (bt_keys t39) = true) as B
        by (vm_compute; reflexivity).
      intros t Ht. apply (proj1 (forallb_forall _ _) B) in Ht. cbv beta in Ht. lia. }
    apply Hr in X. cbn [ks kk] in X. lia.
  Qed.

  Example t39_theorem_applies :
    exists root' info ctr',
      layer_put t39 (kk 1000) (vv 1000) 500 = Some (root', info, ctr') /\
      pi_created info = Some 500 /\
      (forall i, In i (leaf_ids t39) ->
         (leaf_ver_of root' i <> leaf_ver_of t39 i <-> i = pi_modified info)) /\
      (forall c, In c (leaf_ids root') /\ ~ In c (leaf_ids t39) <-> c = 500).
  Proof.
    destruct t39_WF as [Hwf Hlt].
    destruct (kk_ok 1000 eq_refl) as [Hk Hok].
    assert (~ In (kk 1000) (bt_keys t39)) as Hnin by (apply kk_fresh; lia).
    destruct (layer_put_spec t39 (kk 1000) (vv 1000) 500 Hwf Hk Hnin Hok Hlt)
      as (root' & info & ctr' & E & _).
    exists root', info, ctr'. split; [exact E|].
    destruct (c12_exact t39 (kk 1000) (vv 1000) 500 root' info ctr' Hwf Hk Hnin Hok Hlt E)
      as (_ & _ & _ & P2 & _ & P4).
    assert (pi_created info = Some 500) as Hc.
    { assert (option_map (fun x => pi_created (snd (fst x))) (layer_put t39 (kk 1000) (vv 1000) 500)
              = Some (Some 500)) as X by (vm_compute; reflexivity).
      rewrite E in X. cbn in X. injection X as X. exact X. }
    split; [exact Hc|]. split; [exact P2|].
    intros c. rewrite (P4 c), Hc. split; [intros X; injection X as <-; reflexivity|intros ->; reflexivity].
  Qed.
End VersionReportExample.

Print Assumptions leaf_put_report.
Print Assumptions bt_put_leaves.
Print Assumptions c12_other_leaves_unchanged.
Print Assumptions c12_modified_changes.
Print Assumptions c12_exact.
Print Assumptions c12_overwrite_silent.
Print Assumptions c12_delete_keeps_versions.
Print Assumptions VersionReportExample.t39_theorem_applies.
