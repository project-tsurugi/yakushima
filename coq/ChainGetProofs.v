(** * ChainGetProofs: the point lookup of ChainGetDefs is linearizable across inserts, removes, splits and unlinks.

    A remove does not change the version word of its border (ChainDefs), so the validating load cannot tell
    whether the key was removed after it was read: the linearization point of a lookup is its READ, and the
    version check establishes retroactively that the border read was the one covering the key at that instant.

    Invariant ([cur_ok]) while the lookup is in flight, with n = the node [g_cur] now, v = [g_v], k = [g_key]:
      - n exists and v <= version of n (versions only grow);
      - IF the split counter of n is still the one of v and n is not deleted THEN n is the live node covering k
        (a range shrinks only by a split of the node itself, a node dies only by its unlink; a range may GROW by
        absorbing an unlinked neighbour without any version change, which is harmless);
      - in [GCheck found]: IF the version of n is still v THEN [found] is in the ghost [g_seen] (it was the
        presence of k at the read: n had version v then, so it covered k) and, if k is among the keys of n now,
        found = true (same version => no insert: the keys of n are among those it had at the read).
    [wshape_cover] (ChainProofs) is the key step; [cover_present] (ChainProofs) turns "the live node covering k
    holds k" into "k is present in the layer"; the ghost [g_seen] has the presence now at its head. *)
From Coq Require Import NArith List Bool Lia.
From Yk Require Import ListAux ChainDefs ChainProofs ChainGetDefs.
Import ListNotations.
Local Open Scope N_scope.

(** ** a restart always finds a border: some live node has lower bound 0 *)
Definition has0 (ns : list cnode) : Prop := exists n, In n ns /\ live n = true /\ cn_lo n = 0.

Lemma cover_from_some k l : forall x, exists y, cover_from k (Some x) l = Some y.
Proof.
  induction l as [|a l IH]; intros x; cbn [cover_from]; [eauto|]. destruct (live a && (cn_lo a <=? k)); apply IH.
Qed.

Lemma has0_cover k ns : has0 ns -> exists n, cover k ns = Some n.
Proof.
  intros (n&Hin&Ln&Hlo). apply in_split in Hin as (l1&l2&->). unfold cover. rewrite cover_from_app.
  cbn [cover_from]. rewrite Ln, Hlo. destruct (N.leb_spec 0 k) as [_|Hgt]; [|lia]. cbn [andb]. apply cover_from_some.
Qed.

Lemma has0_init kss : kss_ok kss = true -> has0 (c_nodes (cinit kss)).
Proof.
  intros Hk. destruct (cinit_head kss Hk) as (n&tl&E&_&Hlo&Ln). exists n. rewrite E. split; [left; reflexivity|auto].
Qed.

(** lower bounds only decrease, and the range of an unlinked node goes to a live node *)
Lemma has0_wstep ns f w ns' f' : WF ns f -> wstep ns f w = Some (ns', f') -> has0 ns -> has0 ns'.
Proof.
  intros W Hs (n&Hin&Ln&Hlo). destruct (wstep_shape _ _ _ _ _ W Hs) as (g&lost&Wm&Hsh&_).
  assert (Hy : exists y, In y ns /\ live (g y) = true /\ cn_lo (g y) <= cn_lo n).
  { destruct (live (g n)) eqn:Lg; [|exact (wm_heir _ _ _ _ Wm n Hin Ln Lg)].
    exists n. split; [exact Hin|]. split; [exact Lg|apply (wm_lo _ _ _ _ Wm n Hin)]. }
  destruct Hy as (y&Hy&Ly&Hlo'). exists (g y). split; [exact (wshape_in _ _ _ _ _ _ W Wm Hsh y Hy)|].
  split; [exact Ly|lia].
Qed.

Definition cur_ok (ns : list cnode) (g : getter) (seen : list bool) : Prop :=
  cv_del (g_v g) = false /\
  exists n, find_node (g_cur g) ns = Some n /\ vle (g_v g) (cn_ver n) /\
    (cv_split (cn_ver n) = cv_split (g_v g) -> cv_del (cn_ver n) = false -> cover (g_key g) ns = Some n) /\
    (forall found, g_pc g = GCheck found -> cn_ver n = g_v g ->
       In found seen /\ (mem (g_key g) (cn_keys n) = true -> found = true)).

Record GInv (s : gstate) : Prop := {
  gi_wf : WF (c_nodes (g_c s)) (c_fresh (g_c s));
  gi_has0 : has0 (c_nodes (g_c s));
  gi_cur : searching (g_get s) = true -> cur_ok (c_nodes (g_c s)) (g_get s) (g_seen s);
  gi_head : searching (g_get s) = true -> hd_error (g_seen s) = Some (present (g_key (g_get s)) (g_c s));
  gi_done : forall b, g_pc (g_get s) = GDone b -> In b (g_seen s) }.

Lemma GInv_init kss : kss_ok kss = true -> GInv (ginit kss).
Proof.
  intros Hk. constructor; cbn.
  - apply WF_init, Hk.
  - apply has0_init, Hk.
  - discriminate.
  - discriminate.
  - discriminate.
Qed.

(** ** The steps of the lookup *)

Definition g_start (k r : N) (n : cnode) : getter :=
  {| g_pc := GSearch; g_key := k; g_cur := cn_id n; g_v := cn_ver n; g_restarts := r |}.
Definition g_with (g : getter) (pc : gpc) (v : cver) : getter :=
  {| g_pc := pc; g_key := g_key g; g_cur := g_cur g; g_v := v; g_restarts := g_restarts g |}.
Definition set_get (s : gstate) (g : getter) : gstate := {| g_c := g_c s; g_get := g; g_seen := g_seen s |}.

Lemma grun_eq s evs :
  grun s evs = match evs with
               | [] => Some s
               | e :: tl => match gstep s e with Some s' => grun s' tl | None => None end
               end.
Proof. destruct evs; reflexivity. Qed.

Lemma start_get_eq ns k r : start_get ns k r = option_map (g_start k r) (cover k ns).
Proof. reflexivity. Qed.
Lemma start_get_inv ns k r g' : start_get ns k r = Some g' -> exists n, cover k ns = Some n /\ g' = g_start k r n.
Proof.
  rewrite start_get_eq. destruct (cover k ns) as [n|]; [|discriminate]. intros H. injection H as <-. eauto.
Qed.

Lemma gstep_read s s' :
  gstep s GRead = Some s' ->
  g_pc (g_get s) = GSearch /\ searching (g_get s) = true /\
  exists n, find_node (g_cur (g_get s)) (c_nodes (g_c s)) = Some n /\
    s' = set_get s (g_with (g_get s) (GCheck (mem (g_key (g_get s)) (cn_keys n))) (g_v (g_get s))).
Proof.
  cbn [gstep]. unfold searching. destruct (g_pc (g_get s)); try discriminate.
  destruct (find_node _ _) as [n|]; [|discriminate]. intros H. injection H as <-.
  split; [reflexivity|]. split; [reflexivity|]. exists n. split; reflexivity.
Qed.

Lemma gstep_validate s s' :
  gstep s GValidate = Some s' ->
  let g := g_get s in
  exists found n, g_pc g = GCheck found /\ searching g = true /\ find_node (g_cur g) (c_nodes (g_c s)) = Some n /\
    ((cn_ver n = g_v g /\ s' = set_get s (g_with g (GDone found) (g_v g))) \/
     (exists n1, cover (g_key g) (c_nodes (g_c s)) = Some n1 /\
        s' = set_get s (g_start (g_key g) (g_restarts g + 1) n1)) \/
     (cv_split (cn_ver n) = cv_split (g_v g) /\ cv_del (cn_ver n) = false /\
        s' = set_get s (g_with g GSearch (cn_ver n)))).
Proof.
  cbn [gstep]. cbv zeta. unfold searching. destruct (g_pc (g_get s)) as [| |found|]; try discriminate.
  destruct (find_node _ _) as [n|]; [|discriminate]. intros H. exists found, n.
  split; [reflexivity|]. split; [reflexivity|]. split; [reflexivity|].
  destruct (cver_eqb_spec (cn_ver n) (g_v (g_get s))) as [Ev|Ev].
  - left. injection H as <-. split; [exact Ev|reflexivity].
  - right. destruct (negb (cv_split (cn_ver n) =? cv_split (g_v (g_get s))) || cv_del (cn_ver n)) eqn:Eo.
    + left. destruct (start_get _ _ _) as [g'|] eqn:E; [|discriminate]. injection H as <-.
      apply start_get_inv in E as (n1&Hc&->). exists n1. split; [exact Hc|reflexivity].
    + right. injection H as <-. apply orb_false_iff in Eo as [Hsp Hdel].
      apply negb_false_iff, N.eqb_eq in Hsp. split; [exact Hsp|]. split; [exact Hdel|reflexivity].
Qed.

Lemma cur_ok_start ns f k r n seen : WF ns f -> cover k ns = Some n -> cur_ok ns (g_start k r n) seen.
Proof.
  intros W Hc. split; cbn.
  - apply live_true, (cover_In _ _ _ Hc).
  - exists n. split; [eapply cover_find; eauto|]. split; [apply vle_refl|]. split; [auto|discriminate].
Qed.

Lemma cur_ok_wstep ns f w ns' f' g seen seen' :
  WF ns f -> wstep ns f w = Some (ns', f') -> (forall b, In b seen -> In b seen') ->
  cur_ok ns g seen -> cur_ok ns' g seen'.
Proof.
  intros W Hs Hsub (Hvd&n&Hf&Hv&Hcov&Hfound). split; [exact Hvd|].
  destruct (wstep_shape _ _ _ _ _ W Hs) as (gm&lost&Wm&Hsh&_).
  pose proof (find_node_in _ _ _ Hf) as Hin. pose proof (wm_vle _ _ _ _ Wm n Hin) as Hvle.
  pose proof (wshape_find _ _ _ _ _ _ W Wm Hsh _ _ Hf) as Hf'.
  exists (gm n). split; [exact Hf'|]. split; [eapply vle_trans; eauto|]. split.
  - intros Hsp Hdel. pose proof (vle_split_squeeze _ _ _ Hv Hvle Hsp) as Hsp0.
    apply (wshape_cover _ _ _ _ _ _ W Wm Hsh); [|congruence|apply live_true, Hdel].
    exact (Hcov Hsp0 (vle_del_squeeze _ _ Hvle Hdel)).
  - intros found Hpc Hv'.
    destruct (wshape_current _ _ _ _ _ _ W Wm Hsh _ _ _ _ Hf Hv Hf' Hv') as (_&E&Eg&_).
    destruct (Hfound found Hpc E) as [Hin' Himp]. split; [apply Hsub, Hin'|].
    intros Hm. apply Himp. apply mem_true. apply (wm_same _ _ _ _ Wm n Hin Eg). apply mem_true, Hm.
Qed.

Lemma read_now s n :
  GInv s -> searching (g_get s) = true ->
  find_node (g_cur (g_get s)) (c_nodes (g_c s)) = Some n -> cn_ver n = g_v (g_get s) ->
  mem (g_key (g_get s)) (cn_keys n) = present (g_key (g_get s)) (g_c s).
Proof.
  intros [W _ Hcur _ _] Hs Hf Hv.
  destruct (Hcur Hs) as (Hvd&n0&Hf0&Hvle&Hcov&_). rewrite Hf in Hf0. injection Hf0 as <-.
  unfold present.
  assert (Hc : cover (g_key (g_get s)) (c_nodes (g_c s)) = Some n).
  { apply Hcov; rewrite Hv; [reflexivity|exact Hvd]. }
  symmetry. eapply cover_present; eauto.
Qed.

Lemma GInv_step s e s' : GInv s -> gstep s e = Some s' -> GInv s'.
Proof.
  intros I H. pose proof I as [W H0 Hcur Hhead Hdone]. destruct e as [w|k| |].
  - (* writer *)
    cbn [gstep] in H. destruct (is_writer w) eqn:Hw; [|discriminate].
    destruct (cstep true (g_c s) w) as [c'|] eqn:Hs; [|discriminate]. injection H as <-.
    pose proof (wt_step _ _ _ (cstep_wtrans _ _ _ _ Hw Hs)) as Hws.
    constructor; cbn [g_c g_get g_seen].
    + eapply WF_wstep; eauto.
    + eapply has0_wstep; eauto.
    + intros Hse. rewrite Hse.
      apply (cur_ok_wstep _ _ _ _ _ (g_get s) (g_seen s) _ W Hws); auto. intros b Hb. right. exact Hb.
    + intros Hse. rewrite Hse. reflexivity.
    + intros b Hb. unfold searching. rewrite Hb. auto.
  - (* begin *)
    cbn [gstep] in H. destruct (g_pc (g_get s)) eqn:Hpc; try discriminate.
    destruct (start_get (c_nodes (g_c s)) k 0) as [g'|] eqn:Hst; [|discriminate]. injection H as <-.
    apply start_get_inv in Hst as (n&Hc&->).
    constructor; cbn [g_c g_get g_seen g_start g_pc g_key]; auto; try discriminate.
    intros _. eapply cur_ok_start; eauto.
  - (* read *)
    apply gstep_read in H as (Hpc&Hse&n&Hf&->).
    constructor; cbn [set_get g_with g_c g_get g_seen g_pc g_key]; auto; try discriminate.
    intros _. destruct (Hcur Hse) as (Hvd&n0&Hf0&Hvle&Hcov&_). rewrite Hf in Hf0. injection Hf0 as <-.
    split; [exact Hvd|]. exists n. cbn. split; [exact Hf|]. split; [exact Hvle|]. split; [exact Hcov|].
    intros found Hfd Hv. injection Hfd as <-. split; [|auto].
    rewrite (read_now s n I Hse Hf Hv). apply hd_error_in, Hhead, Hse.
  - (* validate *)
    apply gstep_validate in H as (found&n&Hpc&Hse&Hf&Hcases).
    destruct (Hcur Hse) as (Hvd&n0&Hf0&Hvle&Hcov&Hfound). rewrite Hf in Hf0. injection Hf0 as <-.
    destruct Hcases as [(Hveq&->)|[(n1&Hc&->)|(Hsp&Hdel&->)]];
      constructor; cbn [set_get g_with g_start g_c g_get g_seen g_pc g_key]; auto; try discriminate.
    + (* version unchanged: respond *)
      intros b Hb. injection Hb as <-. apply (Hfound found Hpc Hveq).
    + (* split or deleted: start again *)
      intros _. eapply cur_ok_start; eauto.
    + (* only inserts / removes: adopt the new version, look again *)
      intros _. split; [exact Hdel|]. exists n. cbn. split; [exact Hf|]. split; [apply vle_refl|].
      split; [|discriminate]. intros _ _. apply Hcov; assumption.
Qed.

Lemma reach_G kss evs s : kss_ok kss = true -> grun (ginit kss) evs = Some s -> GInv s.
Proof.
  intros Hk. apply (run_inv _ _ grun_eq GInv); [apply GInv_step|apply GInv_init, Hk].
Qed.

(* the answer is the presence of the key at some instant between invocation and response *)
Theorem chain_get_linearizable : forall kss evs s b,
  kss_ok kss = true -> grun (ginit kss) evs = Some s ->
  g_pc (g_get s) = GDone b -> In b (g_seen s).
Proof. intros kss evs s b Hk H Hb. exact (gi_done _ (reach_G _ _ _ Hk H) b Hb). Qed.

(* meaning of the ghost: while the lookup is in flight its head is the presence now *)
Theorem chain_get_seen_head : forall kss evs s,
  kss_ok kss = true -> grun (ginit kss) evs = Some s -> searching (g_get s) = true ->
  hd_error (g_seen s) = Some (present (g_key (g_get s)) (g_c s)).
Proof. intros kss evs s Hk H Hs. exact (gi_head _ (reach_G _ _ _ Hk H) Hs). Qed.

(* at the response itself only one direction is left: a key present now was found (an insert would have changed
   the version), i.e. b = false is still the presence now, b = true need not be ([chain_get_true_after_remove]) *)
Theorem chain_get_response_now : forall kss evs s s' b,
  kss_ok kss = true -> grun (ginit kss) evs = Some s -> gstep s GValidate = Some s' ->
  g_pc (g_get s') = GDone b ->
  In b (g_seen s') /\ (present (g_key (g_get s')) (g_c s') = true -> b = true).
Proof.
  intros kss evs s s' b Hk H Hst Hb. pose proof (reach_G _ _ _ Hk H) as I.
  apply gstep_validate in Hst as (found&n&Hpc&Hse&Hf&[(Hveq&->)|[(n1&_&->)|(_&_&->)]]); try discriminate.
  cbn in Hb |- *. injection Hb as <-.
  destruct (gi_cur _ I Hse) as (_&n0&Hf0&_&_&Hfound). rewrite Hf in Hf0. injection Hf0 as <-.
  destruct (Hfound found Hpc Hveq) as [Hin Himp]. split; [exact Hin|].
  intros Hp. apply Himp. rewrite (read_now s n I Hse Hf Hveq). exact Hp.
Qed.

(* the hypothesis on the version holds whenever the validation succeeds later (versions only grow) *)
Theorem chain_get_read_is_presence : forall kss evs s s' found n,
  kss_ok kss = true -> grun (ginit kss) evs = Some s -> gstep s GRead = Some s' ->
  g_pc (g_get s') = GCheck found ->
  find_node (g_cur (g_get s)) (c_nodes (g_c s)) = Some n -> cn_ver n = g_v (g_get s) ->
  found = present (g_key (g_get s')) (g_c s') /\ hd_error (g_seen s') = Some found.
Proof.
  intros kss evs s s' found n Hk H Hst Hb Hf Hv. pose proof (reach_G _ _ _ Hk H) as I.
  apply gstep_read in Hst as (Hpc&Hse&n'&Hf'&->). rewrite Hf in Hf'. injection Hf' as <-.
  cbn in Hb |- *. injection Hb as <-. rewrite (read_now s n I Hse Hf Hv).
  split; [reflexivity|apply (gi_head _ I Hse)].
Qed.

Theorem chain_get_cur_exists : forall kss evs s,
  kss_ok kss = true -> grun (ginit kss) evs = Some s -> searching (g_get s) = true ->
  exists n, find_node (g_cur (g_get s)) (c_nodes (g_c s)) = Some n.
Proof.
  intros kss evs s Hk H Hs. destruct (gi_cur _ (reach_G _ _ _ Hk H) Hs) as (_&n&Hf&_). eauto.
Qed.

Theorem chain_get_wf : forall kss evs s,
  kss_ok kss = true -> grun (ginit kss) evs = Some s -> WF (c_nodes (g_c s)) (c_fresh (g_c s)).
Proof. intros kss evs s Hk H. exact (gi_wf _ (reach_G _ _ _ Hk H)). Qed.

Theorem chain_get_not_stuck : forall kss evs s,
  kss_ok kss = true -> grun (ginit kss) evs = Some s -> searching (g_get s) = true ->
  exists s', gstep s (match g_pc (g_get s) with GSearch => GRead | _ => GValidate end) = Some s'.
Proof.
  intros kss evs s Hk H Hs. pose proof (reach_G _ _ _ Hk H) as I.
  destruct (gi_cur _ I Hs) as (_&n&Hf&_). unfold searching in Hs. unfold gstep.
  destruct (g_pc (g_get s)) eqn:Hpc; try discriminate; rewrite Hf.
  - eauto.
  - destruct (cver_eqb _ _); [eauto|]. destruct (_ || _); [|eauto].
    destruct (has0_cover (g_key (g_get s)) _ (gi_has0 _ I)) as (n1&Hc).
    rewrite start_get_eq, Hc. cbn [option_map]. eauto.
Qed.

(* the model has one lookup per run: [gstep] never returns to [GIdle] *)
Theorem chain_get_begin_enabled : forall kss evs s k,
  kss_ok kss = true -> grun (ginit kss) evs = Some s -> g_pc (g_get s) = GIdle ->
  exists s', gstep s (GBegin k) = Some s'.
Proof.
  intros kss evs s k Hk H Hpc. unfold gstep. rewrite Hpc.
  destruct (has0_cover k _ (gi_has0 _ (reach_G _ _ _ Hk H))) as (n1&Hc). rewrite start_get_eq, Hc. cbn [option_map]. eauto.
Qed.

(* the key moves to a new right sibling by a split under the lookup; the lookup restarts and finds it *)
Example chain_get_nonvacuous : exists evs s, grun (ginit [[10]; [20; 30; 40]]) evs = Some s /\
  g_pc (g_get s) = GDone true /\ (1 <=? g_restarts (g_get s)) = true.
Proof.
  exists gex_trace. eexists. split; [vm_compute; reflexivity|]. split; reflexivity.
Qed.

(* the border is emptied and unlinked under the lookup, its right neighbour takes the range over and the key is inserted
   again there: the lookup restarts and finds it; the key was absent at some instants in between *)
Example chain_get_nonvacuous2 : exists evs s, grun (ginit [[10]; [20]]) evs = Some s /\
  g_pc (g_get s) = GDone true /\ (1 <=? g_restarts (g_get s)) = true /\ In false (g_seen s).
Proof.
  exists [GBegin 10; GW (ERem 10); GW (EUnlink 0 true); GW (EIns 10); GRead; GValidate; GRead; GValidate].
  eexists. split; [vm_compute; reflexivity|]. split; [reflexivity|]. split; [reflexivity|]. right. left. reflexivity.
Qed.

(* a lookup that answers "absent", the key being inserted only after the response: the answer false is the presence at
   the read (the linearization point) and, for the answer false, still at the validating load *)
Example chain_get_nonvacuous3 : exists evs s, grun (ginit [[10]; [20]]) evs = Some s /\
  g_pc (g_get s) = GDone false /\ present 15 (g_c s) = true /\ In false (g_seen s).
Proof.
  exists [GBegin 15; GRead; GValidate; GW (EIns 15)].
  eexists. split; [vm_compute; reflexivity|]. split; [reflexivity|]. split; [reflexivity|]. left. reflexivity.
Qed.

(* the key is removed between the read and the validating load; the version of the border is unchanged, the
   lookup answers "present" although the key is absent at the response *)
Example chain_get_true_after_remove : exists evs s, grun (ginit [[10]; [20]]) evs = Some s /\
  g_pc (g_get s) = GDone true /\ present 10 (g_c s) = false /\ g_seen s = [false; true] /\
  g_restarts (g_get s) = 0.
Proof.
  exists [GBegin 10; GRead; GW (ERem 10); GValidate].
  eexists. split; [vm_compute; reflexivity|]. repeat split; reflexivity.
Qed.

Print Assumptions chain_get_linearizable.
Print Assumptions chain_get_seen_head.
Print Assumptions chain_get_response_now.
Print Assumptions chain_get_read_is_presence.
Print Assumptions chain_get_cur_exists.
Print Assumptions chain_get_wf.
Print Assumptions chain_get_not_stuck.
Print Assumptions chain_get_begin_enabled.
Print Assumptions chain_get_nonvacuous.
Print Assumptions chain_get_nonvacuous2.
Print Assumptions chain_get_nonvacuous3.
Print Assumptions chain_get_true_after_remove.
