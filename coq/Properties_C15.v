(** * C15 -- an out-of-line value block is laid out so that header and body
    never overlap, the body is aligned as requested, what is released equals
    what was allocated, and the tag bits of a slot word are read back as they
    were written.  Property theorems only. *)
From Coq Require Import NArith.
From Yk Require Import Word64 ValueDefs ValueProofs.
Local Open Scope N_scope.

(** for every length that fits the 32-bit header field and every power-of-two
    alignment up to 4096: the allocation request, the body offset read back from
    the header (>= the 8 header bytes, body inside the block, body address
    aligned to [align] when the block is aligned as requested of operator new),
    and the length read back *)
Theorem C15_layout : forall len align,
  len < 2 ^ 32 -> (exists k, align = 2 ^ k /\ k <= 12) ->
  let b := create_value_block len align in
  let a := N.max align 8 in
  vb_alloc_align b = a /\
  vb_alloc_size b = len + a /\
  vb_body_offset b = a /\
  8 <= vb_body_offset b /\
  vb_body_offset b + len <= vb_alloc_size b /\
  (forall base, base mod a = 0 -> (base + vb_body_offset b) mod align = 0) /\
  vb_get_len b = len.
Proof.
  intros len align Hl Hp. cbv zeta. rewrite (create_value_block_eq len align Hl Hp).
  unfold vb_body_offset, vb_get_len. cbn [vb_alloc_size vb_alloc_align vb_hdr_len vb_hdr_align].
  repeat split.
  - apply N.le_max_r.
  - rewrite N.add_comm. apply N.le_refl.
  - intros base. apply body_aligned. exact Hp.
Qed.
Print Assumptions C15_layout.

(** size and alignment handed to operator delete / the garbage collector are
    those handed to operator new, as long as the 32-bit sum [len_ + align_]
    does not wrap *)
Theorem C15_release_matches_allocation : forall len align,
  len < 2 ^ 32 -> (exists k, align = 2 ^ k /\ k <= 12) ->
  len + N.max align 8 < 2 ^ 32 ->
  let b := create_value_block len align in
  vb_gc_size b = vb_alloc_size b /\ vb_gc_align b = vb_alloc_align b.
Proof.
  intros len align Hl Hp Hs. cbv zeta. rewrite (create_value_block_eq len align Hl Hp).
  split; [apply N.mod_small; exact Hs|reflexivity].
Qed.
Print Assumptions C15_release_matches_allocation.

(** side remark (outside the quantifier of [C15_release_matches_allocation];
    values are up to several MiB): within [max align 8] of 2^32 the 32-bit sum
    [len_ + align_] wraps and the released size is not the allocated one *)
Theorem C15_release_wrap_refuted :
  exists len align, len < 2 ^ 32 /\ (exists k, align = 2 ^ k /\ k <= 12) /\
    vb_gc_size (create_value_block len align) <>
    vb_alloc_size (create_value_block len align).
Proof.
  exists (2 ^ 32 - 1), 8. split; [reflexivity|]. split.
  - exists 3. split; [reflexivity|discriminate].
  - vm_compute. discriminate.
Qed.
Print Assumptions C15_release_wrap_refuted.

(** tag bits: a tagged value pointer is recognised, untagged to the original,
    returned by get_value and never taken for a link; a tagged child pointer is
    returned (untagged) by get_next_layer and never taken for a value; the
    initial word is neither; the all-zero word holds no value *)
Theorem C15_pointer_tags :
  (forall p, p < 2 ^ 62 ->
     remove_ptr_flag (tag_value_ptr p) = p /\
     is_value_ptr (tag_value_ptr p) = true /\
     (p <> 0 -> lv_get_value (tag_value_ptr p) = Some (tag_value_ptr p)) /\
     lv_get_next_layer (tag_value_ptr p) = None) /\
  (forall p, p < 2 ^ 62 ->
     lv_get_next_layer (tag_child_ptr p) = Some p /\
     lv_get_value (tag_child_ptr p) = None) /\
  (lv_get_value lv_init = None /\ lv_get_next_layer lv_init = None) /\
  lv_get_value 0 = None.
Proof.
  split; [|split; [|split]].
  - intros p Hp. split; [exact (remove_tag_value_ptr p Hp)|].
    split; [exact (is_value_ptr_tag p)|].
    split; [exact (lv_get_value_tag p Hp)|exact (lv_get_next_layer_tag p Hp)].
  - intros p Hp. split; [exact (lv_get_next_layer_child p Hp)|exact (lv_get_value_child p)].
  - exact lv_init_empty.
  - exact lv_get_value_zero.
Qed.
Print Assumptions C15_pointer_tags.

(** an inline word with bits 62 and 63 clear is stored and returned by value *)
Theorem C15_inline_by_value : forall w,
  w < 2 ^ 62 ->
  value_is_inline w = true /\
  is_value_ptr w = false /\
  (w <> 0 -> lv_get_value w = Some w) /\
  lv_get_next_layer w = None.
Proof.
  intros w Hw. split; [exact (value_is_inline_small w Hw)|].
  split; [exact (is_value_ptr_small w Hw)|].
  split; [exact (lv_get_value_small w Hw)|exact (lv_get_next_layer_small w Hw)].
Qed.
Print Assumptions C15_inline_by_value.

(** side remark (outside the quantifier of [C15_layout]): a length of 2^32 or
    more is not read back *)
Theorem C15_len_overflow_refuted :
  exists len, 2 ^ 32 <= len /\ vb_get_len (create_value_block len 8) <> len.
Proof. exists (2 ^ 32). split; vm_compute; discriminate. Qed.
Print Assumptions C15_len_overflow_refuted.

(** side remark (outside the quantifier of [C15_inline_by_value]): an inline
    word with bit 62 set is taken for a pointer *)
Theorem C15_inline_bit62_refuted :
  exists w, w < 2 ^ 64 /\ N.testbit w 62 = true /\ value_is_inline w = false.
Proof. exists (2 ^ 62 + 5). split; [reflexivity|]. split; vm_compute; reflexivity. Qed.
Print Assumptions C15_inline_bit62_refuted.

(** non-vacuity: two concrete requests meet the hypotheses; the computed
    blocks are as the theorems say *)
Example C15_nonvacuous :
  (5 < 2 ^ 32 /\ (exists k, 1 = 2 ^ k /\ k <= 12) /\ 5 + N.max 1 8 < 2 ^ 32 /\
   create_value_block 5 1 =
     {| vb_alloc_size := 13; vb_alloc_align := 8; vb_hdr_len := 5; vb_hdr_align := 8 |} /\
   vb_body_offset (create_value_block 5 1) = 8 /\
   vb_gc_size (create_value_block 5 1) = 13) /\
  (4194305 < 2 ^ 32 /\ (exists k, 4096 = 2 ^ k /\ k <= 12) /\
   4194305 + N.max 4096 8 < 2 ^ 32 /\
   create_value_block 4194305 4096 =
     {| vb_alloc_size := 4198401; vb_alloc_align := 4096;
        vb_hdr_len := 4194305; vb_hdr_align := 4096 |} /\
   vb_body_offset (create_value_block 4194305 4096) = 4096 /\
   vb_gc_size (create_value_block 4194305 4096) = 4198401) /\
  lv_get_value (tag_value_ptr 4096) = Some (tag_value_ptr 4096) /\
  lv_get_next_layer (tag_child_ptr 4096) = Some 4096 /\
  lv_get_value 42 = Some 42.
Proof.
  split; [|split; [|split; [|split]]].
  - split; [vm_compute; reflexivity|].
    split; [exists 0; split; [vm_compute; reflexivity|vm_compute; discriminate]|].
    repeat split; vm_compute; reflexivity.
  - split; [vm_compute; reflexivity|].
    split; [exists 12; split; [vm_compute; reflexivity|vm_compute; discriminate]|].
    repeat split; vm_compute; reflexivity.
  - vm_compute; reflexivity.
  - vm_compute; reflexivity.
  - vm_compute; reflexivity.
Qed.
