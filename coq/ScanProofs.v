(** * ScanProofs: the range scan returns exactly the entries of the interval (C03).

    [scan_refines]: the public [scan] against [spec_scan_list (abs_tree tr)], under [WF_store] and
    two facts about reachable stores, [root_live] and [rtl_ok]; both are needed
    ([ScanCounterexamples]) and both follow from [scan_inv], which puts and removes preserve.
    The proof goes bottom-up, with the direction of the scan as a variable ([in_dir]): the border
    loop ([scan_entries_spec]), under a contract [sub_spec] for the layers below a link; the walk
    along the borders ([scan_leaves_dir]); the descent ([scan_start_dir]); one layer, by induction
    on the fuel ([scan_layer_dir], with [scan_layer_fwd] and [scan_layer_rtl] as its two cases). *)
From Coq Require Import NArith PeanoNat Lia ZifyBool ZifyN Bool List.
From Yk Require Import ListAux VersionDefs VersionProofs KeyDefs KeyProofs TreeDefs
     ScanDefs SpecDefs LeafProofs LayerProofs VersionReportProofs StoreProofs.
Import ListNotations.
Local Open Scope N_scope.

(** ** argument validation *)
Lemma cmp_bytes_spec : forall a b,
  match cmp_bytes a b with
  | Lt3 => lex_lt a b = true
  | Eq3 => a = b
  | Gt3 => lex_lt b a = true
  end.
Proof.
  induction a as [|x a IH]; intros [|y b]; cbn [cmp_bytes lex_lt]; try reflexivity.
  pose proof (cmpN_spec x y) as C. destruct (cmpN x y).
  - lia.
  - subst y. specialize (IH b). destruct (cmp_bytes a b).
    + rewrite IH. lia.
    + subst. reflexivity.
    + rewrite IH. lia.
  - lia.
Qed.

Lemma check_empty_spec l le r re :
  check_empty_scan_range l le r re =
  if (match re, le with
      | EP_INF, _ => true
      | re, EP_INF => negb (ep_eqb re EP_EXCL && Nat.eqb (length r) 0)
      | re, le => lex_lt l r || (key_eqb l r && ep_eqb le EP_INCL && ep_eqb re EP_INCL)
      end)
  then St_OK else St_ERR_BAD_USAGE.
Proof.
  pose proof (cmp_bytes_spec l r) as C.
  assert (cmp_bytes l r = Gt3 -> lex_lt l r = false /\ key_eqb l r = false) as G.
  { intros E. rewrite E in C. split; [apply lex_lt_asym; exact C|].
    apply key_eqb_neq. intros ->. rewrite lex_lt_irrefl in C. discriminate. }
  assert (cmp_bytes l r = Eq3 -> lex_lt l r = false /\ key_eqb l r = true) as Q.
  { intros E. rewrite E in C. subst r. split; [apply lex_lt_irrefl|apply key_eqb_refl]. }
  unfold check_empty_scan_range.
  destruct re, le; cbn [ep_eqb andb negb]; try reflexivity;
    try (destruct r; reflexivity);
    destruct (cmp_bytes l r);
    try (rewrite C; reflexivity);
    try (destruct (Q eq_refl) as [-> ->]; reflexivity);
    try (destruct (G eq_refl) as [-> ->]; reflexivity).
Qed.

Lemma scan_validate_eq a :
  scan_validate a = if spec_scan_args_ok a then None else Some St_ERR_BAD_USAGE.
Proof.
  unfold scan_validate, spec_scan_args_ok. rewrite check_empty_spec.
  destruct (sa_lnull a && _ || _); [reflexivity|]. cbn [negb andb].
  assert (forall m r : bool,
            match (if m then St_OK else St_ERR_BAD_USAGE) with
            | St_OK => if r then Some St_ERR_BAD_USAGE else None
            | s => Some s
            end = if m && negb r then None else Some St_ERR_BAD_USAGE) as G
    by (intros [] []; reflexivity).
  destruct (sa_re a); [destruct (sa_le a); apply G|destruct (sa_le a); apply G|exact (G true _)].
Qed.

Theorem scan_validate_spec a :
  (scan_validate a = None <-> spec_scan_args_ok a = true) /\
  (spec_scan_args_ok a = false -> scan_validate a = Some St_ERR_BAD_USAGE).
Proof.
  rewrite scan_validate_eq.
  destruct (spec_scan_args_ok a); (split; [split|]); intros; (reflexivity || discriminate).
Qed.

Lemma args_ok_rtl a : spec_scan_args_ok a = true -> sa_rtl a = true -> sa_re a = EP_INF /\ sa_max a = 1%nat.
Proof.
  unfold spec_scan_args_ok. intros H R. rewrite R in H. apply andb_true_iff in H. destruct H as [_ H]. cbn [andb] in H.
  destruct (sa_re a); cbn [ep_eqb negb orb] in H; try discriminate H.
  split; [reflexivity|]. apply Nat.eqb_eq. apply negb_false_iff, negb_true_iff. exact H.
Qed.

(** ** the comparison sites of the scan *)

Lemma cmp_pref_spec : forall r f,
  match memcmp_bytes r f (Nat.min (length r) (length f)) with
  | Lt3 => forall e, lex_lt r (f ++ e) = true
  | Gt3 => forall e, lex_lt (f ++ e) r = true
  | Eq3 => ((length r <= length f)%nat -> exists x, f = r ++ x) /\
           ((length f < length r)%nat -> exists y, y <> [] /\ r = f ++ y)
  end.
Proof.
  unfold memcmp_bytes.
  induction r as [|x r IH]; intros [|y f]; cbn [length Nat.min firstn cmp_bytes].
  - split; [intros _; exists []; reflexivity|intros H; inversion H].
  - split; [intros _; exists (y :: f); reflexivity|intros H; inversion H].
  - split; [intros H; inversion H|intros _; exists (x :: r); split; [discriminate|reflexivity]].
  - pose proof (cmpN_spec x y) as C. destruct (cmpN x y).
    + intros e. cbn [app lex_lt]. lia.
    + subst y. specialize (IH f).
      destruct (cmp_bytes (firstn (Nat.min (length r) (length f)) r)
                          (firstn (Nat.min (length r) (length f)) f)).
      * intros e. cbn [app lex_lt]. rewrite IH. lia.
      * destruct IH as [I1 I2]. split; intros H.
        -- destruct I1 as [z ->]; [lia|]. exists z. reflexivity.
        -- destruct I2 as (z & Hz & ->); [lia|]. exists z. split; [exact Hz|reflexivity].
      * intros e. cbn [app lex_lt]. rewrite IH. lia.
    + intros e. cbn [app lex_lt]. lia.
Qed.

Lemma in_right_lt r re k : re <> EP_INF -> lex_lt r k = true -> in_right r re k = false.
Proof.
  intros Hre H. destruct re; cbn [in_right]; [apply lex_lt_asym; exact H|rewrite H; reflexivity|contradiction].
Qed.

Lemma in_right_gt r re k : lex_lt k r = true -> in_right r re k = true.
Proof.
  intros H. destruct re; cbn [in_right]; [exact H| |reflexivity].
  rewrite (lex_lt_asym _ _ H). reflexivity.
Qed.

Lemma in_right_dead r re full k :
  re <> EP_INF -> lex_lt full r = false -> lex_lt full k = true -> in_right r re k = false.
Proof.
  intros Hre H1 H2. apply in_right_lt; [exact Hre|]. exact (lex_le_lt_trans r full k H1 H2).
Qed.

Lemma in_right_false_le r re full : in_right r re full = false -> re <> EP_INF /\ lex_lt full r = false.
Proof.
  destruct re; cbn [in_right]; intros H.
  - split; [discriminate|exact H].
  - split; [discriminate|]. apply lex_lt_asym. destruct (lex_lt r full); [reflexivity|discriminate].
  - discriminate.
Qed.

Lemma in_right_mono r re k k' : in_right r re k = false -> lex_lt k k' = true -> in_right r re k' = false.
Proof.
  intros H1 H2. apply in_right_false_le in H1. destruct H1 as [A B]. eapply in_right_dead; eassumption.
Qed.

Lemma in_left_mono l le k k' : in_left l le k = false -> lex_lt k' k = true -> in_left l le k' = false.
Proof.
  destruct le; cbn [in_left]; intros H1 H2; [| |discriminate].
  - destruct (lex_lt l k') eqn:E; [|reflexivity].
    rewrite (lex_lt_trans _ _ _ E H2) in H1. discriminate.
  - assert (lex_lt k l = true) as H3 by (destruct (lex_lt k l); [reflexivity|discriminate]).
    rewrite (lex_lt_trans _ _ _ H2 H3). reflexivity.
Qed.

Lemma in_left_up l le k k' : in_left l le k = true -> lex_lt k k' = true -> in_left l le k' = true.
Proof.
  intros H1 H2. destruct (in_left l le k') eqn:X; [reflexivity|].
  rewrite (in_left_mono l le k' k X H2) in H1. discriminate.
Qed.

Definition inr_f (r : key) (re : endpoint) (full : key) : bool :=
  match memcmp_bytes r full (Nat.min (length r) (length full)) with
  | Gt3 => true
  | Eq3 => Nat.ltb (length full) (length r) || (Nat.eqb (length r) (length full) && ep_eqb re EP_INCL)
  | Lt3 => false
  end.

Lemma inr_f_spec r re full : re <> EP_INF -> inr_f r re full = in_right r re full.
Proof.
  intros Hre. unfold inr_f. pose proof (cmp_pref_spec r full) as C.
  destruct (memcmp_bytes r full (Nat.min (length r) (length full))).
  - specialize (C []). rewrite app_nil_r in C. symmetry. apply in_right_lt; assumption.
  - destruct C as [C1 C2]. destruct (Nat.ltb_spec (length full) (length r)) as [H|H].
    + destruct (C2 H) as (y & Hy & ->). cbn [orb]. symmetry. apply in_right_gt. apply lex_lt_prefix. exact Hy.
    + destruct (C1 H) as [x ->]. cbn [orb]. destruct (Nat.eqb_spec (length r) (length (r ++ x))) as [e|n].
      * rewrite app_length in e. destruct x as [|b x]; [|cbn [length] in e; lia].
        rewrite app_nil_r. cbn [andb].
        destruct re; cbn [in_right ep_eqb]; rewrite ?lex_lt_irrefl; try reflexivity. contradiction.
      * cbn [andb]. symmetry. apply in_right_lt; [exact Hre|]. apply lex_lt_prefix.
        intros ->. rewrite app_nil_r in n. contradiction.
  - specialize (C []). rewrite app_nil_r in C. symmetry. apply in_right_gt. exact C.
Qed.

Definition rarg_f (r : key) (re : endpoint) (full : key) : option (option (key * endpoint)) :=
  match re with
  | EP_INF => Some (Some ([], EP_INF))
  | _ =>
    let n := Nat.min (length r) (length full) in
    match memcmp_bytes r full n with
    | Lt3 => None
    | Eq3 => if Nat.leb (length r) (length full) then None else Some (Some (r, re))
    | Gt3 => Some (Some ([], EP_INF))
    end
  end.

Lemma rarg_f_spec r re full :
  match rarg_f r re full with
  | None => re <> EP_INF /\ lex_lt full r = false
  | Some None => False
  | Some (Some (ar, are)) =>
      (re = EP_INF -> are = EP_INF) /\
      forall rest, in_right ar are (full ++ rest) = in_right r re (full ++ rest)
  end.
Proof.
  assert (re = EP_INF \/ re <> EP_INF) as [->|Hre] by (destruct re; [right|right|left]; congruence).
  { split; reflexivity. }
  assert (rarg_f r re full =
          match memcmp_bytes r full (Nat.min (length r) (length full)) with
          | Lt3 => None
          | Eq3 => if Nat.leb (length r) (length full) then None else Some (Some (r, re))
          | Gt3 => Some (Some ([], EP_INF))
          end) as -> by (destruct re; [reflexivity|reflexivity|contradiction]).
  pose proof (cmp_pref_spec r full) as C.
  destruct (memcmp_bytes r full (Nat.min (length r) (length full))).
  - specialize (C []). rewrite app_nil_r in C. split; [exact Hre|apply lex_lt_asym; exact C].
  - destruct C as [C1 _]. destruct (Nat.leb_spec (length r) (length full)) as [H|H].
    + destruct (C1 H) as [x ->]. split; [exact Hre|apply lex_lt_prefix_le].
    + split; [exact (fun H => H)|]. intros rest. reflexivity.
  - split; [reflexivity|]. intros rest. cbn [in_right]. symmetry. apply in_right_gt. apply C.
Qed.

Definition pass_left_f (l : key) (le : endpoint) (kt : ktuple) : bool :=
  match le with
  | EP_INF => true
  | _ =>
    let lsl := slice_of_bytes l 8 in
    match cmpN lsl (ks kt) with
    | Gt3 => false
    | Eq3 => negb ((kl kt <? N.of_nat (length l)) ||
                   ((N.of_nat (length l) =? kl kt) && ep_eqb le EP_EXCL))
    | Lt3 => true
    end
  end.

Lemma pass_left_f_spec l le kt :
  bytes l -> kt_wf kt = true -> kl kt <= 8 -> pass_left_f l le kt = in_left l le (tbytes kt).
Proof.
  intros Hb Hw Hk.
  assert (length (tbytes kt) <= 8)%nat as Hlen by (pose proof (tbytes_length kt Hk); lia).
  pose proof (lex_tuple_short (tbytes kt) l (bos_bytes _ _) Hb (or_introl Hlen)) as E1.
  pose proof (lex_tuple_short l (tbytes kt) Hb (bos_bytes _ _) (or_intror Hlen)) as E2.
  rewrite (tuple_of_tbytes kt Hw Hk) in E1, E2. rewrite tuple_of_key_klen in E1, E2.
  unfold canon_lt, klen in E1, E2. cbn [ks kl] in E1, E2. change (N.of_nat 8) with 8 in E1, E2.
  unfold pass_left_f, in_left. destruct le; [rewrite E2|rewrite E1|reflexivity];
    clear Hb Hw Hlen E1 E2; cbv zeta; pose proof (cmpN_spec (slice_of_bytes l 8) (ks kt)) as C;
    destruct (cmpN (slice_of_bytes l 8) (ks kt)); destruct (N.ltb_spec 8 (N.of_nat (length l))); cbn [ep_eqb]; lia.
Qed.

Definition larg_f (l : key) (le : endpoint) (kt : ktuple) : option (key * endpoint) :=
  match le with
  | EP_INF => Some ([], EP_INF)
  | _ => match cmpN (slice_of_bytes l 8) (ks kt) with
         | Lt3 => Some ([], EP_INF)
         | Eq3 => Some (skipn 8 l, le)
         | Gt3 => None
         end
  end.

Lemma link_cmp l kt rest :
  bytes l -> kt_wf kt = true -> kl kt = 9 -> bytes rest -> rest <> [] ->
  let e := bytes_of_slice (ks kt) 8 ++ rest in
  match cmpN (slice_of_bytes l 8) (ks kt) with
  | Lt3 => lex_lt l e = true /\ lex_lt e l = false
  | Eq3 => lex_lt l e = lex_lt (skipn 8 l) rest /\ lex_lt e l = lex_lt rest (skipn 8 l)
  | Gt3 => lex_lt l e = false /\ lex_lt e l = true
  end.
Proof.
  intros Hb Hw H9 Hr Hne e.
  pose proof (heads_link kt rest Hw H9 Hr Hne) as He. pose proof (heads_key l Hb) as Hl.
  rewrite (heads_lex _ _ e l He Hl), (heads_lex _ _ l e Hl He). unfold e. rewrite skipn_bos8, tuple_of_key_klen.
  unfold canon_lt, kt_eq, klen. cbn [ks kl]. rewrite H9. change (N.of_nat 8) with 8.
  pose proof (cmpN_spec (slice_of_bytes l 8) (ks kt)) as C.
  destruct (cmpN (slice_of_bytes l 8) (ks kt)); [split; lia| |split; lia].
  destruct (N.ltb_spec 8 (N.of_nat (length l))) as [H|H].
  - split; lia.
  - rewrite skipn_all2 by lia. rewrite lex_lt_nil_r, lex_lt_nil_l by exact Hne. split; lia.
Qed.

Lemma larg_f_spec l le kt :
  bytes l -> kt_wf kt = true -> kl kt = 9 ->
  match larg_f l le kt with
  | None => forall rest, bytes rest -> rest <> [] ->
              in_left l le (bytes_of_slice (ks kt) 8 ++ rest) = false
  | Some (al, ale) =>
      (bytes al /\ (ale = EP_INF -> al = [])) /\
      forall rest, bytes rest -> rest <> [] ->
        in_left al ale rest = in_left l le (bytes_of_slice (ks kt) 8 ++ rest)
  end.
Proof.
  intros Hb Hw H9. pose proof (fun rest => link_cmp l kt rest Hb Hw H9) as C. cbv zeta in C.
  (* for either finite endpoint kind, the three outcomes of the slice comparison; [link_cmp] gives
     both [lex_lt] values that [in_left] may ask for *)
  unfold larg_f. destruct le; [| |split; [split; [constructor|reflexivity]|reflexivity]];
    (revert C; destruct (cmpN (slice_of_bytes l 8) (ks kt)); intros C;
     [split; [split; [constructor|reflexivity]|]
     |split; [split; [apply bytes_skipn; exact Hb|discriminate]|]
     |];
     intros rest Hr Hne; destruct (C rest Hr Hne) as [C1 C2]; cbn [in_left]; rewrite ?C1, ?C2; reflexivity).
Qed.

(** ** truncation at [max_size] *)
Definition trunc {A} (mx : nat) (l : list A) : list A := if Nat.eqb mx 0 then l else firstn mx l.
(** [max_reached mx a] unfolds to [mr mx (ac_tuples a)]: the size limit as a property of the list of
    tuples, which is what the specifications below speak of *)
Definition mr {A} (mx : nat) (l : list A) : bool := negb (Nat.eqb mx 0) && Nat.leb mx (length l).

Lemma mr_false_iff {A} mx (l : list A) : mr mx l = false <-> mx = 0%nat \/ (length l < mx)%nat.
Proof. unfold mr. lia. Qed.

Lemma mr_trunc {A} mx (l : list A) : mr mx (trunc mx l) = mr mx l.
Proof.
  unfold mr, trunc. destruct (Nat.eqb_spec mx 0) as [E|E]; [reflexivity|].
  rewrite firstn_length. lia.
Qed.

Lemma trunc_id {A} mx (l : list A) : mr mx l = false -> trunc mx l = l.
Proof.
  intros H. apply mr_false_iff in H. unfold trunc.
  destruct (Nat.eqb_spec mx 0) as [E|E]; [reflexivity|]. apply firstn_all2. lia.
Qed.

Lemma trunc_reached {A} mx (l g : list A) : mr mx l = true -> trunc mx (l ++ g) = trunc mx l.
Proof.
  unfold mr, trunc. intros H. destruct (Nat.eqb_spec mx 0) as [E|E]; [discriminate|].
  rewrite firstn_app. replace (mx - length l)%nat with 0%nat by lia. apply app_nil_r.
Qed.

Lemma trunc_push {A} mx (l : list A) x : mr mx l = false -> trunc mx (l ++ [x]) = l ++ [x].
Proof.
  intros H. apply mr_false_iff in H. unfold trunc.
  destruct (Nat.eqb_spec mx 0) as [E|E]; [reflexivity|].
  apply firstn_all2. rewrite app_length. cbn [length]. lia.
Qed.

Lemma trunc_last {A} mx (X F : list A) :
  mr mx X = false -> mr mx (trunc mx (X ++ F)) = true ->
  exists pre x, trunc mx (X ++ F) = pre ++ [x] /\ In x F.
Proof.
  rewrite mr_trunc. unfold mr, trunc. intros H1 H2.
  destruct (Nat.eqb_spec mx 0) as [E|E]; [discriminate|].
  rewrite app_length in H2. rewrite firstn_app, (firstn_all2 X) by lia.
  destruct (firstn (mx - length X) F) as [|y F'] eqn:EF.
  { apply (f_equal (@length A)) in EF. rewrite firstn_length in EF. cbn [length] in EF. lia. }
  destruct (@exists_last _ (y :: F')) as (pre & x & Ex); [discriminate|].
  exists (X ++ pre), x. split; [rewrite Ex, app_assoc; reflexivity|].
  rewrite <- (firstn_skipn (mx - length X) F), EF, Ex. apply in_or_app. left.
  apply in_or_app. right. left. reflexivity.
Qed.

Lemma trunc_map {A B} (f : A -> B) mx l : map f (trunc mx l) = trunc mx (map f l).
Proof. unfold trunc. destruct (Nat.eqb mx 0); [reflexivity|]. symmetry. apply firstn_map. Qed.

Lemma trunc_length {A} mx (l : list A) : mx <> 0%nat -> (length (trunc mx l) <= mx)%nat.
Proof.
  intros H. unfold trunc. destruct (Nat.eqb_spec mx 0) as [E|_]; [contradiction|]. rewrite firstn_length. lia.
Qed.

(** ** the concrete contents of a layer (as [abs_layer], with the values) *)
Fixpoint clayer (fuel : nat) (ls : layers_t) (p : prefix) (pb : key) : list (key * value) :=
  match fuel with
  | O => []
  | S f =>
    match layer_get ls p with
    | None => []
    | Some root =>
      flat_map (fun s => match sl_lv s with
                         | LValue v => [(pb ++ bytes_of_slice (ks (sl_key s)) (kl (sl_key s)), v)]
                         | LLink => clayer f ls (p ++ [ks (sl_key s)])
                                           (pb ++ bytes_of_slice (ks (sl_key s)) 8)
                         | LEmpty => []
                         end) (bt_elems root)
    end
  end.

Definition cent (f : nat) (ls : layers_t) (p : prefix) (pb : key) (s : slot_t) : list (key * value) :=
  match sl_lv s with
  | LValue v => [(pb ++ bytes_of_slice (ks (sl_key s)) (kl (sl_key s)), v)]
  | LLink => clayer f ls (p ++ [ks (sl_key s)]) (pb ++ bytes_of_slice (ks (sl_key s)) 8)
  | LEmpty => []
  end.

Lemma clayer_S f ls p pb :
  clayer (S f) ls p pb =
  match layer_get ls p with None => [] | Some root => flat_map (cent f ls p pb) (bt_elems root) end.
Proof. reflexivity. Qed.

Definition abskv (kv : key * value) : key * aval := (fst kv, abs_value (snd kv)).

Lemma abs_clayer : forall f ls p pb, abs_layer f ls p pb = map abskv (clayer f ls p pb).
Proof.
  induction f as [|f IH]; intros ls p pb; [reflexivity|]. cbn [abs_layer clayer].
  destruct (layer_get ls p) as [root|]; [|reflexivity].
  rewrite map_flat_map. apply flat_map_ext. intros s.
  destruct (sl_lv s); [reflexivity|reflexivity|apply IH].
Qed.

Lemma abs_tree_clayer tr :
  t_null tr = false -> abs_tree tr = map abskv (clayer (S (length (t_layers tr))) (t_layers tr) [] []).
Proof. intros Hn. rewrite (abs_tree_layers tr Hn). apply abs_clayer. Qed.

Lemma abs_cent f ls p pb s : acent f ls p pb s = map abskv (cent f ls p pb s).
Proof. unfold acent, cent. destruct (sl_lv s); [reflexivity|reflexivity|apply abs_clayer]. Qed.

Lemma filter_map_abskv (P : key -> bool) l :
  filter (fun kv => P (fst kv)) (map abskv l) = map abskv (filter (fun kv => P (fst kv)) l).
Proof.
  induction l as [|x l IH]; [reflexivity|]. cbn [map filter]. cbn [abskv fst].
  destruct (P (fst x)); [cbn [map]; rewrite IH; reflexivity|exact IH].
Qed.

(** ** one border: [scan_entries] *)
Definition in_range_kv (pb l : key) (le : endpoint) (r : key) (re : endpoint) (kv : key * value) : bool :=
  in_left (pb ++ l) le (fst kv) && in_right r re (fst kv).

Lemma in_left_app pb l le k : in_left (pb ++ l) le (pb ++ k) = in_left l le k.
Proof. destruct le; cbn [in_left]; rewrite ?lex_lt_app; reflexivity. Qed.

Lemma in_range_kv_app pb l le r re (kv : key * value) rest :
  fst kv = pb ++ rest -> in_range_kv pb l le r re kv = in_left l le rest && in_right r re (pb ++ rest).
Proof. intros E. unfold in_range_kv. rewrite E, in_left_app. reflexivity. Qed.

Definition sub_spec (sub : prefix -> key -> key -> endpoint -> key -> endpoint -> scan_acc -> option scan_acc)
           (mx : nat) (ls : layers_t) (p : prefix) (pb : key) (re : endpoint)
           (Csub : N -> list (key * value)) : Prop :=
  forall x al ale ar are acc,
    layer_get ls (p ++ [x]) <> None -> bytes al -> (ale = EP_INF -> al = []) ->
    (re = EP_INF -> are = EP_INF) -> mr mx (ac_tuples acc) = false ->
    exists acc', sub (p ++ [x]) (pb ++ bytes_of_slice x 8) al ale ar are acc = Some acc' /\
      ac_tuples acc' =
        trunc mx (ac_tuples acc ++ filter (in_range_kv (pb ++ bytes_of_slice x 8) al ale ar are) (Csub x)).

Section Entries.
  Variable fix2 : bool.
  Variable sub : prefix -> key -> key -> endpoint -> key -> endpoint -> scan_acc -> option scan_acc.
  Variable mx : nat.
  Variable p : prefix. Variable pb : key.
  Variable l : key. Variable le : endpoint. Variable r : key. Variable re : endpoint.
  Variable bid bver : N.
  Hypothesis Hl : bytes l.

  Local Notation SE := (scan_entries fix2 sub mx p pb l le r re bid bver).

  Lemma scan_entries_cons i s rest pushed acc :
    SE ((i, s) :: rest) pushed acc =
    (let kt := sl_key s in
     let full := pb ++ bytes_of_slice (ks kt) (kl kt) in
     if 8 <? kl kt then
       match larg_f l le kt with
       | None => SE rest pushed acc
       | Some (al, ale) =>
         match rarg_f r re full with
         | None => (SB_END, pushed, if fix2 && negb pushed then acc_push_nv acc bid bver else acc)
         | Some None => (SB_ERR, pushed, acc)
         | Some (Some (ar, are)) =>
           match sub (p ++ [ks kt]) full al ale ar are acc with
           | None => (SB_ERR, pushed, acc)
           | Some acc' =>
             if max_reached mx acc'
             then (SB_END, pushed, if fix2 && negb pushed then acc_push_nv acc' bid bver else acc')
             else SE rest pushed acc'
           end
         end
       end
     else
       match sl_lv s with
       | LValue v =>
         let in_range (_ : unit) :=
           let acc' := acc_push_t acc full v bid bver in
           if max_reached mx acc' then (SB_END, true, acc') else SE rest true acc' in
         if negb (pass_left_f l le kt) then SE rest pushed acc
         else
           match re with
           | EP_INF => in_range tt
           | _ => if inr_f r re full then in_range tt
                  else (SB_END, pushed, if pushed then acc else acc_push_nv acc bid bver)
           end
       | _ => (SB_ERR, pushed, acc)
       end).
  Proof. reflexivity. Qed.

  Lemma re_match {A} (full : key) (X Y : A) :
    match re with
    | EP_INF => X
    | _ => if inr_f r re full then X else Y
    end = if in_right r re full then X else Y.
  Proof. destruct re; rewrite ?inr_f_spec by discriminate; reflexivity. Qed.

  (** the loop over [E1 ++ E2] is the loop over [E1], then, if that says SB_CONT, the loop over [E2] *)
  Lemma SE_app : forall E1 E2 pushed acc,
    SE (E1 ++ E2) pushed acc =
    match SE E1 pushed acc with (SB_CONT, pu, a) => SE E2 pu a | res => res end.
  Proof.
    induction E1 as [|[i s] E1 IH]; intros E2 pushed acc; [reflexivity|].
    cbn [app]. rewrite !scan_entries_cons. cbv beta zeta.
    destruct (8 <? kl (sl_key s)).
    - destruct (larg_f l le (sl_key s)) as [[al ale]|]; [|apply IH].
      destruct (rarg_f r re _) as [[[ar are]|]|]; try reflexivity.
      destruct (sub _ _ al ale ar are acc) as [acc1|]; [|reflexivity].
      destruct (max_reached mx acc1); [reflexivity|apply IH].
    - destruct (sl_lv s) as [|v|]; try reflexivity.
      destruct (negb (pass_left_f l le (sl_key s))); [apply IH|]. rewrite !re_match.
      destruct (in_right r re _); [|reflexivity].
      destruct (max_reached mx _); [reflexivity|apply IH].
  Qed.

  (** one step of the loop, with the comparisons of the code replaced by what they decide *)
  Lemma SE_value i s v rest pushed acc :
    entry_ok s -> sl_lv s = LValue v ->
    SE ((i, s) :: rest) pushed acc =
    let full := pb ++ tbytes (sl_key s) in
    if in_left l le (tbytes (sl_key s)) then
      if in_right r re full then
        let acc' := acc_push_t acc full v bid bver in
        if mr mx (ac_tuples acc') then (SB_END, true, acc') else SE rest true acc'
      else (SB_END, pushed, if pushed then acc else acc_push_nv acc bid bver)
    else SE rest pushed acc.
  Proof.
    intros [Hw Hlv] Elv. rewrite Elv in Hlv. rewrite scan_entries_cons. cbv zeta. rewrite Elv.
    destruct (N.ltb_spec 8 (kl (sl_key s))) as [X|_]; [lia|].
    rewrite (pass_left_f_spec l le (sl_key s) Hl Hw Hlv), re_match. fold (tbytes (sl_key s)).
    destruct (in_left l le (tbytes (sl_key s))); reflexivity.
  Qed.

  Lemma SE_link i s rest pushed acc :
    entry_ok s -> sl_lv s = LLink ->
    SE ((i, s) :: rest) pushed acc =
    let kt := sl_key s in
    let full := pb ++ bytes_of_slice (ks kt) 8 in
    match larg_f l le kt with
    | None => SE rest pushed acc
    | Some (al, ale) =>
      match rarg_f r re full with
      | None => (SB_END, pushed, if fix2 && negb pushed then acc_push_nv acc bid bver else acc)
      | Some None => (SB_ERR, pushed, acc)
      | Some (Some (ar, are)) =>
        match sub (p ++ [ks kt]) full al ale ar are acc with
        | None => (SB_ERR, pushed, acc)
        | Some acc' =>
          if mr mx (ac_tuples acc')
          then (SB_END, pushed, if fix2 && negb pushed then acc_push_nv acc' bid bver else acc')
          else SE rest pushed acc'
        end
      end
    end.
  Proof.
    intros [_ Hlv] Elv. rewrite Elv in Hlv. rewrite scan_entries_cons. cbv zeta. rewrite Hlv. reflexivity.
  Qed.

  Variable ls : layers_t.
  (** [C s]: what entry [s] contributes; [Csub x]: the contents of the layer below the link with
      slice [x]; both in the order of the scan *)
  Variable C : slot_t -> list (key * value).
  Variable Csub : N -> list (key * value).
  Hypothesis HCv : forall s v, sl_lv s = LValue v -> C s = [(pb ++ tbytes (sl_key s), v)].
  Hypothesis HCl : forall s, sl_lv s = LLink -> C s = Csub (ks (sl_key s)).
  Hypothesis Hsub : sub_spec sub mx ls p pb re Csub.

  Local Notation P := (in_range_kv pb l le r re).

  (** What the loop needs of an entry beyond [entry_ok]: the layer below a link exists (so that
      [Hsub] applies), and every key the entry contributes lies under the entry's own key tuple
      (this is what turns the order of the entries into the order of the contributed keys). *)
  Definition eok (s : slot_t) : Prop :=
    entry_ok s /\
    (sl_lv s = LLink -> layer_get ls (p ++ [ks (sl_key s)]) <> None) /\
    (forall kv, In kv (C s) ->
       exists rest, fst kv = pb ++ rest /\ heads (sl_key s) rest).

  Lemma eok_link_keys s kv :
    eok s -> sl_lv s = LLink -> In kv (C s) ->
    exists rest', fst kv = (pb ++ bytes_of_slice (ks (sl_key s)) 8) ++ rest' /\ bytes rest' /\ rest' <> [].
  Proof.
    intros ([Hw Hlv] & _ & Hshape) Elv Hkv. rewrite Elv in Hlv.
    destruct (Hshape kv Hkv) as (rest0 & E & Ht).
    destruct (heads_link_shape (sl_key s) rest0 Hlv Ht) as (rest' & -> & Hb' & Hne).
    exists rest'. rewrite E, app_assoc. auto.
  Qed.

  Lemma F_cons s more : filter P (flat_map C (s :: more)) = filter P (C s) ++ filter P (flat_map C more).
  Proof. cbn [flat_map]. apply filter_app. Qed.

  (** The loop over [es] says SB_END only for a reason: the size limit is reached, or an entry of
      [es] lies at or beyond [r].  The equation for the tuples does not record that.  With the reason in
      the specification, what a scan had covered when it ended (PhantomProofs) is read off
      [scan_entries_spec], and the run need not be analysed a second time. *)
  Definition stopped (acc' : scan_acc) (es : list slot_t) : Prop :=
    mr mx (ac_tuples acc') = true \/
    (re <> EP_INF /\ exists s, In s es /\ lex_lt (pb ++ tbytes (sl_key s)) r = false).

  Lemma stopped_cons acc' s es : stopped acc' es -> stopped acc' (s :: es).
  Proof.
    intros [M|(Hre & s' & Hs' & D)]; [left; exact M|right]. split; [exact Hre|].
    exists s'. split; [right; exact Hs'|exact D].
  Qed.

  (** The result of the loop over the entries [es] of one border; [later] are the entries of the
      borders that follow in the chain.  When the loop says SB_END the whole scan of the layer ends,
      either at the size limit or at an entry at or beyond [r], and then nothing of [later] is in range
      either: so the SB_END case speaks of [es ++ later], and [scan_leaves_dir] need not look at
      the remaining borders. *)
  Definition se_post (acc : scan_acc) (es : list slot_t) (later : list slot_t)
             (res : sb_res * bool * scan_acc) : Prop :=
    match res with
    | (SB_ERR, _, _) => False
    | (SB_CONT, _, acc') =>
        mr mx (ac_tuples acc') = false /\
        ac_tuples acc' = ac_tuples acc ++ filter P (flat_map C es)
    | (SB_END, _, acc') =>
        ac_tuples acc' = trunc mx (ac_tuples acc ++ filter P (flat_map C (es ++ later))) /\
        stopped acc' es
    end.

  Lemma se_post_skip acc s es later res :
    filter P (C s) = [] -> se_post acc es later res -> se_post acc (s :: es) later res.
  Proof.
    intros H0. unfold se_post. destruct res as [[res pu] acc']. destruct res; [| |exact (fun x => x)].
    - rewrite <- app_comm_cons, F_cons, H0. intros [T S]. exact (conj T (stopped_cons _ s es S)).
    - rewrite F_cons, H0. exact (fun x => x).
  Qed.

  Lemma se_post_step acc acc1 s es later res :
    ac_tuples acc1 = ac_tuples acc ++ filter P (C s) ->
    se_post acc1 es later res -> se_post acc (s :: es) later res.
  Proof.
    intros H1. unfold se_post. destruct res as [[res pu] acc']. destruct res; [| |exact (fun x => x)].
    - rewrite <- app_comm_cons, F_cons, H1, <- app_assoc. intros [T S]. exact (conj T (stopped_cons _ s es S)).
    - rewrite F_cons, H1, <- app_assoc. exact (fun x => x).
  Qed.

  Lemma se_post_dead acc s es later pu (acc' : scan_acc) :
    re <> EP_INF -> lex_lt (pb ++ tbytes (sl_key s)) r = false ->
    (forall kv, In kv (C s) -> in_right r re (fst kv) = false) ->
    Forall eok (s :: es ++ later) -> sorted_keys (map sl_key (s :: es ++ later)) ->
    mr mx (ac_tuples acc) = false -> ac_tuples acc' = ac_tuples acc ->
    se_post acc (s :: es) later (SB_END, pu, acc').
  Proof.
    intros Hre Hdead Hs Hok Hsorted Hmr E. cbn [se_post].
    split; [|right; split; [exact Hre|exists s; split; [left; reflexivity|exact Hdead]]].
    rewrite <- app_comm_cons.
    assert (filter P (flat_map C (s :: es ++ later)) = []) as ->.
    { apply filter_nil_iff. intros kv Hin. unfold in_range_kv. apply andb_false_iff. right.
      apply in_flat_map in Hin. destruct Hin as (s' & [<-|Hs'] & Hkv); [apply Hs; exact Hkv|].
      cbn [map] in Hsorted. apply StronglySorted_cons_iff in Hsorted. destruct Hsorted as [_ Hlt].
      rewrite Forall_forall in Hlt. specialize (Hlt (sl_key s') (in_map sl_key _ _ Hs')).
      rewrite Forall_forall in Hok. destruct (Hok s (or_introl eq_refl)) as ((Hw & _) & _).
      destruct (Hok s' (or_intror Hs')) as (_ & _ & Hsh). destruct (Hsh kv Hkv) as (rest & -> & Ht).
      eapply in_right_dead; [exact Hre|exact Hdead|]. rewrite lex_lt_app.
      exact (tbytes_lt _ _ rest Hw Hlt Ht). }
    rewrite app_nil_r, E. symmetry. apply trunc_id. exact Hmr.
  Qed.

  (** Sortedness is used only to end the scan at an entry at or beyond [r] ([se_post_dead]), which needs
      a finite right endpoint.  Asking for it only then lets the right-to-left scan, which passes
      the entries reversed and has [re = EP_INF], use the same lemma. *)
  Lemma scan_entries_spec : forall es later pushed acc,
    Forall eok (map snd es ++ later) ->
    (re <> EP_INF -> sorted_keys (map sl_key (map snd es ++ later))) ->
    mr mx (ac_tuples acc) = false ->
    se_post acc (map snd es) later (SE es pushed acc).
  Proof.
    induction es as [|[i s] rest IH]; intros later pushed acc Hok Hsorted Hmr.
    - cbn [scan_entries map flat_map se_post filter]. split; [exact Hmr|]. rewrite app_nil_r. reflexivity.
    - cbn [map snd] in Hok, Hsorted |- *. rewrite <- app_comm_cons in Hok, Hsorted.
      pose proof (Forall_inv Hok) as Hs. pose proof (Forall_inv_tail Hok) as Hok'.
      assert (re <> EP_INF -> sorted_keys (map sl_key (map snd rest ++ later))) as Hsorted'.
      { intros Hre. specialize (Hsorted Hre). cbn [map] in Hsorted. apply StronglySorted_cons_iff in Hsorted.
        apply Hsorted. }
      specialize (IH later). pose proof Hs as (Hes & Hlink & _). pose proof Hes as [Hw Hlv].
      destruct (sl_lv s) as [|v|] eqn:Elv; [contradiction| |].
      + (* a value *)
        rewrite (SE_value i s v rest pushed acc Hes Elv). cbv zeta.
        pose proof (HCv s v Elv) as ECE.
        assert (P (pb ++ tbytes (sl_key s), v) =
                in_left l le (tbytes (sl_key s)) && in_right r re (pb ++ tbytes (sl_key s))) as EP.
        { apply in_range_kv_app. reflexivity. }
        destruct (in_left l le (tbytes (sl_key s))) eqn:EL.
        2:{ apply se_post_skip; [|apply IH; assumption]. rewrite ECE. cbn [filter]. rewrite EP. reflexivity. }
        destruct (in_right r re (pb ++ tbytes (sl_key s))) eqn:ER.
        * (* pushed *)
          assert (filter P (C s) = [(pb ++ tbytes (sl_key s), v)]) as EF.
          { rewrite ECE. cbn [filter]. rewrite EP. reflexivity. }
          destruct (mr mx (ac_tuples (acc_push_t acc (pb ++ tbytes (sl_key s)) v bid bver))) eqn:EM;
            cbn [acc_push_t ac_tuples] in EM.
          -- cbn [se_post acc_push_t ac_tuples]. split; [|left; exact EM].
             rewrite <- app_comm_cons, F_cons, EF, app_assoc.
             rewrite (trunc_reached _ _ _ EM). symmetry. apply trunc_push. exact Hmr.
          -- eapply se_post_step; [|apply IH; [exact Hok'|exact Hsorted'|exact EM]].
             rewrite EF. reflexivity.
        * (* beyond the right end *)
          destruct (in_right_false_le _ _ _ ER) as [Hre Hdead].
          apply se_post_dead; try assumption; [|apply Hsorted; exact Hre|destruct pushed; reflexivity].
          intros kv Hkv. rewrite ECE in Hkv. destruct Hkv as [<-|[]]. exact ER.
      + (* a link *)
        rewrite (SE_link i s rest pushed acc Hes Elv). cbv zeta.
        pose proof (fun kv => eok_link_keys s kv Hs Elv) as Hkeys.
        set (kt := sl_key s) in *.
        pose proof (HCl s Elv) as ECE. fold kt in ECE.
        pose proof (larg_f_spec l le kt Hl Hw Hlv) as LA.
        destruct (larg_f l le kt) as [[al ale]|].
        2:{ apply se_post_skip; [|apply IH; assumption].
            apply filter_nil_iff. intros kv Hkv. destruct (Hkeys kv Hkv) as (rest' & E & Hb' & Hne).
            rewrite <- app_assoc in E. rewrite (in_range_kv_app _ _ _ _ _ _ _ E), (LA rest' Hb' Hne). reflexivity. }
        destruct LA as [[Hal Hinf] LA].
        pose proof (rarg_f_spec r re (pb ++ bytes_of_slice (ks kt) 8)) as RA.
        destruct (rarg_f r re (pb ++ bytes_of_slice (ks kt) 8)) as [[[ar are]|]|]; [|contradiction|].
        * destruct RA as [RAi RA].
          destruct (Hsub (ks kt) al ale ar are acc (Hlink eq_refl) Hal Hinf RAi Hmr) as (acc1 & Es & Ts).
          rewrite Es.
          assert (filter (in_range_kv (pb ++ bytes_of_slice (ks kt) 8) al ale ar are) (Csub (ks kt)) =
                  filter P (C s)) as EF.
          { rewrite ECE. apply filter_ext_in. intros kv Hkv. rewrite <- ECE in Hkv.
            destruct (Hkeys kv Hkv) as (rest' & E & Hb' & Hne).
            rewrite (in_range_kv_app _ _ _ _ _ _ _ E), RA, (LA rest' Hb' Hne).
            rewrite <- app_assoc in E. rewrite (in_range_kv_app _ _ _ _ _ _ _ E), app_assoc. reflexivity. }
          rewrite EF in Ts.
          destruct (mr mx (ac_tuples acc1)) eqn:EM.
          -- assert (forall a : scan_acc, ac_tuples a = ac_tuples acc1 ->
                       se_post acc (s :: map snd rest) later (SB_END, pushed, a)) as G.
             { intros a Ea. cbn [se_post]. unfold stopped. rewrite Ea. split; [|left; exact EM].
               rewrite <- app_comm_cons, F_cons, app_assoc.
               rewrite Ts in EM. rewrite mr_trunc in EM. rewrite (trunc_reached _ _ _ EM). exact Ts. }
             destruct (fix2 && negb pushed); apply G; reflexivity.
          -- eapply se_post_step; [|apply IH; [exact Hok'|exact Hsorted'|exact EM]].
             rewrite Ts. apply trunc_id. rewrite Ts, mr_trunc in EM. exact EM.
        * destruct RA as [Hre Hdead].
          apply se_post_dead; try assumption.
          -- fold kt. rewrite (tbytes9 kt Hlv). exact Hdead.
          -- intros kv Hkv. destruct (Hkeys kv Hkv) as (rest' & -> & Hb' & Hne).
             eapply in_right_dead; [exact Hre|exact Hdead|]. apply lex_lt_prefix. exact Hne.
          -- apply Hsorted. exact Hre.
          -- destruct (fix2 && negb pushed); reflexivity.
  Qed.
End Entries.

(** ** the border chain: [scan_leaves] *)
Section Leaves.
  Variable fix2 : bool.
  Variable sub : prefix -> key -> key -> endpoint -> key -> endpoint -> scan_acc -> option scan_acc.
  Variable mx : nat.
  Variable rtl : bool.
  Variable p : prefix. Variable pb : key.
  Variable l : key. Variable le : endpoint. Variable r : key. Variable re : endpoint.
  Variable ls : layers_t.
  Variable f : nat.
  Hypothesis Hl : bytes l.

  (** the entries of a border, what an entry contributes, and the contents of the layer below a
      link, each in the order of the scan *)
  Local Notation ents := (fun lf => in_dir rtl (leaf_entries lf)).
  Local Notation CE := (fun s => in_dir rtl (cent f ls p pb s)).
  Local Notation CS := (fun x => in_dir rtl (clayer f ls (p ++ [x]) (pb ++ bytes_of_slice x 8))).

  Lemma cent_value s v : sl_lv s = LValue v -> CE s = [(pb ++ tbytes (sl_key s), v)].
  Proof. intros E. unfold cent. rewrite E. destruct rtl; reflexivity. Qed.
  Lemma cent_link s : sl_lv s = LLink -> CE s = CS (ks (sl_key s)).
  Proof. intros E. unfold cent. rewrite E. reflexivity. Qed.

  Lemma scan_leaves_cons lf rest acc :
    scan_leaves fix2 sub mx rtl p pb l le r re (lf :: rest) acc =
    match scan_entries fix2 sub mx p pb l le r re (lf_id lf) (lf_ver lf) (in_dir rtl (leaf_ranked lf)) false acc with
    | (SB_ERR, _, _) => None
    | (SB_END, _, acc') => Some acc'
    | (SB_CONT, pushed, acc') =>
      let acc'' := if pushed then acc' else acc_push_nv acc' (lf_id lf) (lf_ver lf) in
      match rest with [] => Some acc'' | _ => scan_leaves fix2 sub mx rtl p pb l le r re rest acc'' end
    end.
  Proof. reflexivity. Qed.

  Hypothesis Hsub : sub_spec sub mx ls p pb re CS.

  Lemma scan_entries_dir bid bver es later pushed acc :
    Forall (eok p pb ls CE) (map snd es ++ later) ->
    (re <> EP_INF -> sorted_keys (map sl_key (map snd es ++ later))) ->
    mr mx (ac_tuples acc) = false ->
    se_post mx pb l le r re CE acc (map snd es) later (scan_entries fix2 sub mx p pb l le r re bid bver es pushed acc).
  Proof.
    exact (scan_entries_spec fix2 sub mx p pb l le r re bid bver Hl ls CE CS cent_value cent_link Hsub
             es later pushed acc).
  Qed.

  Lemma scan_leaves_dir : forall lvs acc,
    Forall (eok p pb ls CE) (flat_map ents lvs) ->
    (re <> EP_INF -> sorted_keys (map sl_key (flat_map ents lvs))) ->
    mr mx (ac_tuples acc) = false ->
    exists acc', scan_leaves fix2 sub mx rtl p pb l le r re lvs acc = Some acc' /\
      ac_tuples acc' =
        trunc mx (ac_tuples acc ++ filter (in_range_kv pb l le r re) (flat_map CE (flat_map ents lvs))).
  Proof.
    induction lvs as [|lf rest IH]; intros acc Hok Hsorted Hmr.
    - exists acc. split; [reflexivity|]. cbn [flat_map filter]. rewrite app_nil_r.
      symmetry. apply trunc_id. exact Hmr.
    - rewrite scan_leaves_cons. cbn [flat_map] in *. rewrite leaf_entries_dir in Hok, Hsorted |- *.
      pose proof (scan_entries_dir (lf_id lf) (lf_ver lf) (in_dir rtl (leaf_ranked lf)) (flat_map ents rest) false acc
                    Hok Hsorted Hmr) as S.
      destruct (scan_entries fix2 sub mx p pb l le r re (lf_id lf) (lf_ver lf) (in_dir rtl (leaf_ranked lf)) false acc)
        as [[res pu] acc1].
      destruct res; cbn [se_post] in S.
      + exists acc1. split; [reflexivity|exact (proj1 S)].
      + destruct S as [M1 T1].
        set (acc2 := if pu then acc1 else acc_push_nv acc1 (lf_id lf) (lf_ver lf)).
        assert (ac_tuples acc2 = ac_tuples acc1) as E2 by (unfold acc2; destruct pu; reflexivity).
        destruct (IH acc2) as (acc' & E & T').
        { rewrite Forall_app in Hok. apply Hok. }
        { intros Hre. specialize (Hsorted Hre). rewrite map_app in Hsorted.
          apply StronglySorted_app_iff in Hsorted. apply Hsorted. }
        { rewrite E2. exact M1. }
        exists acc'. split; [destruct rest; exact E|].
        rewrite T', E2, T1, flat_map_app, filter_app, app_assoc. reflexivity.
      + contradiction.
  Qed.
End Leaves.

(** ** the descent *)
(** the key the descent of a left-to-right scan effectively uses: the length passed down is
    truncated to 8 bits, so only a prefix of the left endpoint takes part *)
Definition dkey (l : key) : key := firstn (N.to_nat (N.of_nat (length l) mod 256)) l.

Lemma dkey_bytes l : bytes l -> bytes (dkey l).
Proof. apply Forall_firstn. Qed.

Lemma lex_lt_dkey k l : lex_lt k (dkey l) = true -> lex_lt k l = true.
Proof.
  intros H. eapply lex_lt_le_trans; [exact H|]. unfold dkey.
  rewrite <- (firstn_skipn (N.to_nat (N.of_nat (length l) mod 256)) l) at 1. apply lex_lt_prefix_le.
Qed.

(** The descent tuple is not canonical: it carries the slice of [l] and the length byte
    [n = length l mod 256].  Against a separator (of length at most 9) the probe compares the first
    [min n (kl sep) 8] bytes of the two slices and then asks [n <? kl sep]: a length above 8 acts
    like 9 and at most [n] bytes of [l] are looked at, so the probe cannot tell [l] from its prefix
    of length [n]. *)
Lemma descent_equiv l sep :
  bytes l -> kt_wf sep = true ->
  route_probe (scan_descent_tuple l false) sep = route_probe (tuple_of_key (dkey l)) sep.
Proof.
  intros Hb Hw. pose proof (wf_len_le sep Hw) as H9. unfold dkey.
  set (nN := N.of_nat (length l) mod 256). set (n := N.to_nat nN).
  assert (nN <= N.of_nat (length l)) as HnN by (unfold nN; apply N.mod_le; discriminate).
  assert (n <= length l)%nat as Hn by lia.
  assert (length (firstn n l) = n) as Hlen by (apply firstn_length_le; exact Hn).
  unfold scan_descent_tuple. rewrite tuple_of_key_klen. unfold klen. rewrite Hlen.
  change (N.of_nat 8) with 8. fold nN.
  unfold route_probe. cbv zeta. cbn [ks kl].
  destruct (N.ltb_spec 8 (N.of_nat n)) as [H|H].
  - rewrite slice_firstn_ge by lia.
    replace (N.min (N.min nN (kl sep)) 8) with (N.min (N.min (8 + 1) (kl sep)) 8) by lia.
    replace (nN <? kl sep) with (8 + 1 <? kl sep) by lia. reflexivity.
  - replace (N.of_nat n) with nN by lia.
    set (m := N.min (N.min nN (kl sep)) 8).
    unfold memcmp_slice. cbv zeta.
    replace m with (N.of_nat (N.to_nat m)) by lia.
    rewrite (slice_shiftr l _ Hb), (slice_shiftr (firstn n l) _ (Forall_firstn _ _ _ Hb)), slice_firstn_ge by lia.
    reflexivity.
Qed.

Lemma find_leaf_dkey root l :
  WF_bt None None root -> bytes l ->
  find_leaf root (scan_descent_tuple l false) = find_leaf root (tuple_of_key (dkey l)).
Proof.
  intros Hwf Hl. apply find_leaf_ext; [exact Hwf|].
  intros s Hs. apply descent_equiv; assumption.
Qed.

Lemma skip_to_split : forall before lf after,
  NoDup (map lf_id (before ++ lf :: after)) -> skip_to (lf_id lf) (before ++ lf :: after) = lf :: after.
Proof.
  induction before as [|b before IH]; intros lf after H; cbn [app skip_to].
  - rewrite N.eqb_refl. reflexivity.
  - cbn [app map] in H. apply NoDup_cons_iff in H. destruct H as [Hb H].
    destruct (N.eqb_spec (lf_id b) (lf_id lf)) as [E|E]; [|apply IH; exact H].
    exfalso. apply Hb. rewrite E. apply in_map. apply in_or_app. right. left. reflexivity.
Qed.

Lemma skip_to_in lf : forall lvs, In lf lvs -> exists lf' rest, skip_to (lf_id lf) lvs = lf' :: rest.
Proof.
  induction lvs as [|a lvs IH]; intros H; [destruct H|]. cbn [skip_to].
  destruct (N.eqb_spec (lf_id a) (lf_id lf)) as [E|NE]; [eexists; eexists; reflexivity|].
  destruct H as [->|H]; [contradiction|]. apply IH. exact H.
Qed.

(** *** the descent of a right-to-left scan: (0xff..ff, 8) reaches the last border unless
    some separator is (0xff..ff, 9) *)
Definition dmax : ktuple := {| ks := 18446744073709551615; kl := 8 |}.
Definition maxsep : ktuple := {| ks := 18446744073709551615; kl := 9 |}.

Fixpoint bt_seps (t : bt) : list ktuple :=
  match t with
  | BLeaf _ => []
  | BInt _ _ keys ch => keys ++ flat_map bt_seps ch
  end.

Definition rtl_ok (ls : layers_t) : Prop :=
  forall p root, layer_get ls p = Some root -> ~ In maxsep (bt_seps root).

Lemma dmax_probe s : kt_wf s = true -> s <> maxsep -> route_probe dmax s = false.
Proof.
  intros Hw Hne. rewrite (route_probe_site dmax s eq_refl Hw).
  apply kt_wf_spec in Hw. destruct Hw as (H9 & H64 & _).
  unfold canon_lt, dmax. cbn [ks kl].
  destruct (N.eq_dec (ks s) 18446744073709551615) as [E1|E1];
    destruct (N.eq_dec (kl s) 9) as [E2|E2]; try lia.
  exfalso. apply Hne. destruct s as [a b]. cbn [ks kl] in *. subst. reflexivity.
Qed.

Lemma bt_find_leaf_rightmost fuel : forall t lo hi k,
  WF_bt lo hi t ->
  (forall sep, In sep (bt_seps t) -> kt_wf sep = true -> route_probe k sep = false) ->
  (bt_height t < fuel)%nat ->
  exists lf before, bt_find_leaf fuel t k = Some lf /\ bt_leaves t = before ++ [lf].
Proof.
  induction fuel as [|fu IH]; intros t lo hi k Hwf Hno Hh; [lia|].
  destruct t as [lf|id ver keys ch].
  - exists lf, []. split; reflexivity.
  - apply WF_int_iff in Hwf. destruct Hwf as (_ & Hlen & _ & Hw & _ & Hc & _).
    cbn [bt_seps] in Hno. rewrite Forall_forall in Hw.
    assert (route keys k 0 = length keys) as Er.
    { rewrite route_none; [lia|]. intros s Hs. apply Hno; [apply in_or_app; left; exact Hs|apply Hw; exact Hs]. }
    set (i := length keys) in *. assert (i < length ch)%nat as Hi by lia.
    cbn [bt_find_leaf]. rewrite Er, (nth_error_child ch i Hi).
    destruct (IH (nth i ch dbt) _ _ k (Hc i Hi)) as (lf & b' & E & EL).
    { intros sep Hs. apply Hno. apply in_or_app. right. apply in_flat_map. exists (nth i ch dbt).
      split; [apply nth_In; exact Hi|exact Hs]. }
    { pose proof (height_child id ver keys ch i Hi). lia. }
    exists lf, (flat_map bt_leaves (firstn i ch) ++ b'). split; [exact E|].
    cbn [bt_leaves]. rewrite (flat_map_split bt_leaves dbt ch i Hi), EL.
    rewrite (skipn_all2 ch) by lia. cbn [flat_map]. rewrite app_nil_r, app_assoc. reflexivity.
Qed.

Lemma find_leaf_rightmost root k :
  WF_bt None None root ->
  (forall sep, In sep (bt_seps root) -> kt_wf sep = true -> route_probe k sep = false) ->
  exists lf before, find_leaf root k = Some lf /\ bt_leaves root = before ++ [lf].
Proof. intros Hwf Hno. exact (bt_find_leaf_rightmost _ root None None k Hwf Hno (Nat.lt_succ_diag_r _)). Qed.

(** where the walk along the borders starts, and what the descent has left out: right to left
    nothing behind the start, left to right only keys below the descent key *)
Lemma scan_start_dir root l rtl :
  WF_layer root -> bytes l -> (rtl = true -> ~ In maxsep (bt_seps root)) ->
  exists lf before after,
    find_leaf root (scan_descent_tuple l rtl) = Some lf /\
    bt_leaves root = before ++ lf :: after /\
    skip_to (lf_id lf) (bt_leaves root) = lf :: after /\
    if rtl then after = []
    else forall s, In s (flat_map leaf_entries before) ->
                   canon_lt (sl_key s) (tuple_of_key (dkey l)) = true.
Proof.
  intros [Hwf Hnd] Hl Hno.
  assert (forall lf before after, bt_leaves root = before ++ lf :: after ->
            skip_to (lf_id lf) (bt_leaves root) = lf :: after) as Hsk.
  { intros lf before after Elv. rewrite Elv. apply skip_to_split. rewrite <- Elv. apply leaf_ids_NoDup. exact Hnd. }
  destruct rtl.
  - change (scan_descent_tuple l true) with dmax.
    destruct (find_leaf_rightmost root dmax Hwf) as (lf & before & Ef & Elv).
    { intros sep Hs Hw. apply dmax_probe; [exact Hw|]. intros ->. exact (Hno eq_refl Hs). }
    exists lf, before, []. split; [exact Ef|]. split; [exact Elv|]. split; [exact (Hsk _ _ _ Elv)|reflexivity].
  - rewrite (find_leaf_dkey root l Hwf Hl).
    destruct (find_leaf_split root (tuple_of_key (dkey l)) Hwf (tuple_of_key_wf _ (dkey_bytes l Hl)))
      as (lf & before & after & Ef & Elv & Hb & _).
    exists lf, before, after. split; [exact Ef|]. split; [exact Elv|]. split; [exact (Hsk _ _ _ Elv)|exact Hb].
Qed.

(** ** one layer and the layers below it *)
Lemma fuel_step (ls : layers_t) f (p : prefix) x :
  (length ls < S f + length p)%nat -> (length ls < f + length (p ++ [x]))%nat.
Proof. rewrite app_length. cbn [length]. lia. Qed.

Lemma eok_in_dir rtl p pb ls C s : eok p pb ls C s -> eok p pb ls (fun s => in_dir rtl (C s)) s.
Proof.
  intros (A & B & D). split; [exact A|]. split; [exact B|].
  intros kv Hkv. apply D. apply (in_dir_In rtl). exact Hkv.
Qed.

Section Layer.
  Variable ctr : N.
  Variable ls : layers_t.
  Hypothesis W : WFL ctr ls None.

  Lemma eok_all p pb f root :
    layer_get ls p = Some root -> Forall (eok p pb ls (cent f ls p pb)) (bt_elems root).
  Proof.
    intros Eg. pose proof (wl_layer _ _ _ W) as Hwf. pose proof (wl_nz _ _ _ W) as Hnz.
    apply Forall_forall. intros s Hin.
    pose proof (layer_entry_ok ls Hwf p root s Eg Hin) as Hok. split; [exact Hok|]. split.
    - intros Hl. apply (wl_link _ _ _ W p root _ Eg); [|discriminate].
      rewrite <- (link_entry s Hok Hl). exact Hin.
    - intros kv Hkv. apply (acent_heads ls Hwf Hnz f p pb root s (abskv kv) Eg Hin).
      rewrite abs_cent. apply in_map. exact Hkv.
  Qed.

  Lemma layer_entries_ok p pb f root :
    layer_get ls p = Some root ->
    Forall (eok p pb ls (cent f ls p pb)) (flat_map leaf_entries (bt_leaves root)) /\
    sorted_keys (map sl_key (flat_map leaf_entries (bt_leaves root))).
  Proof.
    intros Eg. rewrite bt_leaves_elems. split; [exact (eok_all p pb f root Eg)|].
    exact (WF_bt_sorted None None root (proj1 (wl_layer _ _ _ W p root Eg))).
  Qed.

  Lemma cent_nonempty f p pb root s :
    layer_get ls p = Some root -> In s (bt_elems root) -> (length ls < S f + length p)%nat ->
    (forall p' pb', layer_get ls p' <> None -> p' <> [] -> (length ls < f + length p')%nat ->
                    clayer f ls p' pb' <> []) ->
    cent f ls p pb s <> [].
  Proof.
    intros Eg Hin Hfuel IH. pose proof (eok_all p pb f root Eg) as Hok. rewrite Forall_forall in Hok.
    destruct (Hok s Hin) as ((_ & Hlv) & Hlink & _). unfold cent.
    destruct (sl_lv s); [contradiction|discriminate|].
    apply IH; [apply Hlink; reflexivity|destruct p; discriminate|]. apply fuel_step. exact Hfuel.
  Qed.

  Lemma clayer_nonempty : forall f p pb,
    layer_get ls p <> None -> p <> [] -> (length ls < f + length p)%nat -> clayer f ls p pb <> [].
  Proof.
    induction f as [|f IH]; intros p pb Hex Hp Hfuel.
    { pose proof (layer_depth ctr ls None p W Hex). lia. }
    rewrite clayer_S. destruct (layer_get ls p) as [root|] eqn:Eg; [|contradiction].
    destruct (exists_last Hp) as (q & x & ->).
    destruct (wl_parent _ _ _ W q x root Eg) as [Hne _].
    destruct (bt_elems root) as [|s rest] eqn:Eel; [contradiction|]. cbn [flat_map].
    intros X. apply app_eq_nil in X. destruct X as [X _]. revert X.
    apply (cent_nonempty f (q ++ [x]) pb root s Eg); [rewrite Eel; left; reflexivity|lia|exact IH].
  Qed.

  (** Right to left (no right endpoint) an entry above a key of the range contributes a key of the
      range: it contributes some key, since no layer below a link is empty; that key lies above the
      given one; and nothing is cut off on the right.  Hence the scan of the last border alone gives
      the filter of the layer ([scan_layer_dir]), and a covered key belongs to the last border
      (coverage in PhantomProofs). *)
  Lemma first_in_range f p pb root e l le r ksuf :
    layer_get ls p = Some root -> In e (bt_elems root) -> (length ls < S f + length p)%nat ->
    bytes ksuf -> in_left l le ksuf = true -> canon_lt (tuple_of_key ksuf) (sl_key e) = true ->
    exists kv0, In kv0 (cent f ls p pb e) /\ in_range_kv pb l le r EP_INF kv0 = true.
  Proof.
    intros Eg Hin Hfuel Hks Hleft Hgt.
    pose proof (eok_all p pb f root Eg) as Hok. rewrite Forall_forall in Hok. destruct (Hok e Hin) as (_ & _ & Hsh).
    pose proof (cent_nonempty f p pb root e Eg Hin Hfuel (clayer_nonempty f)) as Hne.
    destruct (cent f ls p pb e) as [|kv0 c0]; [contradiction|]. exists kv0. split; [left; reflexivity|].
    destruct (Hsh kv0 (or_introl eq_refl)) as (rest & E & Ht).
    rewrite (in_range_kv_app _ _ _ _ _ _ _ E). cbn [in_right]. rewrite andb_true_r.
    apply (in_left_up l le ksuf); [exact Hleft|]. exact (heads_lt _ _ ksuf rest (heads_key ksuf Hks) Ht Hgt).
  Qed.

  Lemma eok_dir rtl p pb f root lvs :
    layer_get ls p = Some root -> incl lvs (bt_leaves root) ->
    Forall (eok p pb ls (fun s => in_dir rtl (cent f ls p pb s)))
           (flat_map (fun lf => in_dir rtl (leaf_entries lf)) lvs).
  Proof.
    intros Eg Hin. pose proof (eok_all p pb f root Eg) as Hok. rewrite Forall_forall in Hok |- *.
    intros s Hs. apply eok_in_dir. apply Hok. rewrite <- bt_leaves_elems.
    apply in_flat_map in Hs. destruct Hs as (lf & Hlf & Hs). apply in_flat_map. exists lf.
    split; [apply Hin; exact Hlf|apply (in_dir_In rtl); exact Hs].
  Qed.

  Variable fix2 : bool.

  (** Both directions in one induction on the fuel.  Right to left the walk starts at the last
      border and never leaves it, so the statement needs [max_size = 1], which is all the argument
      check admits, and a descent that does reach the last border ([rtl_ok]).  The result is the
      filter of the whole layer all the same: if nothing of the last border is in range, nothing
      before it is, since the first entry visited contributes a key above every earlier key
      ([first_in_range]). *)
  Theorem scan_layer_dir mx rtl : (rtl = true -> rtl_ok ls /\ mx = 1%nat) ->
    forall fuel p pb l le r re acc,
    (rtl = true -> re = EP_INF) ->
    layer_get ls p <> None -> (length ls < fuel + length p)%nat ->
    bytes l -> (le = EP_INF -> l = []) -> mr mx (ac_tuples acc) = false ->
    exists acc',
      scan_layer fix2 fuel ls mx rtl p pb l le r re acc = Some acc' /\
      ac_tuples acc' =
        trunc mx (ac_tuples acc ++ filter (in_range_kv pb l le r re) (in_dir rtl (clayer fuel ls p pb))).
  Proof.
    intros Hr. induction fuel as [|f IH]; intros p pb l le r re acc Hdir Hex Hfuel Hl Hinf Hmr.
    { pose proof (layer_depth ctr ls None p W Hex). lia. }
    cbn [scan_layer]. rewrite clayer_S.
    destruct (layer_get ls p) as [root|] eqn:Eg; [|contradiction].
    pose proof (wl_layer _ _ _ W p root Eg) as Hwl. pose proof Hwl as [Hwf _].
    destruct (scan_start_dir root l rtl Hwl Hl) as (lf & before & after & Ef & Elv & Esk & Hstart).
    { intros Er. apply (proj1 (Hr Er) p root Eg). }
    rewrite Ef, Esk.
    destruct (layer_entries_ok p pb f root Eg) as [Hok Hsorted].
    pose proof (bt_leaves_elems root) as Eel.
    rewrite Elv, flat_map_app in Hok, Hsorted, Eel. rewrite map_app in Hsorted.
    apply Forall_app in Hok. destruct Hok as [Hok1 _].
    apply StronglySorted_app_iff in Hsorted. destruct Hsorted as (_ & Hsorted2 & Hcross).
    destruct (scan_leaves_dir fix2 (scan_layer fix2 f ls mx rtl) mx rtl p pb l le r re ls f Hl)
      with (lvs := lf :: after) (acc := acc) as (acc' & Es & Ts); try assumption.
    { intros x al ale ar are acc0 Hex0 Hal Hinf0 Hare Hmr0. apply IH; try assumption.
      - intros Er. apply Hare. apply Hdir. exact Er.
      - apply fuel_step. exact Hfuel. }
    { apply (eok_dir rtl p pb f root _ Eg). intros x Hx. rewrite Elv. apply in_or_app. right. exact Hx. }
    { intros Hre. destruct rtl; [elim Hre; apply Hdir; reflexivity|]. exact Hsorted2. }
    exists acc'. split; [exact Es|]. rewrite Ts, <- Eel. clear IH Es Ts.
    destruct rtl.
    - (* right to left: the last border only; if nothing of it is in range, nothing before it is *)
      subst after. destruct (Hr eq_refl) as [_ ->]. pose proof (Hdir eq_refl) as ->.
      cbn [flat_map] in *. rewrite !app_nil_r in *.
      rewrite in_dir_flat_map, !in_dir_filter, flat_map_app, filter_app.
      set (Fl := filter (in_range_kv pb l le r EP_INF) (flat_map (cent f ls p pb) (leaf_entries lf))).
      set (Fb := filter (in_range_kv pb l le r EP_INF) (flat_map (cent f ls p pb) (flat_map leaf_entries before))).
      destruct Fl as [|x Fl'] eqn:EFl.
      + assert (Fb = []) as ->; [|reflexivity].
        unfold Fb. apply filter_nil_iff. intros kv Hkv.
        apply in_flat_map in Hkv. destruct Hkv as (sb & Hsb & Hkv).
        destruct (in_range_kv pb l le r EP_INF kv) eqn:Pk; [exfalso|reflexivity].
        (* the first entry of the last border contributes a key; it lies above [kv], so it is in range too *)
        assert (In lf (bt_leaves root)) as Hlf by (rewrite Elv; apply in_or_app; right; left; reflexivity).
        destruct (bt_leaves_nonempty_root None None root Hwf lf Hlf) as [Hne|Hroot].
        2:{ subst root. cbn [bt_leaves] in Elv. destruct before as [|b0 before]; [destruct Hsb|].
            apply (f_equal (@length leaf)) in Elv. rewrite app_length in Elv. cbn [length] in Elv. lia. }
        destruct (leaf_entries lf) as [|s0 more] eqn:Els; [contradiction|].
        assert (In s0 (bt_elems root)) as Hs0 by (rewrite <- Eel; apply in_or_app; right; left; reflexivity).
        rewrite Forall_forall in Hok1.
        destruct (Hok1 sb Hsb) as (_ & _ & Hshb). destruct (Hshb kv Hkv) as (restb & Eb & [Bb Tb]).
        rewrite (in_range_kv_app _ _ _ _ _ _ _ Eb) in Pk. apply andb_true_iff in Pk. destruct Pk as [Pk _].
        destruct (first_in_range f p pb root s0 l le r restb Eg Hs0 Hfuel Bb Pk) as (kv0 & Hkv0 & P0).
        { rewrite Tb. apply Hcross; [apply in_map; exact Hsb|left; reflexivity]. }
        assert (In kv0 Fl) as X; [|rewrite EFl in X; destruct X].
        apply filter_In. split; [|exact P0].
        cbn [flat_map]. apply in_or_app. left. exact Hkv0.
      + cbn [in_dir]. rewrite rev_app_distr, app_assoc. symmetry. apply trunc_reached.
        unfold mr. cbn [Nat.eqb negb andb]. rewrite app_length, rev_length. cbn [length].
        apply Nat.leb_le. lia.
    - (* left to right: the borders before the first one visited hold keys below the descent key, hence below [l] *)
      cbn [in_dir]. rewrite flat_map_app, filter_app.
      assert (filter (in_range_kv pb l le r re) (flat_map (cent f ls p pb) (flat_map leaf_entries before)) = []) as ->;
        [|reflexivity].
      apply filter_nil_iff. intros kv Hkv. apply in_flat_map in Hkv. destruct Hkv as (s & Hs & Hkv).
      rewrite Forall_forall in Hok1. destruct (Hok1 s Hs) as (_ & _ & Hsh).
      destruct (Hsh kv Hkv) as (rest & E & Ht).
      assert (lex_lt rest l = true) as H2.
      { apply lex_lt_dkey. exact (heads_lt _ _ rest _ Ht (heads_key _ (dkey_bytes l Hl)) (Hstart s Hs)). }
      rewrite (in_range_kv_app _ _ _ _ _ _ _ E). apply andb_false_iff. left.
      destruct le; cbn [in_left].
      + apply lex_lt_asym. exact H2.
      + rewrite H2. reflexivity.
      + rewrite (Hinf eq_refl), lex_lt_nil_r in H2. discriminate.
  Qed.

  (** the scan of the layers below meets the contract under which the border loop was specified *)
  Lemma scan_layer_sub_spec mx rtl f p pb re :
    (rtl = true -> rtl_ok ls /\ mx = 1%nat) -> (rtl = true -> re = EP_INF) ->
    (length ls < S f + length p)%nat ->
    sub_spec (scan_layer fix2 f ls mx rtl) mx ls p pb re
             (fun x => in_dir rtl (clayer f ls (p ++ [x]) (pb ++ bytes_of_slice x 8))).
  Proof.
    intros Hr Hdir Hfuel x al ale ar are acc Hex Hal Hinf Hare Hmr.
    apply (scan_layer_dir mx rtl Hr); try assumption.
    - intros Er. apply Hare. apply Hdir. exact Er.
    - apply fuel_step. exact Hfuel.
  Qed.

  Variable mx : nat.

  Theorem scan_layer_fwd : forall fuel p pb l le r re acc,
    layer_get ls p <> None -> (length ls < fuel + length p)%nat ->
    bytes l -> (le = EP_INF -> l = []) -> mr mx (ac_tuples acc) = false ->
    exists acc',
      scan_layer fix2 fuel ls mx false p pb l le r re acc = Some acc' /\
      ac_tuples acc' =
        trunc mx (ac_tuples acc ++ filter (in_range_kv pb l le r re) (clayer fuel ls p pb)).
  Proof.
    intros fuel p pb l le r re acc. apply (scan_layer_dir mx false); discriminate.
  Qed.

  Theorem scan_layer_rtl : rtl_ok ls -> forall fuel p pb l le r acc,
    layer_get ls p <> None -> (length ls < fuel + length p)%nat ->
    bytes l -> (le = EP_INF -> l = []) -> mr 1 (ac_tuples acc) = false ->
    exists acc',
      scan_layer fix2 fuel ls 1 true p pb l le r EP_INF acc = Some acc' /\
      ac_tuples acc' =
        trunc 1 (ac_tuples acc ++ filter (in_range_kv pb l le r EP_INF) (rev (clayer fuel ls p pb))).
  Proof.
    intros Hrtl fuel p pb l le r acc.
    apply (scan_layer_dir 1 true (fun _ => conj Hrtl eq_refl)). reflexivity.
  Qed.
End Layer.

(** ** the public scan *)

(** Two facts about reachable stores that [WF_store] does not record (both are needed:
    see the counterexamples [scan_refines_needs_root_live] and [scan_refines_needs_rtl_ok]):
    - [root_live]: a border of layer 0 flagged deleted-and-root only occurs in the empty store
      (remove flags the emptied root border; the next insert into it clears the flag);
    - [rtl_ok]: no interior separator is (0xffffffffffffffff, 9) (a separator is the first key of
      the right half of a split border, which holds at least seven keys, six of them larger). *)
Definition root_live (tr : tree) : Prop :=
  forall root lf, layer_get (t_layers tr) [] = Some root -> In lf (bt_leaves root) ->
    get_deleted (lf_ver lf) && get_root (lf_ver lf) = true -> bt_elems root = [].

Lemma find_leaf_descent root l rtl :
  WF_bt None None root -> bytes l ->
  exists start, find_leaf root (scan_descent_tuple l rtl) = Some start /\ In start (bt_leaves root).
Proof.
  intros Hwf Hl.
  assert (forall k, kt_wf k = true -> exists start, find_leaf root k = Some start /\ In start (bt_leaves root)) as G.
  { intros k Hk. destruct (find_leaf_spec root k Hwf Hk) as (lf & E & _ & Hin & _). exists lf. split; assumption. }
  destruct rtl; [exact (G dmax eq_refl)|].
  rewrite (find_leaf_dkey root l Hwf Hl). exact (G _ (tuple_of_key_wf _ (dkey_bytes l Hl))).
Qed.

Definition empty_acc : scan_acc := {| ac_tuples := []; ac_nv := [] |}.

Lemma mr_empty mx : mr mx (ac_tuples empty_acc) = false.
Proof. destruct mx; reflexivity. Qed.

Lemma root_fuel (ls : layers_t) : (length ls < S (length ls) + length (@nil N))%nat.
Proof. cbn [length]. rewrite Nat.add_0_r. apply Nat.lt_succ_diag_r. Qed.

Lemma spec_scan_list_nil a : spec_scan_list [] a = [].
Proof. unfold spec_scan_list. cbn [filter rev]. destruct (sa_rtl a); [reflexivity|]. destruct (Nat.eqb (sa_max a) 0); [reflexivity|apply firstn_nil]. Qed.

(** an INF left endpoint ignores the key passed with it *)
Definition left_key (a : scan_args) : key := match sa_le a with EP_INF => [] | _ => sa_l a end.

Lemma left_key_bytes a : bytes (sa_l a) -> bytes (left_key a).
Proof. unfold left_key. destruct (sa_le a); [exact (fun H => H)|exact (fun H => H)|constructor]. Qed.

Lemma left_key_inf a : sa_le a = EP_INF -> left_key a = [].
Proof. unfold left_key. intros ->. reflexivity. Qed.

Lemma in_left_left_key a k : in_left (left_key a) (sa_le a) k = in_left (sa_l a) (sa_le a) k.
Proof. unfold left_key. destruct (sa_le a); reflexivity. Qed.

Lemma scan_normalise_spec a :
  scan_normalise a =
  {| sa_l := left_key a; sa_le := sa_le a; sa_r := sa_r a; sa_re := sa_re a; sa_max := sa_max a;
     sa_rtl := sa_rtl a; sa_lnull := sa_lnull a; sa_rnull := sa_rnull a |}.
Proof. destruct a as [l le r re mx rtl ln rn]. destruct le; reflexivity. Qed.

Lemma scan_eq tr a :
  scan tr a = if spec_scan_args_ok a then scan_body true tr (scan_normalise a)
              else Some (scan_fail St_ERR_BAD_USAGE).
Proof. unfold scan. rewrite scan_validate_eq. destruct (spec_scan_args_ok a); reflexivity. Qed.

Lemma scan_unfold ctr tr a :
  WF_store ctr tr -> t_null tr = false -> bytes (sa_l a) -> spec_scan_args_ok a = true ->
  exists root start,
    layer_get (t_layers tr) [] = Some root /\ In start (bt_leaves root) /\
    scan tr a =
    if get_deleted (lf_ver start) && get_root (lf_ver start)
    then Some {| so_status := St_OK; so_tuples := []; so_nv := [(lf_id start, lf_ver start)] |}
    else match scan_layer true (S (length (t_layers tr))) (t_layers tr) (sa_max a) (sa_rtl a)
                          [] [] (left_key a) (sa_le a) (sa_r a) (sa_re a) empty_acc with
         | None => None
         | Some acc => Some {| so_status := St_OK; so_tuples := ac_tuples acc; so_nv := ac_nv acc |}
         end.
Proof.
  intros W0 Hnull Hbl Hok. pose proof (WF_store_layers _ _ W0 Hnull) as W.
  rewrite scan_eq, Hok. unfold scan_body. rewrite Hnull, scan_normalise_spec. cbn [sa_l sa_le sa_r sa_re sa_max sa_rtl].
  destruct (layer_get (t_layers tr) []) as [root|] eqn:Eg; [|exact (False_ind _ (wl_exc _ _ _ W Eg))].
  destruct (find_leaf_descent root (left_key a) (sa_rtl a) (proj1 (wl_layer _ _ _ W [] root Eg))
              (left_key_bytes a Hbl)) as (start & Efl & Hstart).
  exists root, start. split; [reflexivity|]. split; [exact Hstart|]. rewrite Efl. reflexivity.
Qed.

(** [bytes (sa_r a)] is not used: the right key is only ever compared bytewise, and [cmp_pref_spec]
    asks nothing of it *)
Theorem scan_refines ctr tr a :
  WF_store ctr tr -> t_null tr = false -> bytes (sa_l a) -> bytes (sa_r a) ->
  root_live tr -> (sa_rtl a = true -> rtl_ok (t_layers tr)) ->
  exists o, scan tr a = Some o /\
    if spec_scan_args_ok a
    then so_status o = St_OK /\
         map (fun kv => (fst kv, abs_value (snd kv))) (so_tuples o) = spec_scan_list (abs_tree tr) a
    else so_status o = St_ERR_BAD_USAGE /\ so_tuples o = [].
Proof.
  intros Wst Hnull Hbl _ Hlive Hrtl.
  destruct (spec_scan_args_ok a) eqn:Eok.
  2:{ exists (scan_fail St_ERR_BAD_USAGE). rewrite scan_eq, Eok.
      split; [reflexivity|split; reflexivity]. }
  destruct (scan_unfold ctr tr a Wst Hnull Hbl Eok) as (root & start & Eg & Hstart & ->).
  pose proof (WF_store_layers _ _ Wst Hnull) as W. clear Wst.
  pose proof (abs_tree_clayer tr Hnull) as Eabs.
  set (ls := t_layers tr) in *.
  destruct (get_deleted (lf_ver start) && get_root (lf_ver start)) eqn:Edel.
  { eexists. split; [reflexivity|]. cbn [so_status so_tuples map]. split; [reflexivity|].
    rewrite Eabs, clayer_S, Eg, (Hlive root start Eg Hstart Edel). cbn [flat_map map].
    symmetry. apply spec_scan_list_nil. }
  set (Q := fun k : key => in_left (sa_l a) (sa_le a) k && in_right (sa_r a) (sa_re a) k).
  assert (forall cl, filter (in_range_kv [] (left_key a) (sa_le a) (sa_r a) (sa_re a)) cl =
                     filter (fun kv => Q (fst kv)) cl) as EQ.
  { intros cl. apply filter_ext. intros kv. unfold in_range_kv, Q. cbn [app]. rewrite in_left_left_key. reflexivity. }
  assert (layer_get ls [] <> None) as Hex by (rewrite Eg; discriminate).
  pose proof (left_key_bytes a Hbl) as Hbl'. pose proof (left_key_inf a) as Hinf.
  change (fun kv : key * value => (fst kv, abs_value (snd kv))) with abskv.
  unfold spec_scan_list. rewrite Eabs, (filter_map_abskv Q).
  destruct (sa_rtl a) eqn:Rtl.
  - (* right to left: the greatest entry *)
    destruct (args_ok_rtl a Eok Rtl) as [Ere1 Emx1]. rewrite Ere1, Emx1 in *.
    destruct (scan_layer_rtl ctr ls W true (Hrtl eq_refl) (S (length ls)) [] [] (left_key a) (sa_le a) (sa_r a)
                empty_acc Hex (root_fuel ls) Hbl' Hinf (mr_empty _)) as (acc' & -> & Ts).
    eexists. split; [reflexivity|]. cbn [so_status so_tuples]. split; [reflexivity|].
    rewrite Ts. cbn [ac_tuples empty_acc app]. rewrite filter_rev, EQ, <- map_rev.
    destruct (rev (filter (fun kv => Q (fst kv)) (clayer (S (length ls)) ls [] []))) as [|x xs]; reflexivity.
  - destruct (scan_layer_fwd ctr ls W true (sa_max a) (S (length ls)) [] [] (left_key a) (sa_le a) (sa_r a) (sa_re a)
                empty_acc Hex (root_fuel ls) Hbl' Hinf (mr_empty _)) as (acc' & -> & Ts).
    eexists. split; [reflexivity|]. cbn [so_status so_tuples]. split; [reflexivity|].
    rewrite Ts. cbn [ac_tuples empty_acc app]. rewrite EQ. apply trunc_map.
Qed.

Theorem scan_null tr a :
  t_null tr = true ->
  exists o, scan tr a = Some o /\
    if spec_scan_args_ok a
    then so_status o = St_OK_ROOT_IS_NULL /\ so_tuples o = []
    else so_status o = St_ERR_BAD_USAGE /\ so_tuples o = [].
Proof.
  intros Hnull. rewrite scan_eq. unfold scan_body. rewrite Hnull.
  destruct (spec_scan_args_ok a); eexists; (split; [reflexivity|split; reflexivity]).
Qed.

(** ** [scan_layer_fwd] / [scan_layer_rtl] for particular arguments.  These speak of [scan_layer] on
    the layers of a well-formed store, not of the public [scan] (no validation, no test for the
    emptied root): that is what [_partial] in their names stands for. *)
Lemma scan_root_abs ctr ls fix2 mx l le r re :
  WFL ctr ls None -> bytes l -> (le = EP_INF -> l = []) ->
  exists acc', scan_layer fix2 (S (length ls)) ls mx false [] [] l le r re empty_acc = Some acc' /\
    map abskv (ac_tuples acc') =
      trunc mx (filter (fun kv => in_left l le (fst kv) && in_right r re (fst kv))
                       (abs_layer (S (length ls)) ls [] [])).
Proof.
  intros W Hl Hinf.
  destruct (scan_layer_fwd ctr ls W fix2 mx (S (length ls)) [] [] l le r re empty_acc) as (acc' & Es & Ts);
    try assumption.
  { exact (wl_exc _ _ _ W). }
  { apply root_fuel. }
  { apply mr_empty. }
  exists acc'. split; [exact Es|]. rewrite Ts. cbn [ac_tuples empty_acc app].
  rewrite trunc_map, abs_clayer. f_equal.
  rewrite (filter_map_abskv (fun k => in_left l le k && in_right r re k)). reflexivity.
Qed.

Theorem scan_full_partial ctr ls fix2 :
  WFL ctr ls None ->
  exists acc', scan_layer fix2 (S (length ls)) ls 0 false [] [] [] EP_INF [] EP_INF empty_acc = Some acc' /\
    map abskv (ac_tuples acc') = abs_layer (S (length ls)) ls [] [].
Proof.
  intros W. destruct (scan_root_abs ctr ls fix2 0 [] EP_INF [] EP_INF W) as (acc' & Es & Ts);
    [constructor|reflexivity|].
  exists acc'. split; [exact Es|]. rewrite Ts. unfold trunc. cbn [Nat.eqb in_left in_right andb].
  apply filter_all. reflexivity.
Qed.

Theorem scan_right_partial ctr ls fix2 r re :
  WFL ctr ls None ->
  exists acc', scan_layer fix2 (S (length ls)) ls 0 false [] [] [] EP_INF r re empty_acc = Some acc' /\
    map abskv (ac_tuples acc') =
      filter (fun kv => in_right r re (fst kv)) (abs_layer (S (length ls)) ls [] []).
Proof.
  intros W. destruct (scan_root_abs ctr ls fix2 0 [] EP_INF r re W) as (acc' & Es & Ts);
    [constructor|reflexivity|].
  exists acc'. split; [exact Es|]. rewrite Ts. reflexivity.
Qed.

(** the left key may have any length (the descent truncates its length to 8 bits) *)
Theorem scan_left_partial ctr ls fix2 l le r re :
  WFL ctr ls None -> bytes l -> (le = EP_INF -> l = []) ->
  exists acc', scan_layer fix2 (S (length ls)) ls 0 false [] [] l le r re empty_acc = Some acc' /\
    map abskv (ac_tuples acc') =
      filter (fun kv => in_left l le (fst kv) && in_right r re (fst kv))
             (abs_layer (S (length ls)) ls [] []).
Proof.
  intros W Hl Hinf. destruct (scan_root_abs ctr ls fix2 0 l le r re W Hl Hinf) as (acc' & Es & Ts).
  exists acc'. split; [exact Es|]. rewrite Ts. reflexivity.
Qed.

Theorem scan_layers_partial ctr ls fix2 mx fuel p pb l le r re acc :
  WFL ctr ls None -> layer_get ls p <> None -> (length ls < fuel + length p)%nat ->
  bytes l -> (le = EP_INF -> l = []) -> max_reached mx acc = false ->
  exists acc',
    scan_layer fix2 fuel ls mx false p pb l le r re acc = Some acc' /\
    ac_tuples acc' =
      trunc mx (ac_tuples acc ++
                filter (fun kv => in_left (pb ++ l) le (fst kv) && in_right r re (fst kv))
                       (clayer fuel ls p pb)) /\
    abs_layer fuel ls p pb = map abskv (clayer fuel ls p pb).
Proof.
  intros W Hex Hfuel Hl Hinf Hmr.
  destruct (scan_layer_fwd ctr ls W fix2 mx fuel p pb l le r re acc Hex Hfuel Hl Hinf Hmr) as (acc' & Es & Ts).
  exists acc'. split; [exact Es|]. split; [exact Ts|apply abs_clayer].
Qed.

Theorem scan_rtl_partial ctr ls fix2 fuel p pb l le r acc :
  WFL ctr ls None -> rtl_ok ls -> layer_get ls p <> None -> (length ls < fuel + length p)%nat ->
  bytes l -> (le = EP_INF -> l = []) -> ac_tuples acc = [] ->
  exists acc',
    scan_layer fix2 fuel ls 1 true p pb l le r EP_INF acc = Some acc' /\
    ac_tuples acc' =
      match rev (filter (fun kv => in_left (pb ++ l) le (fst kv)) (clayer fuel ls p pb)) with
      | [] => []
      | x :: _ => [x]
      end.
Proof.
  intros W Hrtl Hex Hfuel Hl Hinf Hacc.
  destruct (scan_layer_rtl ctr ls W fix2 Hrtl fuel p pb l le r acc Hex Hfuel Hl Hinf) as (acc' & Es & Ts).
  { rewrite Hacc. reflexivity. }
  exists acc'. split; [exact Es|]. rewrite Ts, Hacc. cbn [app]. rewrite filter_rev.
  assert (filter (in_range_kv pb l le r EP_INF) (clayer fuel ls p pb) =
          filter (fun kv => in_left (pb ++ l) le (fst kv)) (clayer fuel ls p pb)) as ->.
  { apply filter_ext. intros kv. unfold in_range_kv. cbn [in_right]. apply andb_true_r. }
  destruct (rev (filter (fun kv => in_left (pb ++ l) le (fst kv)) (clayer fuel ls p pb))); reflexivity.
Qed.

(** ** [rtl_ok] and [root_live] hold on every store reached by puts and removes.
    [scan_refines] asks for [rtl_ok] / [root_live]; what put and remove preserve are the stronger
    [seps_ok] (of every listed layer, whether [layer_get] finds it or not) and [live_ok], which drops
    the root bit: a border keeps its deleted flag through every operation, while the root bit is
    rewritten whenever the root of the layer changes.  Both say of one layer at a time ([seps_good],
    [layer_live]) what each root that a put or a remove leaves has from the root before it
    ([put_root], [rm_root] of StoreProofs), and that makes them invariants ([put_lw], [remove_lw],
    [put_at_root], [remove_at_root]). *)

(** *** separators *)
Definition nmax (s : ktuple) : Prop := s <> maxsep.
Definition seps_good (t : bt) : Prop := Forall nmax (bt_seps t).
Definition seps_ok (ls : layers_t) : Prop := Forall (fun pr => seps_good (snd pr)) ls.

Lemma seps_ok_rtl ls : seps_ok ls -> rtl_ok ls.
Proof.
  intros H p root Eg Hin. apply layer_get_in in Eg. unfold seps_ok in H. rewrite Forall_forall in H.
  specialize (H _ Eg). cbn [snd] in H. unfold seps_good in H. rewrite Forall_forall in H.
  exact (H _ Hin eq_refl).
Qed.

Lemma seps_good_int id ver keys ch :
  seps_good (BInt id ver keys ch) <-> Forall nmax keys /\ Forall seps_good ch.
Proof. unfold seps_good. cbn [bt_seps]. rewrite Forall_app, Forall_flat_map. reflexivity. Qed.

Lemma seps_good_leaf l : seps_good (BLeaf l).
Proof. constructor. Qed.

Definition ires_good (r : insres) : Prop :=
  match r with
  | IOne t => seps_good t
  | ISplit l s r => nmax s /\ seps_good l /\ seps_good r
  end.

Lemma int_absorb_good id ver keys ch i l sep r nid :
  Forall nmax keys -> Forall seps_good ch -> nmax sep -> seps_good l -> seps_good r ->
  ires_good (int_absorb id ver keys ch i l sep r nid).
Proof.
  intros Hk Hc Hs Hl Hr. unfold int_absorb.
  assert (Forall seps_good (set_nth i l ch)) as Hc1 by (apply Forall_set_nth; assumption).
  set (ch1 := set_nth i l ch) in *.
  destruct (Nat.eqb_spec (length keys) 15) as [E|E].
  - assert (nmax (nth 7 keys {| ks := 0; kl := 0 |})) as Hp.
    { rewrite Forall_forall in Hk. apply Hk. apply nth_In. lia. }
    destruct (iins_probe sep (nth 7 keys {| ks := 0; kl := 0 |})); unfold int_insert; cbv beta iota zeta;
      cbn [ires_good]; (split; [exact Hp|]); split; apply seps_good_int; split;
      repeat first [assumption | apply Forall_insert_at | apply Forall_firstn | apply Forall_skipn].
  - unfold int_insert. cbv beta iota zeta. cbn [ires_good]. apply seps_good_int.
    split; apply Forall_insert_at; assumption.
Qed.

Lemma split_sep_nmax R sep :
  WF_leaf R -> (7 <= length (leaf_entries R))%nat -> hd_error (leaf_keys R) = Some sep -> nmax sep.
Proof.
  intros (_ & _ & Hok & Hsorted) H7 Hhd E. subst sep.
  unfold leaf_keys in *. destruct (leaf_entries R) as [|s0 [|s1 rest]]; cbn [length] in H7; try lia.
  cbn [map hd_error] in Hhd, Hsorted. injection Hhd as Hs0.
  apply StronglySorted_cons_iff in Hsorted. destruct Hsorted as [_ Hlt]. rewrite Forall_forall in Hlt.
  specialize (Hlt (sl_key s1) (or_introl eq_refl)). rewrite Hs0 in Hlt.
  rewrite Forall_forall in Hok. destruct (Hok s1 (or_intror (or_introl eq_refl))) as [Hw _].
  exact (eq_true_false_abs _ Hlt (canon_lt_max _ Hw)).
Qed.

Lemma bt_put_good k lv fuel : forall t lo hi ctr res info ctr',
  WF_bt lo hi t -> kt_wf k = true -> in_bnd lo hi k -> ~ In k (bt_keys t) ->
  entry_ok {| sl_key := k; sl_lv := lv |} -> (bt_height t < fuel)%nat ->
  bt_put fuel t k lv ctr = Some (res, info, ctr') -> seps_good t -> ires_good res.
Proof.
  intros t lo hi ctr res info ctr' Hwf Hk Hbk Hnin Hok Hh. revert ctr res info ctr' Hbk Hnin.
  revert fuel t lo hi Hwf Hh. refine (descent_ind k _ Hk _ _).
  - intros f lo hi l Hwf ctr res info ctr' Hbk Hnin E _. cbn [bt_put] in E.
    apply WF_leaf_iff in Hwf. destruct Hwf as [Hl Hbl].
    rewrite bt_keys_leaf in Hnin.
    destruct (N.eq_dec (leaf_cnk l) 15) as [E15|N15].
    + destruct (leaf_put_split l k lv ctr Hl E15 Hk Hnin Hok) as (L & sep & R & info0 & El & Hpost).
      rewrite El in E. injection E as <- <- <-.
      destruct Hpost as (_ & _ & HwR & _ & _ & _ & H7 & _ & Hhd & _).
      cbn [ires_good]. split; [eapply split_sep_nmax; eassumption|]. split; apply seps_good_leaf.
    + destruct (leaf_put_nosplit l k lv ctr Hl N15 Hk Hnin Hok) as (l' & info0 & El & _).
      rewrite El in E. injection E as <- <- <-. apply seps_good_leaf.
  - intros f lo hi id ver keys ch i _ Hi Hnth _ Hbnd _ Hkeys _ IH ctr res info ctr' Hbk Hnin E Hg.
    cbn [bt_put] in E. fold i in E. rewrite Hnth in E. rewrite Hkeys in Hnin.
    apply seps_good_int in Hg. destruct Hg as [Hgk Hgc].
    destruct (bt_put f (nth i ch dbt) k lv ctr) as [[[resc infoc] ctrc]|] eqn:Ec; [|discriminate].
    assert (ires_good resc) as Hr.
    { apply (IH ctr resc infoc ctrc (Hbnd Hbk) Hnin Ec).
      rewrite Forall_forall in Hgc. apply Hgc. apply nth_In. exact Hi. }
    destruct resc as [c'|l sep r]; injection E as <- <- <-.
    + apply seps_good_int. split; [exact Hgk|apply Forall_set_nth; assumption].
    + destruct Hr as (H1 & H2 & H3). apply int_absorb_good; assumption.
Qed.

Lemma layer_put_good root k lv ctr root' info ctr' :
  WF_layer root -> kt_wf k = true -> ~ In k (bt_keys root) ->
  entry_ok {| sl_key := k; sl_lv := lv |} ->
  layer_put root k lv ctr = Some (root', info, ctr') -> seps_good root -> seps_good root'.
Proof.
  intros [Hwf _] Hk Hnin Hok E Hg. apply layer_put_inv in E. destruct E as (res & c0 & Eb & E).
  pose proof (bt_put_good k lv (S (bt_height root)) root None None ctr res info c0 Hwf Hk
                (conj I I) Hnin Hok ltac:(lia) Eb Hg) as Hr.
  destruct res as [t|l sep r]; destruct E as [-> ->].
  - exact Hr.
  - cbn [ires_good] in Hr. destruct Hr as (H1 & H2 & H3). apply seps_good_int.
    split; [constructor; [exact H1|constructor]|]. constructor; [exact H2|]. constructor; [exact H3|constructor].
Qed.

Lemma bt_update_leaf_seps k f fuel : forall t, bt_seps (bt_update_leaf fuel t k f) = bt_seps t.
Proof.
  revert fuel. apply bt_update_leaf_flat; [reflexivity|].
  intros id ver keys ch ch' E. cbn [bt_seps]. rewrite E. reflexivity.
Qed.

Lemma bt_set_ver_seps t v : bt_seps (bt_set_ver t v) = bt_seps t.
Proof. destruct t; reflexivity. Qed.

Lemma bt_delete_good k fuel : forall t t' ret,
  bt_delete fuel t k = Some (DKept t', ret) -> seps_good t -> seps_good t'.
Proof.
  induction fuel as [|fu IH]; intros t t' ret E Hg; [discriminate|]. destruct t as [l|id ver keys ch].
  - apply bt_delete_leaf_inv in E. destruct E as (rank & slot & s & _ & E).
    destruct (leaf_cnk l =? 1)%N; destruct E as [E _]; [discriminate|]. injection E as ->. apply seps_good_leaf.
  - apply bt_delete_int_inv in E. destruct E as (c & rc & ret0 & _ & En & Ed & E).
    apply seps_good_int in Hg. destruct Hg as [Hgk Hgc]. pose proof Hgc as Hin. rewrite Forall_forall in Hin.
    destruct rc as [c'|].
    + destruct E as [E _]. injection E as ->. apply seps_good_int. split; [exact Hgk|].
      apply Forall_set_nth; [exact Hgc|]. eapply IH; [exact Ed|]. apply Hin. eapply nth_error_In. exact En.
    + destruct (Nat.eqb (length keys) 1).
      * destruct E as (sib & Es & E & _). injection E as ->. apply Hin. eapply nth_error_In. exact Es.
      * destruct E as [E _]. injection E as ->. apply seps_good_int.
        split; apply Forall_remove_at; assumption.
Qed.

Lemma layer_delete_good k root root' ret :
  bt_delete (S (bt_height root)) root k = Some (DKept root', ret) -> seps_good root ->
  seps_good (if N.eqb (bt_id root') (bt_id root) then root' else set_root_flag root' true).
Proof.
  intros Ed Hg. pose proof (bt_delete_good k _ root root' ret Ed Hg) as Hg'.
  destruct (N.eqb (bt_id root') (bt_id root)); [exact Hg'|].
  unfold seps_good, set_root_flag. rewrite bt_set_ver_seps. exact Hg'.
Qed.

Lemma seps_ok_lw ls : seps_ok ls <-> lw (fun _ => seps_good) ls.
Proof.
  unfold seps_ok, lw. rewrite Forall_forall.
  split; [intros H p r Hin; exact (H _ Hin)|intros H [p r] Hin; exact (H p r Hin)].
Qed.

Lemma put_root_seps p r r' : put_root p r r' -> seps_good r -> seps_good r'.
Proof.
  intros [? root t l rk slot s v _ _ _ _|? root t lv ctr root' info c1 Hwl Hw Hnin Hok _ Eput] Hg.
  - unfold seps_good, overwrite, update_leaf. rewrite bt_update_leaf_seps. exact Hg.
  - exact (layer_put_good root t _ ctr root' info c1 Hwl Hw Hnin Hok Eput Hg).
Qed.

Lemma rm_root_seps p r r' : rm_root p r r' -> seps_good r -> seps_good r'.
Proof.
  intros [? root t root' ret Ed|l t rank slot s _ _] Hg;
    [exact (layer_delete_good t root root' ret Ed Hg)|apply seps_good_leaf].
Qed.

Definition scan_seps (tr : tree) : Prop := seps_ok (t_layers tr).

Theorem put_seps ctr tr k v unique tr' po ctr' :
  WF_store ctr tr -> bytes k -> put tr k v unique ctr = Some (tr', po, ctr') ->
  scan_seps tr -> scan_seps tr'.
Proof.
  unfold scan_seps. rewrite !seps_ok_lw.
  exact (put_lw _ (fun _ _ _ _ => seps_good_leaf _) put_root_seps ctr tr k v unique tr' po ctr').
Qed.

Theorem remove_seps tr k tr' ro : remove tr k = Some (tr', ro) -> scan_seps tr -> scan_seps tr'.
Proof. unfold scan_seps. rewrite !seps_ok_lw. exact (remove_lw _ rm_root_seps tr k tr' ro). Qed.

(** *** the deleted flag *)

Definition layer_live (root : bt) : Prop :=
  forall lf, In lf (bt_leaves root) -> get_deleted (lf_ver lf) = true -> bt_elems root = [].

Lemma layer_live_unflagged root :
  layer_live root -> bt_elems root <> [] ->
  forall lf, In lf (bt_leaves root) -> get_deleted (lf_ver lf) = false.
Proof.
  intros H Hne lf Hin. destruct (get_deleted (lf_ver lf)) eqn:E; [|reflexivity].
  contradiction (Hne (H lf Hin E)).
Qed.

Lemma unflagged_live root :
  (forall lf, In lf (bt_leaves root) -> get_deleted (lf_ver lf) = false) -> layer_live root.
Proof. intros H lf Hin Hd. rewrite (H lf Hin) in Hd. discriminate. Qed.

Lemma flags_from_live root root' :
  layer_live root -> bt_elems root <> [] ->
  (forall lf', In lf' (bt_leaves root') ->
     exists lf, In lf (bt_leaves root) /\ get_deleted (lf_ver lf') = get_deleted (lf_ver lf)) ->
  layer_live root'.
Proof.
  intros H Hne Hf. apply unflagged_live. intros lf' Hin'. destruct (Hf lf' Hin') as (lf & Hin & ->).
  exact (layer_live_unflagged root H Hne lf Hin).
Qed.

Definition live_ok (ls : layers_t) : Prop :=
  forall root lf, layer_get ls [] = Some root -> In lf (bt_leaves root) ->
    get_deleted (lf_ver lf) = true -> bt_elems root = [].

Lemma live_ok_at_root ls : live_ok ls <-> at_root (fun _ => layer_live) ls.
Proof. split; [intros H r Eg lf; exact (H r lf Eg)|intros H r lf Eg; exact (H r Eg lf)]. Qed.

Lemma live_ok_root_live tr : live_ok (t_layers tr) -> root_live tr.
Proof.
  intros H root lf Eg Hin Hd. apply andb_true_iff in Hd. destruct Hd as [Hd _]. exact (H root lf Eg Hin Hd).
Qed.

(** the border written to was either unflagged or empty (and then the only one), and the insert
    into an empty border clears the flag *)
Lemma layer_put_live root k lv ctr root' info ctr' :
  WF_layer root -> kt_wf k = true -> ~ In k (bt_keys root) ->
  entry_ok {| sl_key := k; sl_lv := lv |} ->
  layer_put root k lv ctr = Some (root', info, ctr') -> layer_live root ->
  forall lf', In lf' (bt_leaves root') -> get_deleted (lf_ver lf') = false.
Proof.
  intros Hwl Hw Hnin Hokn Eput Hs lf' Hin'.
  destruct (layer_put_leaves root k lv ctr root' info ctr' Hwl Hw Hnin Hokn Eput)
    as (lm & A & B & r0 & _ & HL & ELP & HR).
  assert (bt_elems root = [] \/ bt_elems root <> []) as [He|Hne]
    by (destruct (bt_elems root); [left; reflexivity|right; discriminate]).
  - (* the layer was one empty border *)
    destruct (empty_root_leaf None None root (proj1 Hwl) He) as [l0 ->]. cbn [bt_leaves] in HL.
    destruct A as [|a A]; [|destruct A; discriminate HL]. injection HL as -> <-.
    cbn [app] in HR. rewrite app_nil_r in HR. rewrite HR in Hin'.
    rewrite (leaf_put_deleted lm k lv ctr r0 info ELP lf' Hin').
    cbn [bt_elems] in He. pose proof (leaf_entries_length lm) as Y. rewrite He in Y. cbn [length] in Y.
    destruct (N.eqb_spec (leaf_cnk lm) 0); [reflexivity|lia].
  - pose proof (layer_live_unflagged root Hs Hne) as Hun.
    assert (forall lf, In lf (A ++ lm :: B) -> get_deleted (lf_ver lf) = false) as Hun'
      by (rewrite <- HL; exact Hun).
    rewrite HR in Hin'. apply in_app_or in Hin'. destruct Hin' as [Hin'|Hin'];
      [apply Hun'; apply in_or_app; left; exact Hin'|].
    apply in_app_or in Hin'. destruct Hin' as [Hin'|Hin'];
      [|apply Hun'; apply in_or_app; right; right; exact Hin'].
    rewrite (leaf_put_deleted lm k lv ctr r0 info ELP lf' Hin').
    destruct (leaf_cnk lm =? 0)%N; [reflexivity|]. apply Hun'. apply in_or_app. right. left. reflexivity.
Qed.

Lemma update_leaf_live root k slot x :
  layer_live root -> bt_elems root <> [] ->
  layer_live (update_leaf root k (fun l0 => leaf_with l0 (lf_ver l0) (lf_perm l0)
                                              (set_nth (N.to_nat slot) x (lf_slots l0)))).
Proof.
  intros Hs Hne. apply (flags_from_live root _ Hs Hne). intros lf' Hin'.
  apply leaf_versions_in in Hin'. rewrite c12_overwrite_silent in Hin'.
  apply leaf_versions_inv in Hin'. destruct Hin' as (lf & Hlf & Ev).
  exists lf. split; [exact Hlf|]. rewrite Ev. reflexivity.
Qed.

Lemma single_leaf_live c t lv : layer_live (BLeaf (single_leaf c t lv)).
Proof.
  intros lf [<-|[]] Hd. unfold single_leaf in Hd. rewrite leaf_insert_at_ver in Hd. cbn [lf_ver] in Hd.
  vm_compute in Hd. discriminate Hd.
Qed.

Lemma put_root_live p r r' : put_root p r r' -> layer_live r -> layer_live r'.
Proof.
  intros [? root t l rk slot s v _ _ _ Hin|? root t lv ctr root' info c1 Hwl Hw Hnin Hok _ Eput] Hl.
  - apply update_leaf_live; [exact Hl|]. intros X. rewrite X in Hin. destruct Hin.
  - exact (unflagged_live _ (layer_put_live root t _ ctr root' info c1 Hwl Hw Hnin Hok Eput Hl)).
Qed.

Lemma set_root_flag_deleted t b lf' :
  In lf' (bt_leaves (set_root_flag t b)) ->
  exists lf, In lf (bt_leaves t) /\ get_deleted (lf_ver lf') = get_deleted (lf_ver lf).
Proof.
  unfold set_root_flag. destruct t as [l|id ver keys ch]; cbn [bt_set_ver bt_leaves bt_ver].
  - intros [<-|[]]. exists l. split; [left; reflexivity|]. cbn [lf_ver]. apply get_deleted_set_root.
  - intros H. exists lf'. split; [exact H|reflexivity].
Qed.

Lemma layer_delete_live k root root' ret :
  bt_delete (S (bt_height root)) root k = Some (DKept root', ret) -> layer_live root ->
  layer_live (if N.eqb (bt_id root') (bt_id root) then root' else set_root_flag root' true).
Proof.
  intros Ed Hs. apply (flags_from_live root _ Hs (bt_delete_nonempty k _ root _ Ed)). intros lf2 Hin2.
  assert (exists lf1, In lf1 (bt_leaves root') /\ get_deleted (lf_ver lf2) = get_deleted (lf_ver lf1))
    as (lf1 & Hin1 & E1).
  { destruct (N.eqb (bt_id root') (bt_id root)); [exists lf2; split; [exact Hin2|reflexivity]|].
    exact (set_root_flag_deleted root' true lf2 Hin2). }
  apply leaf_versions_in in Hin1.
  apply (c12_delete_keeps_versions k _ root root' ret Ed) in Hin1.
  apply leaf_versions_inv in Hin1. destruct Hin1 as (lf0 & Hlf0 & Ev0).
  exists lf0. split; [exact Hlf0|]. rewrite E1, Ev0. reflexivity.
Qed.

Lemma emptied_root_live l rank slot w :
  leaf_cnk l = 1 ->
  layer_live (BLeaf (leaf_with (leaf_delete l rank slot) w
                               (lf_perm (leaf_delete l rank slot)) (lf_slots (leaf_delete l rank slot)))).
Proof.
  intros E1 lf _ _. cbn [bt_elems].
  match goal with |- leaf_entries ?x = [] => pose proof (leaf_entries_length x) as Y; set (lx := x) in * end.
  assert (leaf_cnk lx = 0) as C0.
  { change (leaf_cnk lx) with (leaf_cnk (leaf_delete l rank slot)). rewrite leaf_delete_count; lia. }
  rewrite C0 in Y. destruct (leaf_entries lx); [reflexivity|discriminate Y].
Qed.

Lemma rm_root_live p r r' : rm_root p r r' -> layer_live r -> layer_live r'.
Proof.
  intros [? root t root' ret Ed|l t rank slot s _ E1] Hl;
    [exact (layer_delete_live t root root' ret Ed Hl)|exact (emptied_root_live l rank slot _ E1)].
Qed.

Definition scan_live (tr : tree) : Prop := live_ok (t_layers tr).

Theorem put_live ctr tr k v unique tr' po ctr' :
  WF_store ctr tr -> bytes k -> put tr k v unique ctr = Some (tr', po, ctr') ->
  scan_live tr -> scan_live tr'.
Proof.
  unfold scan_live. rewrite !live_ok_at_root.
  exact (put_at_root _ (fun _ => single_leaf_live) put_root_live ctr tr k v unique tr' po ctr').
Qed.

Theorem remove_live tr k tr' ro : remove tr k = Some (tr', ro) -> scan_live tr -> scan_live tr'.
Proof. unfold scan_live. rewrite !live_ok_at_root. exact (remove_at_root _ rm_root_live tr k tr' ro). Qed.

(** *** the invariant of the scan *)
Definition scan_inv (tr : tree) : Prop := scan_seps tr /\ scan_live tr.

Theorem scan_inv_sound tr : scan_inv tr -> root_live tr /\ rtl_ok (t_layers tr).
Proof. intros [H1 H2]. split; [apply live_ok_root_live; exact H2|apply seps_ok_rtl; exact H1]. Qed.

Theorem scan_inv_null : scan_inv null_tree.
Proof. split; [constructor|intros root lf Eg; discriminate Eg]. Qed.

Theorem scan_inv_empty id : scan_inv (empty_tree id).
Proof.
  split.
  - unfold scan_seps, empty_tree. cbn [t_layers]. constructor; [apply seps_good_leaf|constructor].
  - intros root lf Eg Hin Hd. cbn in Eg. injection Eg as <-. cbn [bt_leaves] in Hin.
    destruct Hin as [<-|[]]. cbn [lf_ver] in Hd. vm_compute in Hd. discriminate Hd.
Qed.

Theorem put_scan_inv ctr tr k v unique tr' po ctr' :
  WF_store ctr tr -> bytes k -> put tr k v unique ctr = Some (tr', po, ctr') -> scan_inv tr -> scan_inv tr'.
Proof. intros W Hb E [H1 H2]. split; [eapply put_seps; eassumption|eapply put_live; eassumption]. Qed.

Theorem remove_scan_inv tr k tr' ro : remove tr k = Some (tr', ro) -> scan_inv tr -> scan_inv tr'.
Proof. intros E [H1 H2]. split; [eapply remove_seps; eassumption|eapply remove_live; eassumption]. Qed.

Theorem scan_refines_inv ctr tr a :
  WF_store ctr tr -> scan_inv tr -> t_null tr = false -> bytes (sa_l a) -> bytes (sa_r a) ->
  exists o, scan tr a = Some o /\
    if spec_scan_args_ok a
    then so_status o = St_OK /\
         map (fun kv => (fst kv, abs_value (snd kv))) (so_tuples o) = spec_scan_list (abs_tree tr) a
    else so_status o = St_ERR_BAD_USAGE /\ so_tuples o = [].
Proof.
  intros W Hi Hn Hl Hr. destruct (scan_inv_sound tr Hi) as [H1 H2].
  exact (scan_refines ctr tr a W Hn Hl Hr H1 (fun _ => H2)).
Qed.

Theorem scan_refines_all ctr tr a :
  WF_store ctr tr -> scan_inv tr -> bytes (sa_l a) -> bytes (sa_r a) ->
  exists o, scan tr a = Some o /\
    if spec_scan_args_ok a
    then so_status o = (if t_null tr then St_OK_ROOT_IS_NULL else St_OK) /\
         map (fun kv => (fst kv, abs_value (snd kv))) (so_tuples o) = spec_scan_list (abs_tree tr) a
    else so_status o = St_ERR_BAD_USAGE /\ so_tuples o = [].
Proof.
  intros W Hi Hl Hr. destruct (t_null tr) eqn:Hn.
  - destruct (scan_null tr a Hn) as (o & E & H). exists o. split; [exact E|].
    destruct (spec_scan_args_ok a); [|exact H]. destruct H as [H1 H2]. split; [exact H1|].
    rewrite H2, (abs_tree_null tr Hn). symmetry. apply spec_scan_list_nil.
  - exact (scan_refines_inv ctr tr a W Hi Hn Hl Hr).
Qed.

(** ** the statement without the two extra hypotheses is false: two well-formed
    (but unreachable) stores on which the scan model and the interval specification differ *)
Module ScanCounterexamples.
  Definition val (i : N) : value := {| v_id := 100 + i; v_bytes := [i]; v_align := 8; v_inline := false |}.
  Definition kA : ktuple := {| ks := 1 * 2 ^ 56; kl := 1 |}.       (* the key [1] *)
  Definition kC : ktuple := {| ks := 3 * 2 ^ 56; kl := 1 |}.       (* the key [3] *)
  Definition eA : slot_t := mk kA (LValue (val 1)).
  Definition eB : slot_t := mk maxsep LLink.
  Definition eC : slot_t := mk kC (LValue (val 3)).

  Lemma okA : entry_ok eA. Proof. split; [reflexivity|cbn; lia]. Qed.
  Lemma okB : entry_ok eB. Proof. split; reflexivity. Qed.
  Lemma okC : entry_ok eC. Proof. split; [reflexivity|cbn; lia]. Qed.

  Definition all_fwd : scan_args :=
    {| sa_l := []; sa_le := EP_INF; sa_r := []; sa_re := EP_INF; sa_max := 0%nat; sa_rtl := false;
       sa_lnull := false; sa_rnull := false |}.
  Definition last_rtl : scan_args :=
    {| sa_l := []; sa_le := EP_INF; sa_r := []; sa_re := EP_INF; sa_max := 1%nat; sa_rtl := true;
       sa_lnull := false; sa_rnull := false |}.

  (** each store below fails one of the two hypotheses and has the other, which is checked by evaluation *)
  Definition rtl_okb (ls : layers_t) : bool :=
    forallb (fun pr => negb (existsb (kt_eq maxsep) (bt_seps (snd pr)))) ls.

  Lemma rtl_okb_sound ls : rtl_okb ls = true -> rtl_ok ls.
  Proof.
    intros H p root Eg Hin. apply layer_get_in in Eg. unfold rtl_okb in H. rewrite forallb_forall in H.
    specialize (H _ Eg). cbn [snd] in H. apply negb_true_iff in H.
    assert (existsb (kt_eq maxsep) (bt_seps root) = true) as X; [|congruence].
    apply existsb_exists. exists maxsep. split; [exact Hin|reflexivity].
  Qed.

  Definition root_liveb (tr : tree) : bool :=
    match layer_get (t_layers tr) [] with
    | None => true
    | Some root =>
      forallb (fun lf => negb (get_deleted (lf_ver lf) && get_root (lf_ver lf))) (bt_leaves root) ||
      match bt_elems root with [] => true | _ => false end
    end.

  Lemma root_liveb_sound tr : root_liveb tr = true -> root_live tr.
  Proof.
    unfold root_liveb, root_live. intros H root lf Eg Hin Hdel. rewrite Eg in H.
    apply orb_true_iff in H. destruct H as [H|H].
    - rewrite forallb_forall in H. specialize (H lf Hin). rewrite Hdel in H. discriminate.
    - destruct (bt_elems root); [reflexivity|discriminate].
  Qed.

  (** *** a non-empty root border flagged deleted: the scan returns nothing *)
  Definition lf1 : leaf := single_leaf 1 kA (LValue (val 1)).
  Definition root1 : bt := bt_set_ver (BLeaf lf1) (set_deleted (lf_ver lf1) true).
  Definition cx1 : tree := {| t_layers := [([], root1)]; t_null := false |}.

  Lemma cx1_wf : WF_store 2 cx1.
  Proof.
    destruct (single_leaf_WF_layer 1 kA (LValue (val 1)) okA) as ([Hwf Hnd] & Hel & Hids).
    assert (sets_entry 0 2 [] [] kA (Some (LValue (val 1))) root1) as Hse.
    { constructor; unfold root1, lf1; [|rewrite bt_set_ver_elems, Hel|rewrite bt_set_ver_ids, Hids|lia].
      - split; [apply bt_set_ver_WF; exact Hwf|rewrite bt_set_ver_ids; exact Hnd].
      - intros t'. rewrite lkp_cons. cbn [sl_key sl_lv lkp]. destruct (kt_eq kA t'); reflexivity.
      - intros i [<-|[]]. lia. }
    apply (WFL_entry 0 2 [] (Some []) [] kA _ root1 (WFL_nil 0) Hse); [left; reflexivity|].
    intros H. contradiction H. reflexivity.
  Qed.

  Theorem scan_refines_needs_root_live :
    exists ctr tr a,
      WF_store ctr tr /\ t_null tr = false /\ bytes (sa_l a) /\ bytes (sa_r a) /\
      rtl_ok (t_layers tr) /\ spec_scan_args_ok a = true /\
      exists o, scan tr a = Some o /\ so_status o = St_OK /\ so_tuples o = [] /\
                spec_scan_list (abs_tree tr) a = [([1], abs_value (val 1))].
  Proof.
    exists 2, cx1, all_fwd. split; [exact cx1_wf|]. split; [reflexivity|].
    split; [constructor|]. split; [constructor|].
    split; [apply rtl_okb_sound; vm_compute; reflexivity|]. split; [reflexivity|].
    eexists. split; [vm_compute; reflexivity|]. split; [reflexivity|]. split; [reflexivity|].
    vm_compute. reflexivity.
  Qed.

  (** *** a separator (0xff..ff, 9): the right-to-left descent stops one border early *)
  Definition lfA : leaf := single_leaf 10 kA (LValue (val 1)).
  Definition lfB : leaf := single_leaf 11 maxsep LLink.
  Definition lfC : leaf := single_leaf 12 kC (LValue (val 3)).
  Definition root2 : bt := BInt 13 v_new_interior_parent [maxsep] [BLeaf lfA; BLeaf lfB].
  Definition sub2 : bt := BLeaf lfC.
  Definition cx2 : tree :=
    {| t_layers := [([], root2); ([18446744073709551615], sub2)]; t_null := false |}.

  Lemma root2_wf : WF_layer root2 /\ bt_elems root2 = [eA; eB] /\ bt_ids root2 = [13; 10; 11].
  Proof.
    destruct (single_leaf_spec 10 kA (LValue (val 1)) okA) as (WA & EA & IA).
    destruct (single_leaf_spec 11 maxsep LLink okB) as (WB & EB & IB).
    fold lfA in WA, EA, IA. fold lfB in WB, EB, IB.
    assert (bt_elems root2 = [eA; eB]) as Hel.
    { unfold root2. cbn [bt_elems flat_map]. rewrite EA, EB. reflexivity. }
    assert (bt_ids root2 = [13; 10; 11]) as Hid.
    { unfold root2. cbn [bt_ids flat_map]. rewrite IA, IB. reflexivity. }
    split; [|split; assumption]. split.
    - unfold root2. apply WF_int_iff. split; [cbn; lia|].
      split; [reflexivity|]. split; [constructor; constructor|]. split; [constructor; [reflexivity|constructor]|].
      split; [constructor; [split; exact I|constructor]|]. split.
      + intros i Hi. cbn [length] in Hi. destruct i as [|[|i]]; [| |lia]; cbn [nth lo_at hi_at length Nat.ltb Nat.leb].
        * apply WF_leaf_iff. split; [exact WA|]. rewrite (leaf_keys_of _ _ EA).
          constructor; [|constructor]. split; [exact I|reflexivity].
        * apply WF_leaf_iff. split; [exact WB|]. rewrite (leaf_keys_of _ _ EB).
          constructor; [|constructor]. split; [reflexivity|exact I].
      + intros i Hi. cbn [length] in Hi. destruct i as [|[|i]]; [| |lia]; cbn [nth bt_elems].
        * rewrite EA. discriminate.
        * rewrite EB. discriminate.
    - rewrite Hid. constructor; [intros [H|[H|[]]]; discriminate|].
      constructor; [intros [H|[]]; discriminate|]. constructor; [intros []|constructor].
  Qed.

  Lemma cx2_wf : WF_store 20 cx2.
  Proof.
    destruct root2_wf as (Hw2 & Hel2 & Hid2).
    destruct (single_leaf_WF_layer 12 kC (LValue (val 3)) okC) as (HwC & HelC & HidC).
    fold lfC in HwC, HelC, HidC. fold sub2 in HwC, HelC, HidC.
    apply two_layer_WF; try assumption.
    - rewrite Hid2, HidC. cbn [app]. intros i Hi. repeat (destruct Hi as [<-|Hi]; [lia|]). destruct Hi.
    - rewrite Hid2, HidC. intros i Hi [<-|[]]. repeat (destruct Hi as [Hi|Hi]; [discriminate Hi|]). destruct Hi.
    - intros y. rewrite Hel2. split.
      + intros [Hin|[Hin|[]]]; [discriminate Hin|]. injection Hin as <-. reflexivity.
      + intros ->. right. left. reflexivity.
    - intros y. rewrite HelC. intros [Hin|[]]. discriminate Hin.
    - rewrite HelC. discriminate.
    - intros s. rewrite HelC. intros [<-|[]]. cbn. lia.
  Qed.

  Theorem scan_refines_needs_rtl_ok :
    exists ctr tr a,
      WF_store ctr tr /\ t_null tr = false /\ bytes (sa_l a) /\ bytes (sa_r a) /\
      root_live tr /\ spec_scan_args_ok a = true /\
      exists o, scan tr a = Some o /\ so_status o = St_OK /\
                map fst (so_tuples o) = [[1]] /\
                map fst (spec_scan_list (abs_tree tr) a) = [[255; 255; 255; 255; 255; 255; 255; 255; 3]].
  Proof.
    exists 20, cx2, last_rtl. split; [exact cx2_wf|]. split; [reflexivity|].
    split; [constructor|]. split; [constructor|].
    split; [apply root_liveb_sound; vm_compute; reflexivity|]. split; [reflexivity|].
    eexists. split; [vm_compute; reflexivity|]. split; [reflexivity|]. split; [reflexivity|].
    vm_compute. reflexivity.
  Qed.
End ScanCounterexamples.

(** ** sanity: the hypotheses are satisfiable on a 39-layer store with interior nodes in two layers *)
Module ScanExample.
  Definition p8 : key := [7;7;7;7;7;7;7;7].
  Definition f8 : key := repeat 255 8.
  Definition ex_keys : list key :=
    [[]; [0]; [7]; [7;0]; [7;7;7;7;7;7;7]; p8; p8 ++ [0]; p8 ++ [7]; p8 ++ p8; p8 ++ p8 ++ [1];
     f8 ++ [3]; repeat 7 300; repeat 7 256]
    ++ map (fun i => [N.of_nat i; 1]) (seq 1 20)
    ++ map (fun i => p8 ++ [N.of_nat i; 2]) (seq 1 18).
  Definition ex_tree : tree :=
    match StoreExample.puts (empty_tree 1) 2 ex_keys with Some (t, _) => t | None => null_tree end.

  Example ex_shape :
    (length (t_layers ex_tree), length (abs_tree ex_tree),
     map (fun x => length (bt_leaves (snd x))) (firstn 3 (t_layers ex_tree))) = (39%nat, 51%nat, [3; 2; 1]%nat).
  Proof. vm_compute. reflexivity. Qed.

  (** well-formedness and the invariants follow from the preservation theorems, without looking at
      the tree: it has every property of the empty store that each put preserves *)
  Lemma ex_built (P : tree -> Prop) :
    (forall ctr tr k v unique tr' po ctr',
       WF_store ctr tr -> bytes k -> put tr k v unique ctr = Some (tr', po, ctr') -> P tr -> P tr') ->
    P (empty_tree 1) -> exists ctr, WF_store ctr ex_tree /\ P ex_tree.
  Proof.
    intros HP H0. destruct (StoreExample.puts_preserve P HP ex_keys (empty_tree 1) 2) as (tr' & c' & E & H).
    - apply empty_tree_wf. lia.
    - exact H0.
    - exact (keys_bytes ex_keys eq_refl).
    - exists c'. unfold ex_tree. rewrite E. exact H.
  Qed.

  Example ex_inv : exists ctr, WF_store ctr ex_tree /\ scan_inv ex_tree.
  Proof. exact (ex_built scan_inv put_scan_inv (scan_inv_empty 1)). Qed.

  Example ex_wf : exists ctr, WF_store ctr ex_tree.
  Proof. destruct ex_inv as (c & W & _). exists c. exact W. Qed.

  Lemma ex_not_null : t_null ex_tree = false.
  Proof.
    destruct (ex_built (fun tr => t_null tr = false)) as (c & _ & H); [|reflexivity|exact H].
    intros ctr tr k v unique tr' po ctr' _ _ E _. exact (put_not_null _ _ _ _ _ _ _ _ E).
  Qed.

  Example ex_live : t_null ex_tree = false /\ root_live ex_tree /\ rtl_ok (t_layers ex_tree).
  Proof. split; [exact ex_not_null|]. destruct ex_inv as (c & _ & Hi). exact (scan_inv_sound _ Hi). Qed.

  Example ex_applies a : bytes (sa_l a) -> bytes (sa_r a) ->
    exists o, scan ex_tree a = Some o /\
      if spec_scan_args_ok a
      then so_status o = St_OK /\
           map (fun kv => (fst kv, abs_value (snd kv))) (so_tuples o) = spec_scan_list (abs_tree ex_tree) a
      else so_status o = St_ERR_BAD_USAGE /\ so_tuples o = [].
  Proof.
    intros Hl Hr. destruct ex_wf as (ctr & W). destruct ex_live as (Hn & Hlive & Hrtl).
    exact (scan_refines ctr ex_tree a W Hn Hl Hr Hlive (fun _ => Hrtl)).
  Qed.

  (** the grid of arguments: endpoints that are stored keys, proper prefixes of stored keys, on
      8-byte boundaries, longer than 255 bytes (descent length truncated to 8 bits), all endpoint
      kinds, max_size 0 / 2, and right-to-left *)
  Definition keyeq_list (a b : list key) : bool :=
    Nat.eqb (length a) (length b) && forallb (fun pr => key_eqb (fst pr) (snd pr)) (combine a b).
  Definition check (tr : tree) (a : scan_args) : bool :=
    match scan tr a with
    | None => false
    | Some o =>
      if spec_scan_args_ok a then
        match so_status o with
        | St_OK => keyeq_list (map fst (so_tuples o)) (map fst (spec_scan_list (abs_tree tr) a))
        | _ => false
        end
      else match so_status o, so_tuples o with St_ERR_BAD_USAGE, [] => true | _, _ => false end
    end.
  Definition eps := [EP_EXCL; EP_INCL; EP_INF].
  Definition endpoints : list key :=
    [[]; [7;0]; p8; p8 ++ [5]; p8 ++ p8; repeat 7 256; repeat 7 300; repeat 7 520; [10;1]; f8 ++ [3]].
  Definition ex_args : list scan_args :=
    flat_map (fun l => flat_map (fun le => flat_map (fun r => flat_map (fun re => flat_map (fun mx =>
      [{| sa_l := l; sa_le := le; sa_r := r; sa_re := re; sa_max := mx; sa_rtl := false;
          sa_lnull := false; sa_rnull := false |}]) [0;2]%nat) eps) endpoints) eps) endpoints
    ++ flat_map (fun l => flat_map (fun le =>
      [{| sa_l := l; sa_le := le; sa_r := []; sa_re := EP_INF; sa_max := 1; sa_rtl := true;
          sa_lnull := false; sa_rnull := false |}]) eps) endpoints.

  Example ex_args_length : length ex_args = 1830%nat.
  Proof. vm_compute. reflexivity. Qed.
  Lemma keyeq_list_refl l : keyeq_list l l = true.
  Proof.
    unfold keyeq_list. rewrite Nat.eqb_refl. cbn [andb].
    induction l as [|k l IH]; [reflexivity|]. cbn [combine forallb fst snd]. rewrite key_eqb_refl. exact IH.
  Qed.

  Lemma check_of_refines tr a :
    (exists o, scan tr a = Some o /\
       if spec_scan_args_ok a
       then so_status o = St_OK /\
            map (fun kv => (fst kv, abs_value (snd kv))) (so_tuples o) = spec_scan_list (abs_tree tr) a
       else so_status o = St_ERR_BAD_USAGE /\ so_tuples o = []) -> check tr a = true.
  Proof.
    intros (o & E & H). unfold check. rewrite E. destruct (spec_scan_args_ok a).
    - destruct H as [-> H]. rewrite <- H, map_map. apply keyeq_list_refl.
    - destruct H as [-> ->]. reflexivity.
  Qed.

  (** a corollary of [ex_applies], which holds for every argument record with byte keys, not an
      evaluation of the 1830 points: [check] is true wherever the refinement statement holds
      ([check_of_refines]) *)
  Example ex_checks : forallb (check ex_tree) ex_args = true.
  Proof.
    apply forallb_forall. intros a Ha. apply check_of_refines.
    assert (bytes (sa_l a) /\ bytes (sa_r a)) as [Hl Hr]; [|exact (ex_applies a Hl Hr)].
    pose proof (keys_bytes endpoints eq_refl) as B. rewrite Forall_forall in B.
    unfold ex_args in Ha. apply in_app_or in Ha.
    destruct Ha as [Ha|Ha]; repeat (apply in_flat_map in Ha; destruct Ha as (? & ? & Ha));
      destruct Ha as [<-|[]]; cbn [sa_l sa_r]; split; try (apply B; assumption); constructor.
  Qed.
End ScanExample.

Print Assumptions scan_validate_spec.
Print Assumptions scan_full_partial.
Print Assumptions scan_right_partial.
Print Assumptions scan_left_partial.
Print Assumptions scan_layers_partial.
Print Assumptions scan_rtl_partial.
Print Assumptions scan_refines.
Print Assumptions scan_null.
Print Assumptions scan_inv_null.
Print Assumptions scan_inv_empty.
Print Assumptions put_scan_inv.
Print Assumptions remove_scan_inv.
Print Assumptions scan_refines_inv.
Print Assumptions scan_refines_all.
Print Assumptions ScanCounterexamples.scan_refines_needs_root_live.
Print Assumptions ScanCounterexamples.scan_refines_needs_rtl_ok.
Print Assumptions ScanExample.ex_inv.
Print Assumptions ScanExample.ex_applies.
Print Assumptions ScanExample.ex_checks.
