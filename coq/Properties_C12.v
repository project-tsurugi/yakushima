(** * C12 -- put reports exactly the border nodes whose versions its insert changed.

    One layer (the theorems named _partial: what is reported, without the version words):
    the reported modified node is a node of the tree as it
    was before the call; a reported created node is a fresh node (not in the old
    tree, id = the first id handed out); a border that is not full reports none.
    The statement about version words (exactly these borders change their version):
    one layer [C12_info_exact], the whole store [C12_store_info_exact].  It is
    tied to the code on every run: put info and all version words of the model are
    compared with the real ones (categories info + dump), and the property is
    evaluated on the implementation alone by the putinfo oracle. *)
From Coq Require Import NArith List Permutation.
From Yk Require Import ListAux KeyDefs KeyProofs TreeDefs LeafProofs LayerProofs
     VersionDefs ScanDefs VersionReportProofs SpecDefs StoreProofs PhantomProofs PutInfoProofs.
Import ListNotations.
Local Open Scope N_scope.

Theorem C12_info_nodes_partial : forall root k lv ctr,
  WF_layer root -> kt_wf k = true -> ~ In k (bt_keys root) ->
  entry_ok {| sl_key := k; sl_lv := lv |} -> (forall i, In i (bt_ids root) -> i < ctr) ->
  exists root' info ctr', layer_put root k lv ctr = Some (root', info, ctr') /\
    WF_layer root' /\ sorted_keys (bt_keys root') /\
    (exists A B, bt_elems root = A ++ B /\ bt_elems root' = A ++ {| sl_key := k; sl_lv := lv |} :: B) /\
    Permutation (bt_elems root') ({| sl_key := k; sl_lv := lv |} :: bt_elems root) /\
    ctr <= ctr' /\ (forall i, In i (bt_ids root') -> i < ctr') /\
    (forall i, In i (bt_ids root) -> In i (bt_ids root')) /\
    (forall i, In i (bt_ids root') -> In i (bt_ids root) \/ ctr <= i < ctr') /\
    In (pi_modified info) (bt_ids root) /\
    match pi_created info with
    | Some c => c = ctr /\ In c (bt_ids root') /\ ~ In c (bt_ids root)
    | None => True
    end.
Proof. exact layer_put_spec. Qed.
Print Assumptions C12_info_nodes_partial.

(** at the leaf: a border that is not full does not split and reports no created node (the full border:
    [LeafProofs.leaf_put_split], created = the new right sibling) *)
Theorem C12_leaf_nosplit_partial : forall l k lv nid,
  WF_leaf l -> leaf_cnk l <> 15 -> kt_wf k = true -> ~ In k (leaf_keys l) ->
  entry_ok {| sl_key := k; sl_lv := lv |} ->
  exists l' info, leaf_put l k lv nid = (IOne (BLeaf l'), info) /\
    leaf_entries l' = insert_at (leaf_rank l k) {| sl_key := k; sl_lv := lv |} (leaf_entries l) /\
    WF_leaf l' /\ lf_id l' = lf_id l /\ pi_modified info = lf_id l /\ pi_created info = None.
Proof. exact leaf_put_nosplit. Qed.
Print Assumptions C12_leaf_nosplit_partial.

(** ** Exactness on version words (VersionReportProofs) *)

(** the borders of the old tree whose version word differs after the insert are exactly the
    reported modified node; the borders that are new are exactly the reported created node *)
Theorem C12_info_exact : forall root k lv ctr root' info ctr',
  WF_layer root -> kt_wf k = true -> ~ In k (bt_keys root) ->
  entry_ok {| sl_key := k; sl_lv := lv |} -> (forall i, In i (bt_ids root) -> i < ctr) ->
  layer_put root k lv ctr = Some (root', info, ctr') ->
  NoDup (leaf_ids root) /\ NoDup (leaf_ids root') /\
  (forall i, In i (leaf_ids root) -> In i (leaf_ids root')) /\
  (forall i, In i (leaf_ids root) -> (leaf_ver_of root' i <> leaf_ver_of root i <-> i = pi_modified info)) /\
  (forall i v, In (i, v) (leaf_versions root) -> (In (i, v) (leaf_versions root') <-> i <> pi_modified info)) /\
  (forall c, In c (leaf_ids root') /\ ~ In c (leaf_ids root) <-> pi_created info = Some c).
Proof. exact c12_exact. Qed.
Print Assumptions C12_info_exact.

(** an overwrite changes no node version *)
Theorem C12_overwrite_silent : forall root k slot x,
  leaf_versions (update_leaf root k (fun l0 => leaf_with l0 (lf_ver l0) (lf_perm l0)
                                               (set_nth (N.to_nat slot) x (lf_slots l0)))) = leaf_versions root.
Proof. exact c12_overwrite_silent. Qed.
Print Assumptions C12_overwrite_silent.

(** ** Store level, all layers (PutInfoProofs): the report of an inserting put is exact across the whole store.
    (1) among the borders that existed before, exactly the reported one changes its version word; (2) no border
    disappears.  ([PutInfoProofs.store_put_info_exact] has in addition: the new borders are the reported created
    one (iff the landing border was full) and the roots of next layers that did not exist before -- those are not
    reported, and need not be: they are unreachable to other transactions until the landing border's link is
    published, and that publication is the reported change.) *)

Theorem C12_store_info_exact : forall ctr tr k v unique tr' po ctr' info,
  WF_store ctr tr -> t_null tr = false -> bytes k ->
  smap_get (abs_tree tr) k = None ->
  put tr k v unique ctr = Some (tr', po, ctr') -> po_info po = Some info ->
  (forall id, In id (store_ids tr) ->
      (store_leaf_ver tr' id <> store_leaf_ver tr id <-> id = pi_modified info)) /\
  (forall id, In id (store_ids tr) -> In id (store_ids tr')).
Proof.
  intros ctr tr k v unique tr' po ctr' info W Hn Hb Ha Hp Hi.
  destruct (store_put_info_exact ctr tr k v unique tr' po ctr' info W Hn Hb Ha Hp Hi) as (H1 & H2 & _).
  split; assumption.
Qed.
Print Assumptions C12_store_info_exact.

(** an overwrite and a failed unique insert change no version word anywhere *)
Theorem C12_store_overwrite_silent : forall ctr tr k v tr' po ctr',
  WF_store ctr tr -> bytes k -> smap_get (abs_tree tr) k <> None ->
  put tr k v false ctr = Some (tr', po, ctr') ->
  (forall id, store_leaf_ver tr' id = store_leaf_ver tr id) /\
  store_ids tr' = store_ids tr /\ length (t_layers tr') = length (t_layers tr) /\
  po_info po = None /\ po_status po = St_OK /\ ctr' = ctr.
Proof. exact store_overwrite_silent. Qed.
Print Assumptions C12_store_overwrite_silent.

Theorem C12_store_failed_unique_silent : forall ctr tr k v tr' po ctr',
  WF_store ctr tr -> bytes k -> smap_get (abs_tree tr) k <> None ->
  put tr k v true ctr = Some (tr', po, ctr') ->
  tr' = tr /\ po_status po = St_WARN_UNIQUE_RESTRICTION /\ po_info po = None /\ po_retired po = [] /\
  ctr' = ctr /\ (forall id, store_leaf_ver tr' id = store_leaf_ver tr id).
Proof. exact store_failed_unique_silent. Qed.
Print Assumptions C12_store_failed_unique_silent.
