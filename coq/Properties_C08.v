(** * C08 -- the tree stays coherent.

    Full statement: for every operation list the state [exec_all sys_init ops] satisfies
    [SysInv] ([C08_wf_reachable_all_ops], at the end).  Its parts [si_outer] and [si_names] say
    that the tree of storage names and the tree of every storage that has a name satisfy
    [WF_store]; [C08_wf_store_reading] and [StoreProofs.WF_store_facts] say what that is: every
    layer a well-formed B+-tree (entries of every node sorted and unique, separators bound
    their subtrees, valid permutation words), link <=> non-empty sub-layer.  (That point
    lookups, full scan and cursor agree is not a theorem of this file: each is shown equal to
    the same ordered map by C02, C03 and C10.)
    Before it, ONE layer (_partial): an insert (incl. border / interior splits and
    new roots) and a delete (incl. unlinking of emptied borders, absorption,
    promotion) of a well-formed layer yield a well-formed layer with the expected
    entries; descent and leaf chain see the same entries.  Parent / prev /
    next pointers are determined by the shape in the model and are compared with the
    real pointers on every dump (differential tie). *)
From Coq Require Import NArith List Permutation.
From Yk Require Import TreeDefs LeafProofs LayerProofs.
Import ListNotations.
Local Open Scope N_scope.

Theorem C08_layer_insert_preserves_wf_partial : forall root k lv ctr,
  WF_layer root -> kt_wf k = true -> ~ In k (bt_keys root) ->
  entry_ok {| sl_key := k; sl_lv := lv |} -> (forall i, In i (bt_ids root) -> i < ctr) ->
  exists root' info ctr', layer_put root k lv ctr = Some (root', info, ctr') /\
    WF_layer root' /\ sorted_keys (bt_keys root') /\
    (exists A B, bt_elems root = A ++ B /\ bt_elems root' = A ++ {| sl_key := k; sl_lv := lv |} :: B) /\
    Permutation (bt_elems root') ({| sl_key := k; sl_lv := lv |} :: bt_elems root) /\
    ctr <= ctr' /\ (forall i, In i (bt_ids root') -> i < ctr') /\
    (forall i, In i (bt_ids root) -> In i (bt_ids root')) /\
    (forall i, In i (bt_ids root') -> In i (bt_ids root) \/ ctr <= i < ctr') /\
    In (pi_modified info) (bt_ids root) /\
    match pi_created info with
    | Some c => c = ctr /\ In c (bt_ids root') /\ ~ In c (bt_ids root)
    | None => True
    end.
Proof. exact layer_put_spec. Qed.
Print Assumptions C08_layer_insert_preserves_wf_partial.

Theorem C08_layer_delete_preserves_wf_partial : forall ls p k root,
  layer_get ls p = Some root -> WF_layer root -> kt_wf k = true -> In k (bt_keys root) ->
  exists ls' gone ret,
    layer_remove ls p k = Some (ls', gone, ret) /\
    ((gone = false /\
      exists root' root'',
        bt_delete (S (bt_height root)) root k = Some (DKept root', ret) /\
        root'' = (if bt_id root' =? bt_id root then root' else set_root_flag root' true) /\
        ls' = layer_set ls p root'' /\ WF_layer root'' /\ bt_elems root'' <> [] /\
        (exists A s B, bt_elems root = A ++ s :: B /\ sl_key s = k /\ bt_elems root'' = A ++ B) /\
        Permutation (bt_ids root) (ret ++ bt_ids root'')) \/
     (gone = true /\ p <> [] /\ ls' = layer_del ls p /\
      exists l s, root = BLeaf l /\ leaf_entries l = [s] /\ sl_key s = k /\ ret = [lf_id l]) \/
     (gone = false /\ p = [] /\ ret = [] /\
      exists l s l'', root = BLeaf l /\ leaf_entries l = [s] /\ sl_key s = k /\
        ls' = layer_set ls p (BLeaf l'') /\ WF_layer (BLeaf l'') /\ leaf_entries l'' = [] /\
        lf_id l'' = lf_id l)).
Proof. exact layer_remove_spec. Qed.
Print Assumptions C08_layer_delete_preserves_wf_partial.

Theorem C08_wf_layer_sorted_partial : forall lo hi t,
  WF_bt lo hi t ->
  sorted_keys (bt_keys t) /\ Forall (fun k => kt_wf k = true) (bt_keys t) /\
  Forall entry_ok (bt_elems t) /\ Forall (in_bnd lo hi) (bt_keys t).
Proof. exact bt_elems_sorted. Qed.
Print Assumptions C08_wf_layer_sorted_partial.

(** descent (find_leaf + leaf lookup) finds exactly the entry of [bt_elems] with that key; with
    [C08_chain_is_inorder_partial] below ([bt_elems] is the concatenation of the leaf chain) descent and
    chain see the same entries *)
Theorem C08_descent_and_chain_agree_partial : forall root k s,
  WF_bt None None root -> kt_wf k = true ->
  (layer_lookup root k = Some s <-> In s (bt_elems root) /\ sl_key s = k).
Proof. exact layer_lookup_some. Qed.
Print Assumptions C08_descent_and_chain_agree_partial.

Theorem C08_chain_is_inorder_partial : forall t,
  flat_map leaf_entries (ScanDefs.bt_leaves t) = bt_elems t.
Proof. exact bt_leaves_elems. Qed.
Print Assumptions C08_chain_is_inorder_partial.

(** ** Every reachable state of the whole system satisfies [SysInv] (histories without scan and list_storages) *)
From Yk Require Import SpecDefs StoreProofs SysDefs SysProofs.

Theorem C08_wf_reachable : forall ops,
  Forall (fun o => noscan o = true) ops -> Forall op_bytes ops ->
  SysInv (fst (exec_all sys_init ops)) (fst (spec_exec_all spec_init ops)).
Proof. exact reachable_inv. Qed.
Print Assumptions C08_wf_reachable.

(** a non-null well-formed storage is a well-formed list of layers [WFL].  What that means in plain
    terms -- prefixes unique, every layer a well-formed B+-tree (sorted unique entries, separators
    bounding subtrees, valid permutation words), ids distinct across all layers, link entries <=>
    existing non-empty sub-layers, every sub-layer hangs under its link -- is
    [StoreProofs.WF_store_facts] *)
Theorem C08_wf_store_reading : forall ctr tr, WF_store ctr tr -> t_null tr = false ->
  WFL ctr (t_layers tr) None.
Proof. exact WF_store_layers. Qed.
Print Assumptions C08_wf_store_reading.

(** ** ... and after histories that contain scans and list_storages as well (SysScanProofs) *)
From Yk Require Import SysScanProofs.
Theorem C08_wf_reachable_all_ops : forall ops, Forall op_bytes ops ->
  SysInv (fst (exec_all sys_init ops)) (fst (spec_exec_all spec_init ops)).
Proof. intros ops Hb. exact (proj1 (reachable_inv2 ops Hb)). Qed.
Print Assumptions C08_wf_reachable_all_ops.
