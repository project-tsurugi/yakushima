(** * StoreProofs: the trie of B+-trees refines a sorted map (get / put / remove).
    The maps of the specification are sorted association lists (Section [Assoc]); the layer list of a
    store and the entries of a layer are finite maps too ([layer_get], [lkp]).  Membership in the
    abstraction [abs_tree] is a successful lookup [LP] along the path of the key.
    The three walks of the model stop at a common [landing]; on a well-formed store [lands_at] says
    where the walk along a key stops and whether the entry is [found] or [absent] there.  A get reads
    it off; a put is one of the four cases of [put_step], a removal one of the three of [rm_step]
    ([put_runs], [put_cases]; [remove_runs], [remove_cases]), the last with a run [rm_steps] of
    [layer_remove]s, from the landing upwards while layers vanish.
    The invariant [WFL] is kept because every write sets the entry of one tuple in one layer
    ([sets_entry], [WFL_entry]: overwrite, insert, delete, and each step of [new_chain], which [grow]
    follows down the fresh layers) or deletes an emptied layer ([WFL_del]).  The refinement theorems
    read the outcomes through the lookups ([put_sound]; [remove_sound] with [removed]).
    On the layer list put and remove are edits ([edit]: the root of one layer replaced by a
    successor, a layer other than the top one deleted), a put then appends the fresh layers
    [chain_of]; so what holds layer by layer and is kept by the successor roots is kept by put and
    remove (Section [Layerwise]). *)
From Coq Require Import NArith PeanoNat Lia ZifyBool ZifyN Bool List Sorted Permutation.
From Yk Require Export KeyBytes.
From Yk Require Import KeyProofs SpecDefs LeafProofs LayerProofs.
Import ListNotations.
Local Open Scope N_scope.
(** ** keys and paths
    The library is KeyBytes; [path_of_key_facts] collects what it says of the path of a key. *)
Definition mk9 (x : N) : ktuple := {| ks := x; kl := 9 |}.

Lemma Forall_firstn' {A} (P : A -> Prop) n l : Forall P l -> Forall P (firstn n l).
Proof. apply Forall_firstn. Qed.

Theorem path_inj a b : bytes a -> bytes b -> path_of_key a = path_of_key b -> a = b.
Proof. intros Ha Hb E. rewrite <- (kop_path a Ha), <- (kop_path b Hb), E. reflexivity. Qed.

Theorem path_tail k : (8 < length k)%nat ->
  path_of_key k = tuple_of_key k :: path_of_key (skipn 8 k) /\ kl (tuple_of_key k) = 9.
Proof. intros H. split; [apply path_long; exact H|apply tuple_kl_long; exact H]. Qed.

Lemma vp_facts ts : vp ts ->
  Forall (fun t => kt_wf t = true) ts /\ Forall (fun t => kl t = 9) (removelast ts) /\ kl (last ts dk) <= 8.
Proof.
  induction ts as [|t ts IH]; intros W; [contradiction|]. destruct W as [Hw W]. destruct ts as [|t2 ts].
  - split; [constructor; [exact Hw|constructor]|]. split; [constructor|exact W].
  - destruct W as [H9 W]. destruct (IH W) as (A & B & C).
    split; [constructor; assumption|]. split; [|exact C].
    change (removelast (t :: t2 :: ts)) with (t :: removelast (t2 :: ts)). constructor; assumption.
Qed.

Theorem path_of_key_facts k : bytes k ->
  path_of_key k <> [] /\ Forall (fun t => kt_wf t = true) (path_of_key k) /\
  Forall (fun t => kl t = 9) (removelast (path_of_key k)) /\
  kl (last (path_of_key k) dk) <= 8 /\
  k = concat (map (fun t => bytes_of_slice (ks t) (kl t)) (path_of_key k)) /\
  hd dk (path_of_key k) = tuple_of_key k.
Proof.
  intros Hb. destruct (vp_facts _ (proj1 (path_vp k Hb))) as (A & B & C).
  split; [apply path_not_nil|]. split; [exact A|]. split; [exact B|]. split; [exact C|].
  split; [symmetry; exact (kop_path k Hb)|]. destruct (path_hd k) as [r ->]. reflexivity.
Qed.

(** ** association lists sorted by key: [smap_get]/[smap_put]/[smap_del] of the specification and
    [ssys_get]/[ssys_put]/[ssys_del] of its system map are these functions at two value types *)
Lemma prefix_eqb_eq a b : prefix_eqb a b = true <-> a = b.
Proof.
  revert b. induction a as [|x a IH]; intros [|y b]; cbn [prefix_eqb].
  - split; reflexivity.
  - split; discriminate.
  - split; discriminate.
  - rewrite andb_true_iff, N.eqb_eq, IH. split.
    + intros [-> ->]. reflexivity.
    + intros H. injection H as -> ->. split; reflexivity.
Qed.

Lemma prefix_eqb_refl a : prefix_eqb a a = true.
Proof. apply prefix_eqb_eq. reflexivity. Qed.

Lemma prefix_eqb_neq a b : a <> b -> prefix_eqb a b = false.
Proof.
  intros H. destruct (prefix_eqb a b) eqn:E; [|reflexivity]. apply prefix_eqb_eq in E. contradiction.
Qed.

Lemma prefix_eqb_spec a b : reflect (a = b) (prefix_eqb a b).
Proof.
  destruct (prefix_eqb a b) eqn:E; constructor.
  - apply prefix_eqb_eq. exact E.
  - intros H. apply prefix_eqb_eq in H. congruence.
Qed.

Theorem lex_lt_strict_total :
  (forall a, lex_lt a a = false) /\
  (forall a b c, lex_lt a b = true -> lex_lt b c = true -> lex_lt a c = true) /\
  (forall a b, lex_lt a b = false -> lex_lt b a = false -> a = b).
Proof. split; [exact lex_lt_irrefl|]. split; [exact lex_lt_trans|exact lex_lt_trich]. Qed.

Lemma key_eqb_spec a b : reflect (a = b) (key_eqb a b).
Proof. exact (prefix_eqb_spec a b). Qed.

Lemma key_eqb_eq a b : key_eqb a b = true <-> a = b.
Proof. exact (prefix_eqb_eq a b). Qed.

Lemma key_eqb_refl a : key_eqb a a = true.
Proof. exact (prefix_eqb_refl a). Qed.

Lemma key_eqb_neq a b : a <> b -> key_eqb a b = false.
Proof. exact (prefix_eqb_neq a b). Qed.

Section Assoc.
  Context {V : Type}.
  Implicit Types (m : list (key * V)) (k : key).

  Fixpoint aget m k : option V :=
    match m with [] => None | (k', v) :: r => if key_eqb k' k then Some v else aget r k end.
  Fixpoint aput m k (v : V) : list (key * V) :=
    match m with
    | [] => [(k, v)]
    | (k', v') :: r => if key_eqb k' k then (k, v) :: r
                       else if lex_lt k k' then (k, v) :: m else (k', v') :: aput r k v
    end.
  Fixpoint adel m k : list (key * V) :=
    match m with [] => [] | (k', v') :: r => if key_eqb k' k then r else (k', v') :: adel r k end.

  Definition asorted m : Prop := StronglySorted (fun x y => lex_lt (fst x) (fst y) = true) m.

  Lemma asorted_cons x m :
    asorted (x :: m) <-> asorted m /\ forall y, In y m -> lex_lt (fst x) (fst y) = true.
  Proof. unfold asorted. rewrite StronglySorted_cons_iff, Forall_forall. reflexivity. Qed.

  Lemma asorted_ext m1 m2 : asorted m1 -> asorted m2 -> (forall x, In x m1 <-> In x m2) -> m1 = m2.
  Proof. apply StronglySorted_ext. intros a b H. rewrite (lex_lt_asym _ _ H). discriminate. Qed.

  Lemma asorted_head k v m : asorted ((k, v) :: m) -> forall a, ~ In (k, a) m.
  Proof.
    intros S a H. apply asorted_cons in S. apply (proj2 S) in H. cbn [fst] in H.
    rewrite lex_lt_irrefl in H. discriminate.
  Qed.

  Lemma aget_in m k a : asorted m -> (aget m k = Some a <-> In (k, a) m).
  Proof.
    induction m as [|[k1 v1] m IH]; intros S; cbn [aget In]; [split; [discriminate|intros []]|].
    pose proof (asorted_head _ _ _ S) as Hh. apply asorted_cons in S.
    destruct (key_eqb_spec k1 k) as [->|Hn].
    - split; [intros H; injection H as ->; left; reflexivity|].
      intros [H|H]; [injection H as ->; reflexivity|elim (Hh _ H)].
    - rewrite (IH (proj1 S)). split; [intros H; right; exact H|].
      intros [H|H]; [injection H as -> _; contradiction|exact H].
  Qed.

  Lemma aget_none m k : asorted m -> (aget m k = None <-> forall a, ~ In (k, a) m).
  Proof.
    intros S. split.
    - intros E a H. apply (aget_in m k a S) in H. congruence.
    - intros H. destruct (aget m k) as [a|] eqn:E; [|reflexivity]. elim (H a). apply (aget_in m k a S). exact E.
  Qed.

  Lemma aget_put m k a k' : aget (aput m k a) k' = if key_eqb k k' then Some a else aget m k'.
  Proof.
    induction m as [|[k1 v1] m IH]; cbn [aput aget]; [reflexivity|].
    destruct (key_eqb_spec k1 k) as [->|Hn]; cbn [aget].
    - destruct (key_eqb k k'); reflexivity.
    - destruct (lex_lt k k1); cbn [aget]; [reflexivity|]. rewrite IH.
      destruct (key_eqb_spec k1 k') as [->|_]; [|reflexivity]. rewrite (key_eqb_neq k k'); congruence.
  Qed.

  Lemma aput_same m k a : asorted m -> aget m k = Some a -> aput m k a = m.
  Proof.
    induction m as [|[k1 v1] m IH]; intros S G; [discriminate|]. cbn [aget aput] in *.
    destruct (key_eqb_spec k1 k) as [->|Hn]; [injection G as ->; reflexivity|].
    apply asorted_cons in S. destruct S as [S L]. rewrite (IH S G).
    rewrite (lex_lt_asym k1 k); [reflexivity|]. exact (L (k, a) (proj1 (aget_in m k a S) G)).
  Qed.

  Lemma aput_keys m k a x : In x (map fst (aput m k a)) <-> x = k \/ In x (map fst m).
  Proof.
    induction m as [|[k1 v1] m IH]; cbn [aput]; [cbn; intuition congruence|].
    destruct (key_eqb_spec k1 k) as [->|_]; [cbn; intuition congruence|].
    destruct (lex_lt k k1); cbn [map fst In]; [intuition congruence|]. rewrite IH. intuition congruence.
  Qed.

  Lemma aput_sorted m k a : asorted m -> asorted (aput m k a).
  Proof.
    induction m as [|[k1 v1] m IH]; intros S; cbn [aput]; [constructor; constructor|].
    pose proof S as S0. apply asorted_cons in S. destruct S as [S L]. cbn [fst] in L.
    destruct (key_eqb_spec k1 k) as [->|Hn]; [apply asorted_cons; split; assumption|].
    destruct (lex_lt k k1) eqn:Lk; apply asorted_cons.
    - split; [exact S0|]. intros y [<-|Hy]; [exact Lk|]. exact (lex_lt_trans _ _ _ Lk (L _ Hy)).
    - split; [apply IH; exact S|]. intros [k' a'] Hy. cbn [fst].
      destruct (proj1 (aput_keys m k a k') (in_map fst _ _ Hy)) as [->|Hk].
      + destruct (lex_lt k1 k) eqn:X; [reflexivity|]. elim Hn. symmetry. apply lex_lt_trich; assumption.
      + apply in_map_iff in Hk. destruct Hk as ([k2 a2] & <- & Hk). exact (L _ Hk).
  Qed.

  Lemma adel_incl m k x : In x (adel m k) -> In x m.
  Proof.
    induction m as [|[k1 v1] m IH]; cbn [adel]; [intros []|].
    destruct (key_eqb k1 k); [intros H; right; exact H|]. intros [H|H]; [left; exact H|right; apply IH; exact H].
  Qed.

  Lemma aput_Forall (P : key -> Prop) m k a : Forall P (map fst m) -> P k -> Forall P (map fst (aput m k a)).
  Proof.
    rewrite !Forall_forall. intros F Hk x Hx. apply aput_keys in Hx. destruct Hx as [->|Hx]; [exact Hk|exact (F x Hx)].
  Qed.

  Lemma adel_Forall (P : key -> Prop) m k : Forall P (map fst m) -> Forall P (map fst (adel m k)).
  Proof.
    rewrite !Forall_forall. intros F x Hx. apply in_map_iff in Hx. destruct Hx as (y & <- & Hy).
    exact (F _ (in_map fst _ _ (adel_incl _ _ _ Hy))).
  Qed.

  Lemma adel_sorted m k : asorted m -> asorted (adel m k).
  Proof.
    induction m as [|[k1 v1] m IH]; intros S; cbn [adel]; [exact S|].
    apply asorted_cons in S. destruct S as [S L].
    destruct (key_eqb k1 k); [exact S|]. apply asorted_cons. split; [apply IH; exact S|].
    intros y Hy. apply L. exact (adel_incl _ _ _ Hy).
  Qed.

  Lemma aget_del m k k' : asorted m -> aget (adel m k) k' = if key_eqb k k' then None else aget m k'.
  Proof.
    induction m as [|[k1 v1] m IH]; intros S; cbn [adel aget]; [destruct (key_eqb k k'); reflexivity|].
    pose proof (asorted_head _ _ _ S) as Hh. apply asorted_cons in S.
    destruct (key_eqb_spec k1 k) as [->|Hn].
    - destruct (key_eqb_spec k k') as [->|_]; [|reflexivity]. apply (aget_none _ _ (proj1 S)). exact Hh.
    - cbn [aget]. rewrite (IH (proj1 S)). destruct (key_eqb_spec k1 k') as [->|_]; [|reflexivity].
      rewrite (key_eqb_neq k k'); congruence.
  Qed.

  Lemma aget_ext (P : key -> Prop) m1 m2 :
    asorted m1 -> asorted m2 -> Forall P (map fst m1) -> Forall P (map fst m2) ->
    (forall k, P k -> aget m1 k = aget m2 k) -> m1 = m2.
  Proof.
    intros S1 S2 F1 F2 H. rewrite Forall_forall in F1, F2. apply asorted_ext; [exact S1|exact S2|].
    intros [k a]. rewrite <- (aget_in m1 k a S1), <- (aget_in m2 k a S2).
    split; intros G; [rewrite <- H|rewrite H]; try exact G.
    - apply F1. apply (in_map fst _ (k, a)). apply (aget_in m1 k a S1). exact G.
    - apply F2. apply (in_map fst _ (k, a)). apply (aget_in m2 k a S2). exact G.
  Qed.
End Assoc.

(** [asorted] at the value type of [smap], by conversion: the lemmas of section [Assoc] apply *)
Definition lex_sorted (m : smap) : Prop :=
  StronglySorted (fun x y => lex_lt (fst x) (fst y) = true) m.

Lemma smap_get_put m k a k' : smap_get (smap_put m k a) k' = if key_eqb k k' then Some a else smap_get m k'.
Proof. exact (aget_put m k a k'). Qed.

Lemma smap_get_del m k k' : lex_sorted m ->
  smap_get (smap_del m k) k' = if key_eqb k k' then None else smap_get m k'.
Proof. exact (aget_del m k k'). Qed.

(** ** the layer list as a finite map from prefixes to roots *)
Lemma layer_get_set_same ls p t : layer_get (layer_set ls p t) p = Some t.
Proof.
  induction ls as [|[q u] ls IH]; cbn [layer_set layer_get].
  - rewrite prefix_eqb_refl. reflexivity.
  - destruct (prefix_eqb q p) eqn:E; cbn [layer_get]; rewrite E; [reflexivity|exact IH].
Qed.

Lemma layer_get_set_other ls p q t : p <> q -> layer_get (layer_set ls p t) q = layer_get ls q.
Proof.
  intros Hne. induction ls as [|[r u] ls IH]; cbn [layer_set layer_get].
  - rewrite (prefix_eqb_neq p q Hne). reflexivity.
  - destruct (prefix_eqb_spec r p) as [->|Hrp]; cbn [layer_get].
    + rewrite (prefix_eqb_neq p q Hne). reflexivity.
    + destruct (prefix_eqb r q); [reflexivity|exact IH].
Qed.

Lemma layer_get_del_other ls p q : p <> q -> layer_get (layer_del ls p) q = layer_get ls q.
Proof.
  intros Hne. induction ls as [|[r u] ls IH]; cbn [layer_del layer_get]; [reflexivity|].
  destruct (prefix_eqb_spec r p) as [->|Hrp]; cbn [layer_get].
  - rewrite (prefix_eqb_neq p q Hne). reflexivity.
  - destruct (prefix_eqb r q); [reflexivity|exact IH].
Qed.

Lemma layer_get_none ls p : layer_get ls p = None <-> ~ In p (map fst ls).
Proof.
  induction ls as [|[q u] ls IH]; cbn [layer_get map fst In].
  - split; [intros _ []|reflexivity].
  - destruct (prefix_eqb_spec q p) as [->|Hne].
    + split; [discriminate|]. intros H. exfalso. apply H. left. reflexivity.
    + rewrite IH. split.
      * intros H [X|X]; [contradiction|exact (H X)].
      * intros H X. apply H. right. exact X.
Qed.

Lemma layer_get_in ls p t : layer_get ls p = Some t -> In (p, t) ls.
Proof.
  induction ls as [|[q u] ls IH]; cbn [layer_get]; [discriminate|].
  destruct (prefix_eqb_spec q p) as [->|Hne].
  - intros H. injection H as ->. left. reflexivity.
  - intros H. right. apply IH. exact H.
Qed.

Lemma in_layer_get : forall ls p t, NoDup (map fst ls) -> In (p, t) ls -> layer_get ls p = Some t.
Proof.
  induction ls as [|[q u] ls IH]; intros p t Hnd Hin; [destruct Hin|].
  cbn [map fst] in Hnd. apply NoDup_cons_iff in Hnd. destruct Hnd as [Hq Hnd]. cbn [layer_get].
  destruct (prefix_eqb_spec q p) as [->|Hn].
  - destruct Hin as [X|X]; [injection X as ->; reflexivity|].
    exfalso. apply Hq. change p with (fst (p, t)). apply in_map. exact X.
  - destruct Hin as [X|X]; [injection X as X _; contradiction|]. apply IH; assumption.
Qed.

Lemma layer_get_del_same ls p : NoDup (map fst ls) -> layer_get (layer_del ls p) p = None.
Proof.
  induction ls as [|[q u] ls IH]; intros Hnd; cbn [layer_del]; [reflexivity|].
  cbn [map fst] in Hnd. apply NoDup_cons_iff in Hnd. destruct Hnd as [Hq Hnd].
  destruct (prefix_eqb_spec q p) as [->|Hne].
  - apply layer_get_none. exact Hq.
  - cbn [layer_get]. rewrite (prefix_eqb_neq q p Hne). apply IH. exact Hnd.
Qed.

Lemma layer_set_keys ls p t :
  map fst (layer_set ls p t) =
    match layer_get ls p with Some _ => map fst ls | None => map fst ls ++ [p] end.
Proof.
  induction ls as [|[q u] ls IH]; cbn [layer_set layer_get map fst app]; [reflexivity|].
  destruct (prefix_eqb q p); cbn [map fst]; [reflexivity|]. rewrite IH.
  destruct (layer_get ls p); reflexivity.
Qed.

Lemma layer_set_length ls p r t : layer_get ls p = Some r -> length (layer_set ls p t) = length ls.
Proof. intros E. rewrite <- (map_length fst), layer_set_keys, E. apply map_length. Qed.

Lemma layer_set_NoDup ls p t : NoDup (map fst ls) -> NoDup (map fst (layer_set ls p t)).
Proof.
  intros H. rewrite layer_set_keys. destruct (layer_get ls p) eqn:E; [exact H|].
  apply layer_get_none in E. apply NoDup_snoc; [exact H|exact E].
Qed.

Lemma layer_del_keys_incl ls p x : In x (map fst (layer_del ls p)) -> In x (map fst ls).
Proof.
  induction ls as [|[q u] ls IH]; cbn [layer_del map fst]; [auto|].
  destruct (prefix_eqb q p); cbn [map fst In]; [intros H; right; exact H|].
  intros [H|H]; [left; exact H|right; apply IH; exact H].
Qed.

Lemma in_layer_set ls p r' q r : In (q, r) (layer_set ls p r') -> (q = p /\ r = r') \/ In (q, r) ls.
Proof.
  induction ls as [|[q0 u] ls IH]; cbn [layer_set].
  - intros [H|[]]. injection H as <- <-. left. split; reflexivity.
  - destruct (prefix_eqb_spec q0 p) as [->|Hn].
    + intros [H|H]; [injection H as <- <-; left; split; reflexivity|right; right; exact H].
    + intros [H|H]; [right; left; exact H|]. destruct (IH H) as [X|X]; [left; exact X|right; right; exact X].
Qed.

Lemma in_layer_del ls p q r : In (q, r) (layer_del ls p) -> In (q, r) ls.
Proof.
  induction ls as [|[q0 u] ls IH]; cbn [layer_del]; [intros []|].
  destruct (prefix_eqb q0 p); [intros H; right; exact H|].
  intros [H|H]; [left; exact H|right; apply IH; exact H].
Qed.

Lemma layer_del_NoDup ls p : NoDup (map fst ls) -> NoDup (map fst (layer_del ls p)).
Proof.
  induction ls as [|[q u] ls IH]; intros Hnd; cbn [layer_del]; [exact Hnd|].
  cbn [map fst] in Hnd. apply NoDup_cons_iff in Hnd. destruct Hnd as [Hq Hnd].
  destruct (prefix_eqb q p); [exact Hnd|]. cbn [map fst]. constructor; [|apply IH; exact Hnd].
  intros X. apply Hq. eapply layer_del_keys_incl. exact X.
Qed.

Lemma layer_get_set ls p r q :
  layer_get (layer_set ls p r) q = if prefix_eqb p q then Some r else layer_get ls q.
Proof.
  destruct (prefix_eqb_spec p q) as [<-|Hn]; [apply layer_get_set_same|apply layer_get_set_other; exact Hn].
Qed.

Lemma layer_get_del ls p q : NoDup (map fst ls) ->
  layer_get (layer_del ls p) q = if prefix_eqb p q then None else layer_get ls q.
Proof.
  intros Hnd. destruct (prefix_eqb_spec p q) as [<-|Hn];
    [apply layer_get_del_same; exact Hnd|apply layer_get_del_other; exact Hn].
Qed.

Lemma layer_set_none ls p t : layer_get ls p = None -> layer_set ls p t = ls ++ [(p, t)].
Proof.
  induction ls as [|[q u] ls IH]; cbn [layer_get layer_set]; [reflexivity|].
  destruct (prefix_eqb q p); [discriminate|]. intros H. rewrite (IH H). reflexivity.
Qed.

Lemma layer_split ls p r : layer_get ls p = Some r ->
  exists L1 L2, ls = L1 ++ (p, r) :: L2 /\ (forall t, layer_set ls p t = L1 ++ (p, t) :: L2) /\
                layer_del ls p = L1 ++ L2.
Proof.
  induction ls as [|[q u] ls IH]; cbn [layer_get layer_set layer_del]; [discriminate|].
  destruct (prefix_eqb_spec q p) as [->|Hn].
  - intros H. injection H as ->. exists [], ls. repeat split.
  - intros H. destruct (IH H) as (L1 & L2 & E1 & E2 & E3). exists ((q, u) :: L1), L2.
    cbn [app]. rewrite <- E1, E3. split; [reflexivity|]. split; [intros t; rewrite E2|]; reflexivity.
Qed.

Lemma layer_get_app a b p :
  layer_get (a ++ b) p = match layer_get a p with Some r => Some r | None => layer_get b p end.
Proof.
  induction a as [|[q u] a IH]; [reflexivity|]. cbn [app layer_get].
  destruct (prefix_eqb q p); [reflexivity|exact IH].
Qed.

(** ** entries, lookups along a path, the abstraction *)
Definition mk (t : ktuple) (lv : lvw) : slot_t := {| sl_key := t; sl_lv := lv |}.

Definition lkp (l : list slot_t) (t : ktuple) : option lvw :=
  option_map sl_lv (find (fun s => kt_eq (sl_key s) t) l).

Lemma mk_eta s : mk (sl_key s) (sl_lv s) = s.
Proof. destruct s. reflexivity. Qed.

Lemma lkp_in l t lv : NoDup (map sl_key l) -> (lkp l t = Some lv <-> In (mk t lv) l).
Proof.
  unfold lkp. induction l as [|s l IH]; intros Hnd; cbn [find map].
  - split; [discriminate|intros []].
  - cbn [map] in Hnd. apply NoDup_cons_iff in Hnd. destruct Hnd as [Hs Hnd].
    destruct (kt_eq (sl_key s) t) eqn:E.
    + apply kt_eq_iff in E. subst t. cbn [option_map]. split.
      * intros H. injection H as <-. left. symmetry. apply mk_eta.
      * intros [H|H]; [rewrite H; reflexivity|].
        exfalso. apply Hs. change (sl_key s) with (sl_key (mk (sl_key s) lv)). apply in_map. exact H.
    + rewrite (IH Hnd). split.
      * intros H. right. exact H.
      * intros [H|H]; [|exact H]. subst s. cbn [mk sl_key] in E. rewrite kt_eq_refl in E. discriminate.
Qed.

Lemma lkp_none l t : lkp l t = None <-> ~ In t (map sl_key l).
Proof.
  unfold lkp. induction l as [|s l IH]; cbn [find map].
  - split; [intros _ []|reflexivity].
  - destruct (kt_eq (sl_key s) t) eqn:E.
    + apply kt_eq_iff in E. cbn [option_map]. split; [discriminate|].
      intros H. exfalso. apply H. left. exact E.
    + rewrite IH. split.
      * intros H [X|X]; [|exact (H X)]. rewrite X, kt_eq_refl in E. discriminate.
      * intros H X. apply H. right. exact X.
Qed.

Lemma lkp_cons s l t : lkp (s :: l) t = if kt_eq (sl_key s) t then Some (sl_lv s) else lkp l t.
Proof. unfold lkp. cbn [find]. destruct (kt_eq (sl_key s) t); reflexivity. Qed.

Lemma lkp_perm l l' t : NoDup (map sl_key l) -> Permutation l l' -> lkp l t = lkp l' t.
Proof.
  intros N1 P. pose proof (Permutation_NoDup (Permutation_map sl_key P) N1) as N2.
  assert (forall lv, lkp l t = Some lv <-> lkp l' t = Some lv) as H.
  { intros lv. rewrite (lkp_in l t lv N1), (lkp_in l' t lv N2).
    split; apply Permutation_in; [exact P|symmetry; exact P]. }
  destruct (lkp l t) as [lv|]; [symmetry; apply H; reflexivity|].
  destruct (lkp l' t) as [lv|]; [apply H; reflexivity|reflexivity].
Qed.

Lemma lkp_perm_cons l' s l t : NoDup (map sl_key l') -> Permutation l' (s :: l) ->
  lkp l' t = if kt_eq (sl_key s) t then Some (sl_lv s) else lkp l t.
Proof. intros N P. rewrite (lkp_perm _ _ t N P). apply lkp_cons. Qed.

Lemma lkp_mid A s B t : NoDup (map sl_key (A ++ s :: B)) ->
  lkp (A ++ s :: B) t = if kt_eq (sl_key s) t then Some (sl_lv s) else lkp (A ++ B) t.
Proof. intros N. apply (lkp_perm_cons _ s _ t N). symmetry. apply Permutation_middle. Qed.

Lemma lkp_remove A s B t : NoDup (map sl_key (A ++ s :: B)) ->
  lkp (A ++ B) t = if kt_eq (sl_key s) t then None else lkp (A ++ s :: B) t.
Proof.
  intros N. rewrite (lkp_mid A s B t N). destruct (kt_eq (sl_key s) t) eqn:K; [|reflexivity].
  apply kt_eq_iff in K. subst t. apply lkp_none. rewrite map_app in *. exact (NoDup_remove_2 _ _ _ N).
Qed.

Lemma lkp_replace A s x B t : NoDup (map sl_key (A ++ s :: B)) -> sl_key x = sl_key s ->
  lkp (A ++ x :: B) t = if kt_eq (sl_key s) t then Some (sl_lv x) else lkp (A ++ s :: B) t.
Proof.
  intros N Hx. rewrite (lkp_mid A s B t N), lkp_mid, Hx; [destruct (kt_eq (sl_key s) t); reflexivity|].
  rewrite map_app in *. cbn [map] in *. rewrite Hx. exact N.
Qed.

Definition ent (ls : layers_t) (p : prefix) (t : ktuple) : option lvw :=
  match layer_get ls p with None => None | Some root => lkp (bt_elems root) t end.

Lemma ent_set_same ls p r t : ent (layer_set ls p r) p t = lkp (bt_elems r) t.
Proof. unfold ent. rewrite layer_get_set_same. reflexivity. Qed.

Lemma ent_set_other ls p q r t : p <> q -> ent (layer_set ls p r) q t = ent ls q t.
Proof. intros H. unfold ent. rewrite layer_get_set_other by exact H. reflexivity. Qed.

Lemma ent_del_same ls p t : NoDup (map fst ls) -> ent (layer_del ls p) p t = None.
Proof. intros H. unfold ent. rewrite layer_get_del_same by exact H. reflexivity. Qed.

Lemma ent_del_other ls p q t : p <> q -> ent (layer_del ls p) q t = ent ls q t.
Proof. intros H. unfold ent. rewrite layer_get_del_other by exact H. reflexivity. Qed.

Lemma ent_absent ls p t : layer_get ls p = None -> ent ls p t = None.
Proof. intros H. unfold ent. rewrite H. reflexivity. Qed.

Lemma ent_get ls p root t : layer_get ls p = Some root -> ent ls p t = lkp (bt_elems root) t.
Proof. intros H. unfold ent. rewrite H. reflexivity. Qed.

Lemma ent_app_l ls more p t : layer_get ls p <> None -> ent (ls ++ more) p t = ent ls p t.
Proof.
  intros H. unfold ent. rewrite layer_get_app. destruct (layer_get ls p); [reflexivity|contradiction].
Qed.

Fixpoint LP (E : prefix -> ktuple -> option lvw) (p : prefix) (ts : list ktuple) : option value :=
  match ts with
  | [] => None
  | t :: rest =>
    match E p t with
    | None => None
    | Some lv =>
      match rest with
      | [] => match lv with LValue v => Some v | _ => None end
      | _ :: _ => match lv with LLink => LP E (p ++ [ks t]) rest | _ => None end
      end
    end
  end.

Definition mk9s (q : prefix) : list ktuple := map mk9 q.

Lemma mk9s_inj a b : mk9s a = mk9s b -> a = b.
Proof.
  revert b. induction a as [|x a IH]; intros [|y b] H; try discriminate; [reflexivity|].
  cbn in H. injection H as -> H. f_equal. apply IH. exact H.
Qed.

Lemma mk9_ks t : kl t = 9 -> mk9 (ks t) = t.
Proof. destruct t as [s l]. cbn. intros ->. reflexivity. Qed.

Lemma mk9s_snoc q t : kl t = 9 -> forall r, mk9s (q ++ [ks t]) ++ r = mk9s q ++ t :: r.
Proof.
  intros H r. unfold mk9s. rewrite map_app. cbn [map]. rewrite (mk9_ks t H), <- app_assoc. reflexivity.
Qed.

Lemma LP_ext E E' : (forall p t, E p t = E' p t) -> forall ts p, LP E p ts = LP E' p ts.
Proof.
  intros H. induction ts as [|t rest IH]; intros p; [reflexivity|]. cbn [LP]. rewrite H.
  destruct (E' p t) as [lv|]; [|reflexivity]. destruct rest; [reflexivity|].
  destruct lv; try reflexivity. apply IH.
Qed.

Lemma spot_dec (q0 q : prefix) (t' t : ktuple) : (q0 = q /\ t' = t) \/ (q0 <> q \/ t' <> t).
Proof.
  destruct (prefix_eqb_spec q0 q) as [->|H]; [|right; left; exact H].
  destruct (kt_eq t' t) eqn:E.
  - apply kt_eq_iff in E. left. split; [reflexivity|exact E].
  - right. right. intros ->. rewrite kt_eq_refl in E. discriminate.
Qed.

Lemma LP_spot E E' q t :
  kl t <= 8 ->
  (forall q' t', q' <> q \/ t' <> t -> E' q' t' = E q' t') ->
  forall ts' q0, vp ts' -> mk9s q0 ++ ts' <> mk9s q ++ [t] -> LP E' q0 ts' = LP E q0 ts'.
Proof.
  intros Hl Hfr. induction ts' as [|t' rest IH]; intros q0 V Hne; [contradiction|].
  cbn [vp] in V. destruct V as [Hw V]. cbn [LP]. destruct rest as [|t2 r].
  - destruct (spot_dec q0 q t' t) as [[-> ->]|Hd]; [contradiction|].
    rewrite (Hfr _ _ Hd). reflexivity.
  - destruct V as [H9 V].
    assert (q0 <> q \/ t' <> t) as Hd by (right; intros ->; lia).
    rewrite (Hfr _ _ Hd). destruct (E q0 t') as [lv|]; [|reflexivity].
    destruct lv; try reflexivity. apply IH; [exact V|]. rewrite (mk9s_snoc q0 t' H9). exact Hne.
Qed.

Lemma LP_spot_none E' q t :
  E' q t = None ->
  forall ts' q0, vp ts' -> mk9s q0 ++ ts' = mk9s q ++ [t] -> LP E' q0 ts' = None.
Proof.
  intros HN. induction ts' as [|t' rest IH]; intros q0 V He; [contradiction|].
  cbn [vp] in V. destruct V as [Hw V]. cbn [LP]. destruct rest as [|t2 r].
  - apply app_inj_tail in He. destruct He as [He ->]. apply mk9s_inj in He. subst q0.
    rewrite HN. reflexivity.
  - destruct V as [H9 V]. destruct (E' q0 t') as [lv|]; [|reflexivity].
    destruct lv; try reflexivity. apply IH; [exact V|]. rewrite (mk9s_snoc q0 t' H9). exact He.
Qed.

Lemma LP_dangling E E' q t :
  kl t = 9 ->
  (forall t', E (q ++ [ks t]) t' = None) ->
  E' q t = None ->
  (forall q' t', q' <> q \/ t' <> t -> E' q' t' = E q' t') ->
  forall ts' q0, vp ts' -> LP E' q0 ts' = LP E q0 ts'.
Proof.
  intros H9 Hsub HN Hfr. induction ts' as [|t' rest IH]; intros q0 V; [contradiction|].
  cbn [vp] in V. destruct V as [Hw V]. cbn [LP].
  destruct (spot_dec q0 q t' t) as [[-> ->]|Hd].
  - rewrite HN. destruct rest as [|t2 r]; [lia|].
    destruct (E q t) as [lv|]; [|reflexivity]. destruct lv; try reflexivity.
    cbn [LP]. rewrite Hsub. reflexivity.
  - rewrite (Hfr _ _ Hd). destruct (E q0 t') as [lv|]; [|reflexivity].
    destruct rest as [|t2 r]; [reflexivity|]. destruct lv; try reflexivity.
    apply IH. apply V.
Qed.

Lemma LP_nz E :
  (forall p t lv, p <> [] -> E p t = Some lv -> kl t <> 0) ->
  forall ts p v, LP E p ts = Some v -> nz (tl ts) /\ (p <> [] -> nz ts).
Proof.
  intros HE. induction ts as [|t rest IH]; intros p v H; [discriminate|].
  cbn [LP] in H. destruct (E p t) as [lv|] eqn:El; [|discriminate].
  assert (nz rest) as Hr.
  { destruct rest as [|t2 r]; [constructor|]. destruct lv; try discriminate.
    apply (IH _ _ H). destruct p; discriminate. }
  split; [exact Hr|]. intros Hp. constructor; [|exact Hr]. exact (HE p t lv Hp El).
Qed.

Lemma LP_nil ts p : LP (ent []) p ts = None.
Proof. destruct ts; reflexivity. Qed.

(** *** the abstraction *)
Fixpoint abs_layer (fuel : nat) (ls : layers_t) (p : prefix) (pb : key) : list (key * aval) :=
  match fuel with
  | O => []
  | S f =>
    match layer_get ls p with
    | None => []
    | Some root =>
      flat_map (fun s => match sl_lv s with
                         | LValue v => [(pb ++ bytes_of_slice (ks (sl_key s)) (kl (sl_key s)), abs_value v)]
                         | LLink => abs_layer f ls (p ++ [ks (sl_key s)])
                                              (pb ++ bytes_of_slice (ks (sl_key s)) 8)
                         | LEmpty => []
                         end) (bt_elems root)
    end
  end.

(** what the entry [s] of the layer at [p] contributes to [abs_layer (S f) ls p pb] *)
Definition acent (f : nat) (ls : layers_t) (p : prefix) (pb : key) (s : slot_t) : list (key * aval) :=
  match sl_lv s with
  | LValue v => [(pb ++ bytes_of_slice (ks (sl_key s)) (kl (sl_key s)), abs_value v)]
  | LLink => abs_layer f ls (p ++ [ks (sl_key s)]) (pb ++ bytes_of_slice (ks (sl_key s)) 8)
  | LEmpty => []
  end.

Lemma abs_layer_S f ls p pb :
  abs_layer (S f) ls p pb =
  match layer_get ls p with None => [] | Some root => flat_map (acent f ls p pb) (bt_elems root) end.
Proof. reflexivity. Qed.

Definition abs_tree (tr : tree) : smap :=
  if t_null tr then [] else abs_layer (S (length (t_layers tr))) (t_layers tr) [] [].

Lemma abs_tree_null tr : t_null tr = true -> abs_tree tr = [].
Proof. unfold abs_tree. intros ->. reflexivity. Qed.

Lemma get_some_not_null tr n a : smap_get (abs_tree tr) n = Some a -> t_null tr = false.
Proof.
  destruct (t_null tr) eqn:E; [|reflexivity]. rewrite (abs_tree_null tr E). discriminate.
Qed.

Lemma abs_tree_layers tr : t_null tr = false ->
  abs_tree tr = abs_layer (S (length (t_layers tr))) (t_layers tr) [] [].
Proof. unfold abs_tree. intros ->. reflexivity. Qed.

(** *** the store invariant
    [d = Some q] says that the layer at [q] is missing although the layer above has the link to
    it: the state between the two writes of a put below a new link, and of a removal that
    deletes an emptied layer before the link to it.  [d = Some []] is the store whose root layer
    is missing ([WFL_nil]): from it [chain_spec] builds the first layers of a null tree.
    [wl_link], [wl_parent] and the second half of [wl_exc] are one equivalence ([WFL_link]): the
    layers, and the missing one, are what the links lead to.  A layer other than [[]] is never
    empty (a removal deletes it with its last entry) and holds no tuple of length 0 ([wl_nz]: only the
    empty key has one, as its single tuple, in the layer [[]]). *)
Record WFL (ctr : N) (ls : layers_t) (d : option prefix) : Prop := {
  wl_nodup : NoDup (map fst ls);
  wl_layer : forall p root, layer_get ls p = Some root -> WF_layer root;
  wl_ids : forall p root i, layer_get ls p = Some root -> In i (bt_ids root) -> i < ctr;
  wl_disj : forall p q rp rq i, layer_get ls p = Some rp -> layer_get ls q = Some rq ->
            In i (bt_ids rp) -> In i (bt_ids rq) -> p = q;
  wl_link : forall p root x, layer_get ls p = Some root -> In (mk (mk9 x) LLink) (bt_elems root) ->
            Some (p ++ [x]) <> d -> layer_get ls (p ++ [x]) <> None;
  wl_parent : forall p x root, layer_get ls (p ++ [x]) = Some root ->
            bt_elems root <> [] /\
            exists r0, layer_get ls p = Some r0 /\ In (mk (mk9 x) LLink) (bt_elems r0);
  wl_nz : forall p x root s, layer_get ls (p ++ [x]) = Some root -> In s (bt_elems root) ->
            kl (sl_key s) <> 0;
  wl_exc : match d with
           | None => layer_get ls [] <> None
           | Some q => layer_get ls q = None /\
                       forall up x, q = up ++ [x] ->
                         exists r0, layer_get ls up = Some r0 /\ In (mk (mk9 x) LLink) (bt_elems r0)
           end
}.

Definition WF_store (ctr : N) (tr : tree) : Prop :=
  if t_null tr then True else WFL ctr (t_layers tr) None.

Lemma WF_store_layers ctr tr : WF_store ctr tr -> t_null tr = false -> WFL ctr (t_layers tr) None.
Proof. unfold WF_store. intros W Hn. rewrite Hn in W. exact W. Qed.

Lemma WFL_mono c c' ls d : WFL c ls d -> c <= c' -> WFL c' ls d.
Proof.
  intros W Hc. destruct W as [H1 H2 H3 H4 H5 H6 H7 H8]. constructor; try assumption.
  intros p root i E Hi. pose proof (H3 p root i E Hi). lia.
Qed.

Lemma WF_store_mono c c' tr : WF_store c tr -> c <= c' -> WF_store c' tr.
Proof.
  unfold WF_store. destruct (t_null tr); [intros; exact I|]. apply WFL_mono.
Qed.

Lemma tree_eta tr : t_null tr = false -> {| t_layers := t_layers tr; t_null := false |} = tr.
Proof. destruct tr as [ls nl]. cbn [t_null t_layers]. intros ->. reflexivity. Qed.

Section Layers.
  Variable ls : layers_t.
  Hypothesis Hwf : forall p root, layer_get ls p = Some root -> WF_layer root.

  Lemma layer_keys_NoDup p root : layer_get ls p = Some root -> NoDup (map sl_key (bt_elems root)).
  Proof. intros H. destruct (Hwf p root H) as [W _]. exact (WF_bt_keys_NoDup None None root W). Qed.

  Lemma layer_entry_ok p root s : layer_get ls p = Some root -> In s (bt_elems root) -> entry_ok s.
  Proof.
    intros H Hin. destruct (Hwf p root H) as [W _].
    pose proof (WF_bt_entries_ok None None root W) as F. rewrite Forall_forall in F. exact (F s Hin).
  Qed.

  Lemma ent_some p t lv :
    ent ls p t = Some lv <-> exists root, layer_get ls p = Some root /\ In (mk t lv) (bt_elems root).
  Proof.
    unfold ent. destruct (layer_get ls p) as [root|] eqn:E.
    - rewrite (lkp_in _ t lv (layer_keys_NoDup p root E)). split.
      + intros H. exists root. split; [reflexivity|exact H].
      + intros (r & Hr & H). injection Hr as <-. exact H.
    - split; [discriminate|]. intros (r & Hr & _). discriminate.
  Qed.

  Lemma ent_of_in p root s : layer_get ls p = Some root -> In s (bt_elems root) -> ent ls p (sl_key s) = Some (sl_lv s).
  Proof. intros Eg Hin. apply ent_some. exists root. split; [exact Eg|]. rewrite mk_eta. exact Hin. Qed.

  Lemma ent_ok p t lv : ent ls p t = Some lv -> entry_ok (mk t lv).
  Proof. intros H. apply ent_some in H. destruct H as (root & E & Hin). exact (layer_entry_ok p root _ E Hin). Qed.

  Lemma abs_layer_in : forall f p pb k a,
    In (k, a) (abs_layer f ls p pb) <->
    exists ts v, vp ts /\ (length ts <= f)%nat /\ k = pb ++ kop ts /\
                 LP (ent ls) p ts = Some v /\ a = abs_value v.
  Proof.
    induction f as [|f IH]; intros p pb k a; cbn [abs_layer].
    - split; [intros []|]. intros (ts & v & V & Hl & _). destruct ts; [contradiction|cbn in Hl; lia].
    - destruct (layer_get ls p) as [root|] eqn:Eg.
      + rewrite in_flat_map. split.
        * intros (s & Hin & Hk). pose proof (layer_entry_ok p root s Eg Hin) as [Hw Hok].
          pose proof (ent_of_in p root s Eg Hin) as He.
          destruct (sl_lv s) as [|v|] eqn:Elv.
          -- destruct Hk.
          -- destruct Hk as [Hk|[]]. injection Hk as <- <-.
             exists [sl_key s], v. split; [split; assumption|]. split; [cbn; lia|].
             split; [rewrite kop_single; reflexivity|].
             split; [|reflexivity]. cbn [LP]. rewrite He. reflexivity.
          -- apply IH in Hk. destruct Hk as (ts & v & V & Hl & -> & HLP & ->).
             exists (sl_key s :: ts), v. split.
             { cbn [vp]. split; [exact Hw|]. destruct ts; [contradiction|]. split; assumption. }
             split; [cbn [length]; lia|]. split.
             { rewrite kop_cons, (tbytes9 _ Hok), app_assoc. reflexivity. }
             split; [|reflexivity]. cbn [LP]. rewrite He. destruct ts; [contradiction|exact HLP].
        * intros (ts & v & V & Hl & -> & HLP & ->). destruct ts as [|t rest]; [contradiction|].
          cbn [LP] in HLP. destruct (ent ls p t) as [lv|] eqn:He; [|discriminate].
          pose proof He as He'. apply ent_some in He'. destruct He' as (r' & Er & Hin).
          rewrite Eg in Er. injection Er as <-.
          exists (mk t lv). split; [exact Hin|]. cbn [mk sl_key sl_lv].
          destruct rest as [|t2 r].
          -- destruct lv; try discriminate. injection HLP as ->. left.
             rewrite kop_single. reflexivity.
          -- destruct lv; try discriminate. apply IH. exists (t2 :: r), v.
             cbn [vp] in V. destruct V as (Hw & H9 & V).
             split; [exact V|]. split; [cbn [length] in *; lia|].
             split; [rewrite kop_cons, (tbytes9 _ H9), app_assoc; reflexivity|].
             split; [exact HLP|reflexivity].
      + split; [intros []|]. intros (ts & v & V & _ & _ & HLP & _).
        destruct ts; [contradiction|]. cbn [LP] in HLP. unfold ent in HLP. rewrite Eg in HLP. discriminate.
  Qed.
End Layers.

(** *** what [WFL] gives *)
Lemma layer_prefix_closed ctr ls d p : WFL ctr ls d ->
  forall r, layer_get ls (p ++ r) <> None -> layer_get ls p <> None.
Proof.
  intros W. induction r as [|x r IH] using rev_ind; intros H; [rewrite app_nil_r in H; exact H|].
  apply IH. rewrite app_assoc in H. destruct (layer_get ls ((p ++ r) ++ [x])) as [root|] eqn:E; [|contradiction].
  destruct (wl_parent _ _ _ W _ _ _ E) as (_ & r0 & E0 & _). rewrite E0. discriminate.
Qed.

Lemma none_below ctr ls d p : WFL ctr ls d -> layer_get ls p = None -> forall r, layer_get ls (p ++ r) = None.
Proof.
  intros W Hp r. destruct (layer_get ls (p ++ r)) eqn:E; [|reflexivity].
  destruct (layer_prefix_closed ctr ls d p W r); [rewrite E; discriminate|exact Hp].
Qed.

Lemma root_exists ctr ls d p : WFL ctr ls d -> (layer_get ls p <> None \/ d = Some p) -> p <> [] ->
  layer_get ls [] <> None.
Proof.
  intros W [H|H] Hp.
  - apply (layer_prefix_closed ctr ls d [] W p). exact H.
  - subst d. destruct (exists_last Hp) as (up & x & ->).
    destruct (proj2 (wl_exc _ _ _ W) up x eq_refl) as (r0 & E & _).
    apply (layer_prefix_closed ctr ls _ [] W up). cbn [app]. rewrite E. discriminate.
Qed.

(** The prefixes of the layers are distinct and closed under initial segments, so a layer at
    [p] comes with [length p] layers above it (pigeonhole).  Hence a successful lookup passes
    through at most [length ls] layers, and the fuel [S (length ls)] of [abs_tree] never runs
    out ([abs_layers_in]). *)
Lemma layer_depth ctr ls d p : WFL ctr ls d -> layer_get ls p <> None -> (length p < length ls)%nat.
Proof.
  intros W H.
  assert (incl (seq 0 (S (length p))) (map (fun x => length (fst x)) ls)) as Hi.
  { intros i Hi. apply in_seq in Hi.
    assert (layer_get ls (firstn i p) <> None) as Hf.
    { apply (layer_prefix_closed ctr ls d _ W (skipn i p)). rewrite firstn_skipn. exact H. }
    destruct (layer_get ls (firstn i p)) as [root|] eqn:E; [|contradiction].
    apply layer_get_in in E. apply in_map_iff. exists (firstn i p, root). split; [|exact E].
    cbn [fst]. rewrite firstn_length. lia. }
  pose proof (NoDup_incl_length (seq_NoDup _ _) Hi) as L. rewrite seq_length, map_length in L. exact L.
Qed.

Lemma link_entry s : entry_ok s -> sl_lv s = LLink -> s = mk (mk9 (ks (sl_key s))) LLink.
Proof.
  intros [_ Hok] E. rewrite E in Hok. destruct s as [t lv]. cbn [sl_key sl_lv] in *. subst lv.
  unfold mk. rewrite (mk9_ks t Hok). reflexivity.
Qed.

Lemma WFL_link ctr ls d p x : WFL ctr ls d ->
  (ent ls p (mk9 x) = Some LLink <-> layer_get ls (p ++ [x]) <> None \/ d = Some (p ++ [x])).
Proof.
  intros W. rewrite (ent_some ls (wl_layer _ _ _ W)). split.
  - intros (root & Eg & Hin).
    destruct d as [q|]; [destruct (prefix_eqb_spec q (p ++ [x])) as [->|Hn]; [right; reflexivity|]|];
      left; apply (wl_link _ _ _ W p root x Eg Hin); congruence.
  - intros [H| ->]; [|exact (proj2 (wl_exc _ _ _ W) p x eq_refl)].
    destruct (layer_get ls (p ++ [x])) as [r|] eqn:E; [|contradiction]. exact (proj2 (wl_parent _ _ _ W p x r E)).
Qed.

Lemma WFL_no_child ctr ls d p t root :
  WFL ctr ls d -> layer_get ls p = Some root -> ~ In t (bt_keys root) -> kl t = 9 ->
  layer_get ls (p ++ [ks t]) = None.
Proof.
  intros W Eg Hnin H9. destruct (layer_get ls (p ++ [ks t])) eqn:E; [|reflexivity]. exfalso.
  assert (ent ls p (mk9 (ks t)) = Some LLink) as H by (apply (WFL_link ctr ls d p (ks t) W); left; rewrite E; discriminate).
  rewrite (mk9_ks t H9), (ent_get ls p root t Eg), (proj2 (lkp_none _ t) Hnin) in H. discriminate H.
Qed.

Lemma entry_kind ctr ls p root s :
  WFL ctr ls None -> layer_get ls p = Some root -> In s (bt_elems root) ->
  (kl (sl_key s) <= 8 -> exists ov, sl_lv s = LValue ov) /\
  (kl (sl_key s) = 9 -> sl_lv s = LLink /\ layer_get ls (p ++ [ks (sl_key s)]) <> None).
Proof.
  intros W Eg Hin. pose proof (layer_entry_ok ls (wl_layer _ _ _ W) p root s Eg Hin) as Hok.
  pose proof Hok as [_ Hk]. destruct (sl_lv s) as [|ov|] eqn:Elv; [contradiction| |].
  - split; [intros _; exists ov; reflexivity|lia].
  - split; [lia|]. intros _. split; [reflexivity|].
    apply (wl_link _ _ _ W p root _ Eg); [|discriminate]. rewrite <- (link_entry s Hok Elv). exact Hin.
Qed.

(** ** the abstraction is strictly sorted *)
Section Sorted.
  Variable ls : layers_t.
  Hypothesis Hwf : forall p root, layer_get ls p = Some root -> WF_layer root.
  Hypothesis Hnz : forall p x root s, layer_get ls (p ++ [x]) = Some root -> In s (bt_elems root) ->
                     kl (sl_key s) <> 0.

  Lemma ent_nz p t lv : p <> [] -> ent ls p t = Some lv -> kl t <> 0.
  Proof.
    intros Hp He. apply (ent_some ls Hwf) in He. destruct He as (root & Eg & Hin).
    destruct (exists_last Hp) as (q & x & ->). exact (Hnz q x root _ Eg Hin).
  Qed.

  Lemma abs_layer_shape f p pb k a :
    In (k, a) (abs_layer f ls p pb) -> exists r, k = pb ++ r /\ bytes r /\ (p <> [] -> r <> []).
  Proof.
    intros H. apply (abs_layer_in ls Hwf) in H. destruct H as (ts & v & V & _ & -> & HLP & _).
    exists (kop ts). split; [reflexivity|]. split; [apply kop_bytes|]. intros Hp.
    destruct (LP_nz (ent ls) ent_nz ts p v HLP) as [_ Z]. specialize (Z Hp).
    destruct ts as [|t r]; [contradiction|]. apply kop_not_nil. inversion Z; assumption.
  Qed.

  (** every key that the entry [s] of the layer at [p] contributes lies under [sl_key s], behind
      the bytes of the layers above *)
  Lemma acent_heads f p pb root s u :
    layer_get ls p = Some root -> In s (bt_elems root) -> In u (acent f ls p pb s) ->
    exists r, fst u = pb ++ r /\ heads (sl_key s) r.
  Proof.
    intros Eg Hin Hu. destruct u as [k a]. pose proof (layer_entry_ok ls Hwf p root s Eg Hin) as [Hw Hok].
    unfold acent in Hu. destruct (sl_lv s) as [|v|] eqn:Elv.
    - destruct Hu.
    - destruct Hu as [Hu|[]]. injection Hu as <- <-. exists (tbytes (sl_key s)).
      split; [reflexivity|apply heads_value; assumption].
    - apply abs_layer_shape in Hu. destruct Hu as (r & -> & Hb & Hne).
      exists (bytes_of_slice (ks (sl_key s)) 8 ++ r). cbn [fst]. split; [rewrite app_assoc; reflexivity|].
      apply heads_link; try assumption. apply Hne. destruct p; discriminate.
  Qed.

  Lemma abs_layer_sorted : forall f p pb, lex_sorted (abs_layer f ls p pb).
  Proof.
    induction f as [|f IH]; intros p pb; [constructor|]. rewrite abs_layer_S.
    destruct (layer_get ls p) as [root|] eqn:Eg; [|constructor].
    destruct (Hwf p root Eg) as [W _].
    (* the entries of the layer are sorted by [canon_lt]; [heads_lt] carries that order over to
       the keys they contribute *)
    pose proof (WF_bt_elems_sorted None None root W) as Hs.
    apply (StronglySorted_flat_map (fun a b => canon_lt (sl_key a) (sl_key b) = true) _ _ _ Hs).
    - intros s Hin. unfold acent. destruct (sl_lv s); [constructor|constructor; constructor|apply IH].
    - intros s1 s2 H1 H2 Hlt u w Hu Hw.
      destruct (acent_heads f p pb root s1 u Eg H1 Hu) as (r1 & E1 & T1).
      destruct (acent_heads f p pb root s2 w Eg H2 Hw) as (r2 & E2 & T2).
      unfold key in *. rewrite E1, E2, lex_lt_app. exact (heads_lt _ _ r1 r2 T1 T2 Hlt).
  Qed.
End Sorted.

(** ** membership in the abstraction = successful lookup *)
Lemma LP_layer ls : forall ts p v,
  LP (ent ls) p ts = Some v -> layer_get ls (p ++ map ks (removelast ts)) <> None.
Proof.
  induction ts as [|t rest IH]; intros p v H; [discriminate|]. cbn [LP] in H.
  destruct (ent ls p t) as [lv|] eqn:E; [|discriminate]. destruct rest as [|t2 r].
  - cbn [removelast map]. rewrite app_nil_r. unfold ent in E. destruct (layer_get ls p); discriminate.
  - destruct lv; try discriminate. apply IH in H.
    change (removelast (t :: t2 :: r)) with (t :: removelast (t2 :: r)). cbn [map].
    rewrite <- app_assoc in H. exact H.
Qed.

Theorem abs_layers_in ctr ls k a : WFL ctr ls None ->
  (In (k, a) (abs_layer (S (length ls)) ls [] []) <->
   bytes k /\ exists v, LP (ent ls) [] (path_of_key k) = Some v /\ a = abs_value v).
Proof.
  intros W. pose proof (wl_layer _ _ _ W) as Hwf.
  rewrite (abs_layer_in ls Hwf). split.
  - intros (ts & v & V & _ & -> & HLP & ->). cbn [app]. split; [apply kop_bytes|].
    exists v. split; [|reflexivity].
    destruct (LP_nz (ent ls) (ent_nz ls Hwf (wl_nz _ _ _ W)) ts [] v HLP) as [Z _].
    rewrite (path_kop ts V Z). exact HLP.
  - intros (Hb & v & HLP & ->). exists (path_of_key k), v. destruct (path_vp k Hb) as [V _].
    split; [exact V|]. split.
    + pose proof (LP_layer ls _ _ _ HLP) as HL. apply (layer_depth ctr ls None _ W) in HL.
      cbn [app] in HL. rewrite map_length, removelast_length in HL. lia.
    + split; [cbn [app]; symmetry; apply kop_path; exact Hb|]. split; [exact HLP|reflexivity].
Qed.

Definition lookup (tr : tree) (k : key) : option value :=
  if t_null tr then None else LP (ent (t_layers tr)) [] (path_of_key k).

Lemma lookup_null tr k : t_null tr = true -> lookup tr k = None.
Proof. unfold lookup. intros ->. reflexivity. Qed.

Lemma lookup_layers tr k : t_null tr = false -> lookup tr k = LP (ent (t_layers tr)) [] (path_of_key k).
Proof. unfold lookup. intros ->. reflexivity. Qed.

Theorem abs_tree_in ctr tr k a : WF_store ctr tr ->
  (In (k, a) (abs_tree tr) <-> bytes k /\ exists v, lookup tr k = Some v /\ a = abs_value v).
Proof.
  intros W. destruct (t_null tr) eqn:Hn.
  - rewrite (abs_tree_null tr Hn), (lookup_null tr k Hn). split; [intros []|]. intros (_ & v & H & _). discriminate.
  - rewrite (abs_tree_layers tr Hn), (lookup_layers tr k Hn). exact (abs_layers_in ctr _ k a (WF_store_layers _ _ W Hn)).
Qed.

Theorem abs_tree_sorted ctr tr : WF_store ctr tr -> lex_sorted (abs_tree tr).
Proof.
  intros W0. destruct (t_null tr) eqn:Hn; [rewrite (abs_tree_null tr Hn); constructor|].
  rewrite (abs_tree_layers tr Hn). pose proof (WF_store_layers _ _ W0 Hn) as W.
  apply abs_layer_sorted; [exact (wl_layer _ _ _ W)|exact (wl_nz _ _ _ W)].
Qed.

Theorem abs_tree_get ctr tr k : WF_store ctr tr -> bytes k ->
  smap_get (abs_tree tr) k = option_map abs_value (lookup tr k).
Proof.
  intros W Hb. pose proof (abs_tree_sorted ctr tr W) as S.
  destruct (lookup tr k) as [v|] eqn:E; cbn [option_map].
  - apply (aget_in _ _ _ S). apply (abs_tree_in ctr tr k _ W). split; [exact Hb|].
    exists v. split; [exact E|reflexivity].
  - apply (aget_none _ _ S). intros a H. apply (abs_tree_in ctr tr k a W) in H.
    destruct H as (_ & v & H & _). congruence.
Qed.

(** ** from lookups to equalities of sorted maps *)
Lemma abs_tree_bytes ctr tr : WF_store ctr tr -> Forall bytes (map fst (abs_tree tr)).
Proof.
  intros W. apply Forall_forall. intros k H. apply in_map_iff in H. destruct H as ([k' a] & <- & H).
  exact (proj1 (proj1 (abs_tree_in ctr tr k' a W) H)).
Qed.

Lemma abs_tree_ext ctr tr (m : smap) :
  WF_store ctr tr -> lex_sorted m -> Forall bytes (map fst m) ->
  (forall k, bytes k -> option_map abs_value (lookup tr k) = smap_get m k) -> abs_tree tr = m.
Proof.
  intros W S F H. apply (aget_ext bytes); [exact (abs_tree_sorted _ _ W)|exact S|exact (abs_tree_bytes _ _ W)|exact F|].
  intros k Hb. exact (eq_trans (abs_tree_get ctr tr k W Hb) (H k Hb)).
Qed.

Lemma abs_put_eq ctr ctr' tr tr' k v :
  WF_store ctr tr -> WF_store ctr' tr' -> bytes k ->
  lookup tr' k = Some v ->
  (forall k', bytes k' -> k' <> k -> lookup tr' k' = lookup tr k') ->
  abs_tree tr' = smap_put (abs_tree tr) k (abs_value v).
Proof.
  intros W W' Hb Hk Hoth. apply (abs_tree_ext ctr' tr' _ W').
  - apply aput_sorted. exact (abs_tree_sorted _ _ W).
  - apply aput_Forall; [exact (abs_tree_bytes _ _ W)|exact Hb].
  - intros k' Hb'. rewrite smap_get_put. destruct (key_eqb_spec k k') as [<-|Hn]; [rewrite Hk; reflexivity|].
    rewrite (abs_tree_get _ _ k' W Hb'), Hoth; [reflexivity|exact Hb'|congruence].
Qed.

Lemma abs_del_eq ctr ctr' tr tr' k :
  WF_store ctr tr -> WF_store ctr' tr' -> bytes k ->
  lookup tr' k = None ->
  (forall k', bytes k' -> k' <> k -> lookup tr' k' = lookup tr k') ->
  abs_tree tr' = smap_del (abs_tree tr) k.
Proof.
  intros W W' Hb Hk Hoth. pose proof (abs_tree_sorted _ _ W) as S. apply (abs_tree_ext ctr' tr' _ W').
  - apply adel_sorted. exact S.
  - apply adel_Forall. exact (abs_tree_bytes _ _ W).
  - intros k' Hb'. rewrite (smap_get_del _ _ _ S). destruct (key_eqb_spec k k') as [<-|Hn]; [rewrite Hk; reflexivity|].
    rewrite (abs_tree_get _ _ k' W Hb'), Hoth; [reflexivity|exact Hb'|congruence].
Qed.

(** ** the landing of a walk
    [get_walk], [put_walk] and [remove_walk] descend alike: into the next layer as long as the
    tuple is found and tuples remain.  The landing is where the descent stops: the layer [q]
    with root [root], the border [l] responsible for the tuple [t], and the tuples [rest]
    that follow [t]. *)
Fixpoint landing (ts : list ktuple) (p : prefix) (ls : layers_t)
  : option (prefix * bt * leaf * ktuple * list ktuple) :=
  match ts with
  | [] => None
  | t :: rest =>
    match layer_get ls p with
    | None => None
    | Some root =>
      match find_leaf root t with
      | None => None
      | Some l =>
        match leaf_lookup l t, rest with
        | Some _, _ :: _ => landing rest (p ++ [ks t]) ls
        | _, _ => Some (p, root, l, t, rest)
        end
      end
    end
  end.

Lemma landing_some : forall ts p ls q root l t rest,
  landing ts p ls = Some (q, root, l, t, rest) ->
  layer_get ls q = Some root /\ find_leaf root t = Some l /\ (leaf_lookup l t = None \/ rest = []).
Proof.
  induction ts as [|t0 r0 IH]; intros p ls q root l t rest H; [discriminate|]. cbn [landing] in H.
  destruct (layer_get ls p) as [root0|] eqn:Eg; [|discriminate].
  destruct (find_leaf root0 t0) as [l0|] eqn:Ef; [|discriminate].
  destruct (leaf_lookup l0 t0) as [x|] eqn:El, r0 as [|t2 r2];
    try (injection H as <- <- <- <- <-; auto); [].
  exact (IH _ _ _ _ _ _ _ H).
Qed.

Lemma get_walk_landing : forall ts p ls,
  get_walk ts p ls = match landing ts p ls with
                     | Some (q, _, _, t, rest) => get_walk (t :: rest) q ls
                     | None => None
                     end.
Proof.
  induction ts as [|t rest IH]; intros p ls; [reflexivity|]. cbn [landing get_walk].
  destruct (layer_get ls p) as [root|] eqn:Eg; [|reflexivity].
  destruct (find_leaf root t) as [l|] eqn:Ef; [|reflexivity].
  destruct (leaf_lookup l t) as [[[r sl] s]|] eqn:El, rest as [|t2 r2];
    try (cbn [get_walk]; rewrite Eg, Ef, El; reflexivity).
  rewrite <- IH. destruct (sl_lv s); reflexivity.
Qed.

Lemma put_walk_landing v unique ctr : forall ts p ls,
  put_walk ts p ls v unique ctr = match landing ts p ls with
                                  | Some (q, _, _, t, rest) => put_walk (t :: rest) q ls v unique ctr
                                  | None => None
                                  end.
Proof.
  induction ts as [|t rest IH]; intros p ls; [reflexivity|]. cbn [landing put_walk].
  destruct (layer_get ls p) as [root|] eqn:Eg; [|reflexivity].
  destruct (find_leaf root t) as [l|] eqn:Ef; [|reflexivity].
  destruct (leaf_lookup l t) as [[[r sl] s]|] eqn:El, rest as [|t2 r2];
    try (cbn [put_walk]; rewrite Eg, Ef, El; reflexivity).
  apply IH.
Qed.

Lemma remove_walk_landing : forall ts p ls,
  remove_walk ts p ls = match landing ts p ls with
                        | Some (q, _, _, t, rest) => remove_walk (t :: rest) q ls
                        | None => None
                        end.
Proof.
  induction ts as [|t rest IH]; intros p ls; [reflexivity|]. cbn [landing remove_walk].
  destruct (layer_get ls p) as [root|] eqn:Eg; [|reflexivity].
  destruct (find_leaf root t) as [l|] eqn:Ef; [|reflexivity].
  destruct (leaf_lookup l t) as [[[r sl] s]|] eqn:El, rest as [|t2 r2];
    try (cbn [remove_walk]; rewrite Eg, Ef, El; reflexivity).
  apply IH.
Qed.

Lemma walk_step ctr ls d p root t :
  WFL ctr ls d -> layer_get ls p = Some root -> kt_wf t = true ->
  exists l, find_leaf root t = Some l /\
    match leaf_lookup l t with
    | None => ent ls p t = None /\ ~ In t (bt_keys root)
    | Some (_, _, s) => In s (bt_elems root) /\ sl_key s = t /\ ent ls p t = Some (sl_lv s)
    end.
Proof.
  intros W Eg Hk. pose proof (wl_layer _ _ _ W) as Hwf. destruct (Hwf p root Eg) as [Wb _].
  destruct (find_leaf_spec root t Wb Hk) as (l & Ef & _). exists l. split; [exact Ef|].
  destruct (find_leaf_lookup root t l Wb Hk Ef) as [A B].
  destruct (leaf_lookup l t) as [[[r slot] s]|] eqn:El.
  - destruct (B r slot s eq_refl) as (Hin & Hs & _). split; [exact Hin|]. split; [exact Hs|].
    rewrite <- Hs. exact (ent_of_in ls Hwf p root s Eg Hin).
  - assert (~ In t (bt_keys root)) as Hn by (apply A; reflexivity). split; [|exact Hn].
    unfold ent. rewrite Eg. apply lkp_none. exact Hn.
Qed.

(** The [LP] clause: a lookup along [ts] from [p] is the lookup along [t :: rest] from the landing [q],
    for every entry function that agrees with [ent ls] strictly above [q]; so a write at or below
    [q] does not disturb the way down, which is what [put_sound] lives on ([put_post_top]).
    [length p <= length q] serves the induction only: the step at [p] needs [p] to be strictly
    above [q], for the [LP] clause and for [q <> []]. *)
Lemma landing_wf ctr ls : WFL ctr ls None ->
  forall ts p, vp ts -> layer_get ls p <> None ->
  exists q root l t rest, landing ts p ls = Some (q, root, l, t, rest) /\
    mk9s p ++ ts = mk9s q ++ t :: rest /\ vp (t :: rest) /\
    (nz (tl ts) -> (p <> [] -> nz ts) -> nz rest /\ (q <> [] -> kl t <> 0)) /\
    (forall E, (forall q' t', (length q' < length q)%nat -> layer_get ls q' <> None ->
                              E q' t' = ent ls q' t') ->
       LP E p ts = LP E q (t :: rest)) /\
    (length p <= length q)%nat /\
    match leaf_lookup l t with
    | None => ent ls q t = None /\ ~ In t (bt_keys root)
    | Some (_, _, s) => rest = [] /\ In s (bt_elems root) /\ sl_key s = t /\
                        exists ov, sl_lv s = LValue ov /\ ent ls q t = Some (LValue ov)
    end.
Proof.
  intros W. induction ts as [|t rest IH]; intros p V Hp; [contradiction|].
  pose proof V as [Hw V']. destruct (layer_get ls p) as [root|] eqn:Eg; [|contradiction].
  destruct (walk_step ctr ls None p root t W Eg Hw) as (l & Ef & Hl).
  assert (nz (tl (t :: rest)) -> (p <> [] -> nz (t :: rest)) -> nz rest /\ (p <> [] -> kl t <> 0)) as Hnz.
  { intros Z1 Z2. split; [exact Z1|]. intros Hn. exact (nz_hd _ _ (Z2 Hn)). }
  cbn [landing]. rewrite Eg, Ef.
  destruct (leaf_lookup l t) as [[[r sl] s]|] eqn:El.
  - destruct Hl as (Hin & Hs & He). destruct (entry_kind ctr ls p root s W Eg Hin) as [K8 K9].
    rewrite Hs in K8, K9. destruct rest as [|t2 r2].
    + exists p, root, l, t, []. rewrite El. destruct (K8 V') as (ov & Elv). rewrite Elv in He. eauto 12.
    + destruct V' as [H9 V']. destruct (K9 H9) as [Elv Hsub]. rewrite Elv in He.
      destruct (IH (p ++ [ks t]) V' Hsub) as (q & root' & l' & t' & rest' & EL & Hpath & Vl & Znz & HLP & Hlen & Hat).
      rewrite app_length in Hlen. cbn [length] in Hlen.
      exists q, root', l', t', rest'. split; [exact EL|]. split; [rewrite <- (mk9s_snoc p t H9); exact Hpath|].
      split; [exact Vl|]. split.
      { intros Z1 _. cbn [tl] in Z1. destruct (Znz (nz_tl _ _ Z1) (fun _ => Z1)) as [A B].
        split; [exact A|]. intros _. apply B. intros X. rewrite X in Hlen. cbn in Hlen. lia. }
      split; [|split; [lia|exact Hat]].
      intros E HE. cbn [LP]. rewrite (HE p t) by (try lia; rewrite Eg; discriminate).
      rewrite He. apply HLP. exact HE.
  - exists p, root, l, t, rest. rewrite El. eauto 12.
Qed.

(** ** where the walk along a key stops, and what is there
    On a well-formed store the walk along [k] from the top stops in the layer [q], at the border [l]
    of its root, having consumed the tuples [mk9s q] of [k] and with [t :: rest] still to go.  There
    ([lands_at]) the entry of [t] is [found], and then [t] is the last tuple and the entry a value, or
    it is [absent]; [fd_abs] and [ab_abs]: the abstraction holds the same for [k]. *)
Record lands (ctr : N) (tr : tree) (k : key) (q : prefix) (root : bt) (l : leaf) (t : ktuple)
       (rest : list ktuple) : Prop := {
  ld_null : t_null tr = false;
  ld_landing : landing (path_of_key k) [] (t_layers tr) = Some (q, root, l, t, rest);
  ld_path : path_of_key k = mk9s q ++ t :: rest;
  ld_get : layer_get (t_layers tr) q = Some root;
  ld_leaf : find_leaf root t = Some l;
  ld_wf : WF_layer root;
  ld_ids : forall i, In i (bt_ids root) -> i < ctr;
  ld_vp : vp (t :: rest);
  ld_nz : nz rest /\ (q <> [] -> kl t <> 0);
  ld_above : forall E, (forall q' t', (length q' < length q)%nat -> layer_get (t_layers tr) q' <> None ->
                                      E q' t' = ent (t_layers tr) q' t') ->
             LP E [] (path_of_key k) = LP E q (t :: rest) }.

Record found (tr : tree) (k : key) (root : bt) (l : leaf) (t : ktuple) (rk : nat) (slot : N)
       (s : slot_t) (ov : value) : Prop := {
  fd_lookup : leaf_lookup l t = Some (rk, slot, s);
  fd_in : In s (bt_elems root);
  fd_key : sl_key s = t;
  fd_val : sl_lv s = LValue ov;
  fd_abs : lookup tr k = Some ov }.

Record absent (tr : tree) (k : key) (root : bt) (l : leaf) (t : ktuple) : Prop := {
  ab_lookup : leaf_lookup l t = None;
  ab_keys : ~ In t (bt_keys root);
  ab_abs : lookup tr k = None }.

Lemma lands_at ctr tr k : WF_store ctr tr -> t_null tr = false -> bytes k ->
  exists q root l t rest, lands ctr tr k q root l t rest /\
    match leaf_lookup l t with
    | Some (rk, slot, s) => rest = [] /\ exists ov, found tr k root l t rk slot s ov
    | None => absent tr k root l t
    end.
Proof.
  intros W0 Hn Hb. pose proof (WF_store_layers _ _ W0 Hn) as W. destruct (path_vp k Hb) as [V Z].
  destruct (landing_wf ctr _ W _ [] V (wl_exc _ _ _ W))
    as (q & root & l & t & rest & EL & Hpath & Vl & Znz & HLP & _ & Hat).
  pose proof (Znz Z (fun H => False_ind _ (H eq_refl))) as Hnz.
  destruct (landing_some _ _ _ _ _ _ _ _ EL) as (Eg & Ef & _).
  assert (lookup tr k = LP (ent (t_layers tr)) q (t :: rest)) as Hlk
    by (rewrite (lookup_layers tr k Hn); exact (HLP _ (fun _ _ _ _ => eq_refl))).
  cbn [LP] in Hlk. exists q, root, l, t, rest. split.
  { constructor; try assumption; [exact (wl_layer _ _ _ W q root Eg)|exact (fun i => wl_ids _ _ _ W q root i Eg)]. }
  destruct (leaf_lookup l t) as [[[rk slot] s]|] eqn:El.
  - destruct Hat as (-> & Hin & Hs & ov & Elv & He). rewrite He in Hlk. split; [reflexivity|].
    exists ov. constructor; assumption.
  - destruct Hat as [He Hnin]. rewrite He in Hlk. constructor; assumption.
Qed.

(** ** get *)
Theorem get_refines ctr tr k : WF_store ctr tr -> bytes k ->
  exists o, get tr k = Some o /\
    match smap_get (abs_tree tr) k with
    | Some a => go_status o = St_OK /\ option_map abs_value (go_value o) = Some a
    | None => go_status o = St_WARN_NOT_EXIST /\ go_value o = None
    end.
Proof.
  intros W Hb. rewrite (abs_tree_get ctr tr k W Hb). unfold get. destruct (t_null tr) eqn:Hn.
  { rewrite (lookup_null tr k Hn). eexists. split; [reflexivity|]. split; reflexivity. }
  destruct (lands_at ctr tr k W Hn Hb) as (q & root & l & t & rest & [_ EL _ Eg Ef] & Hat).
  rewrite get_walk_landing, EL. cbn [get_walk]. rewrite Eg, Ef. destruct (leaf_lookup l t) as [[[rk slot] s]|].
  - destruct Hat as (-> & ov & [_ _ _ -> ->]). eexists. split; [reflexivity|]. split; reflexivity.
  - rewrite (ab_abs _ _ _ _ _ Hat). eexists. split; [reflexivity|]. split; reflexivity.
Qed.

(** ** the layers that [new_chain] creates: one single-entry root border per remaining tuple *)
Definition tail_lv (rest : list ktuple) (v : value) : lvw :=
  match rest with [] => LValue v | _ :: _ => LLink end.

Fixpoint chain_of (p : prefix) (ts : list ktuple) (v : value) (ctr : N) : layers_t :=
  match ts with
  | [] => []
  | t :: r => (p, BLeaf (single_leaf ctr t (tail_lv r v))) :: chain_of (p ++ [ks t]) r v (ctr + 1)
  end.

Lemma tail_entry_ok v t rest : vp (t :: rest) -> entry_ok (mk t (tail_lv rest v)).
Proof. intros [Hw V]. split; [exact Hw|]. cbn [mk sl_lv sl_key]. destruct rest; [exact V|apply V]. Qed.

Lemma chain_of_in v : forall ts p c q r, In (q, r) (chain_of p ts v c) ->
  exists e c' t lv, q = p ++ e /\ r = BLeaf (single_leaf c' t lv).
Proof.
  induction ts as [|t rest IH]; intros p c q r H; [destruct H|]. cbn [chain_of] in H. destruct H as [H|H].
  - injection H as <- <-. exists [], c, t, (tail_lv rest v). rewrite app_nil_r. split; reflexivity.
  - destruct (IH _ _ _ _ H) as (e & c' & t' & lv & -> & ->). exists (ks t :: e), c', t', lv.
    rewrite <- app_assoc. split; reflexivity.
Qed.

Lemma chain_length v : forall ts p c, length (chain_of p ts v c) = length ts.
Proof. induction ts as [|t rest IH]; intros p c; [reflexivity|]. cbn [chain_of length]. rewrite IH. reflexivity. Qed.

Lemma new_chain_eq v : forall ts p ctr ls,
  (forall r, layer_get ls (p ++ r) = None) ->
  new_chain p ts v ctr ls = (ls ++ chain_of p ts v ctr, ctr + N.of_nat (length ts)).
Proof.
  induction ts as [|t rest IH]; intros p ctr ls Hn.
  - cbn [new_chain chain_of length]. rewrite app_nil_r, N.add_0_r. reflexivity.
  - pose proof (Hn []) as Hp. rewrite app_nil_r in Hp.
    pose proof (layer_set_none ls p (BLeaf (single_leaf ctr t (tail_lv rest v))) Hp) as Es.
    cbn [chain_of length]. destruct rest as [|t2 r].
    + cbn [new_chain chain_of tail_lv] in *. rewrite Es. reflexivity.
    + cbn [tail_lv] in Es. change (new_chain p (t :: t2 :: r) v ctr ls) with
        (new_chain (p ++ [ks t]) (t2 :: r) v (ctr + 1) (layer_set ls p (BLeaf (single_leaf ctr t LLink)))).
      rewrite IH, Es, <- app_assoc.
      * cbn [app tail_lv]. f_equal. cbn [length]. lia.
      * intros r0. rewrite layer_get_set_other by apply snoc_app_neq. rewrite <- app_assoc. apply Hn.
Qed.

(** ** what a put does
    One constructor per outcome: the first put into a null tree builds the whole chain; a key that is
    there is left alone ([unique]) or has the value in its slot overwritten, and the old value goes to
    the gc; a key that is not there gets its tuple [t] inserted into the landing layer, as a value or
    as a link with the fresh layers for [rest] below it.  [unique] is a parameter, with premises
    [unique = ..], so that a put at a given [unique] is analysed by [destruct]. *)
Definition overwrite (root : bt) (t : ktuple) (slot : N) (s : slot_t) (v : value) : bt :=
  update_leaf root t (fun l0 => leaf_with l0 (lf_ver l0) (lf_perm l0)
    (set_nth (N.to_nat slot) {| sl_key := sl_key s; sl_lv := LValue v |} (lf_slots l0))).

Definition gc_ids (s : slot_t) : list N :=
  match sl_lv s with LValue ov => if v_inline ov then [] else [v_id ov] | _ => [] end.

Inductive put_step (ctr : N) (tr : tree) (k : key) (v : value) (unique : bool)
  : tree -> put_out -> N -> Prop :=
| put_null :
    t_null tr = true ->
    put_step ctr tr k v unique
      {| t_layers := chain_of [] (path_of_key k) v ctr; t_null := false |}
      {| po_status := St_OK; po_info := Some {| pi_modified := ctr; pi_created := None |}; po_retired := [] |}
      (ctr + N.of_nat (length (path_of_key k)))
| put_refused q root l t rk slot s ov :
    unique = true -> lands ctr tr k q root l t [] -> found tr k root l t rk slot s ov ->
    put_step ctr tr k v unique tr
      {| po_status := St_WARN_UNIQUE_RESTRICTION; po_info := None; po_retired := [] |} ctr
| put_over q root l t rk slot s ov :
    unique = false -> lands ctr tr k q root l t [] -> found tr k root l t rk slot s ov ->
    put_step ctr tr k v unique
      {| t_layers := layer_set (t_layers tr) q (overwrite root t slot s v); t_null := false |}
      {| po_status := St_OK; po_info := None; po_retired := gc_ids s |} ctr
| put_insert q root l t rest root' info c1 :
    lands ctr tr k q root l t rest -> absent tr k root l t ->
    entry_ok (mk t (tail_lv rest v)) ->
    layer_put root t (tail_lv rest v) ctr = Some (root', info, c1) ->
    put_step ctr tr k v unique
      {| t_layers := layer_set (t_layers tr) q root' ++ chain_of (q ++ [ks t]) rest v c1; t_null := false |}
      {| po_status := St_OK; po_info := Some info; po_retired := [] |}
      (c1 + N.of_nat (length rest)).

Lemma put_null_eq tr k v unique ctr : t_null tr = true ->
  put tr k v unique ctr = Some
    ({| t_layers := chain_of [] (path_of_key k) v ctr; t_null := false |},
     {| po_status := St_OK; po_info := Some {| pi_modified := ctr; pi_created := None |}; po_retired := [] |},
     ctr + N.of_nat (length (path_of_key k))).
Proof. intros Hn. unfold put. rewrite Hn, new_chain_eq by reflexivity. reflexivity. Qed.

Theorem put_runs ctr tr k v unique : WF_store ctr tr -> bytes k ->
  exists tr' po ctr', put tr k v unique ctr = Some (tr', po, ctr') /\ put_step ctr tr k v unique tr' po ctr'.
Proof.
  intros W Hb. destruct (t_null tr) eqn:Hn.
  { eexists. eexists. eexists. split; [exact (put_null_eq tr k v unique ctr Hn)|exact (put_null _ _ _ _ _ Hn)]. }
  destruct (lands_at ctr tr k W Hn Hb) as (q & root & l & t & rest & L & Hat).
  pose proof L as [_ EL _ Eg Ef Hwr Hids [Hw Vl]]. pose proof (WF_store_layers _ _ W Hn) as Wl.
  unfold put. rewrite Hn, put_walk_landing, EL. cbn [put_walk]. rewrite Eg, Ef.
  destruct (leaf_lookup l t) as [[[rk slot] s]|].
  - destruct Hat as (-> & ov & F). destruct unique; eexists; eexists; eexists; (split; [reflexivity|]).
    + rewrite (tree_eta tr Hn). exact (put_refused _ _ _ _ _ q root l t rk slot s ov eq_refl L F).
    + exact (put_over _ _ _ _ _ q root l t rk slot s ov eq_refl L F).
  - pose proof (ab_keys _ _ _ _ _ Hat) as Hnin.
    pose proof (tail_entry_ok v t rest (conj Hw Vl)) as Hok.
    destruct (layer_put_spec root t (tail_lv rest v) ctr Hwr Hw Hnin Hok Hids) as (root' & info & c1 & Eput & _).
    fold (tail_lv rest v). rewrite Eput.
    (* nothing lies below the new link, so the fresh layers are appended *)
    assert (new_chain (q ++ [ks t]) rest v c1 (layer_set (t_layers tr) q root') =
            (layer_set (t_layers tr) q root' ++ chain_of (q ++ [ks t]) rest v c1, c1 + N.of_nat (length rest))) as ->.
    { destruct rest as [|t2 r2]; [cbn [new_chain chain_of length]; rewrite app_nil_r, N.add_0_r; reflexivity|].
      apply new_chain_eq. intros r0. rewrite layer_get_set_other by apply snoc_app_neq.
      exact (none_below ctr _ None _ Wl (WFL_no_child ctr _ None q t root Wl Eg Hnin (proj1 Vl)) r0). }
    eexists. eexists. eexists. split; [reflexivity|].
    exact (put_insert _ _ _ _ _ q root l t rest root' info c1 L Hat Hok Eput).
Qed.

Corollary put_cases ctr tr k v unique tr' po ctr' : WF_store ctr tr -> bytes k ->
  put tr k v unique ctr = Some (tr', po, ctr') -> put_step ctr tr k v unique tr' po ctr'.
Proof.
  intros W Hb E. destruct (put_runs ctr tr k v unique W Hb) as (tr2 & po2 & c2 & E2 & St).
  rewrite E in E2. injection E2 as <- <- <-. exact St.
Qed.

Lemma put_not_null tr k v u c tr' po c' : put tr k v u c = Some (tr', po, c') -> t_null tr' = false.
Proof.
  unfold put. destruct (t_null tr).
  - destruct (new_chain [] (path_of_key k) v c []) as [ls c1]. intros H. injection H as <- _ _. reflexivity.
  - destruct (put_walk (path_of_key k) [] (t_layers tr) v u c) as [[[ls o] c1]|]; [|discriminate].
    intros H. injection H as <- _ _. reflexivity.
Qed.

(** ** the run of a removal: [layer_remove] at the landing, then, while the layer vanishes,
    of its link in the layer above *)
Inductive rm_steps : layers_t -> prefix -> ktuple -> layers_t -> list N -> Prop :=
| rm_stop ls p t ls' ret :
    layer_remove ls p t = Some (ls', false, ret) -> rm_steps ls p t ls' ret
| rm_up ls up x t ls1 ret1 ls' ret :
    layer_remove ls (up ++ [x]) t = Some (ls1, true, ret1) ->
    rm_steps ls1 up (mk9 x) ls' ret -> rm_steps ls (up ++ [x]) t ls' (ret1 ++ ret).

Inductive rm_step (ctr : N) (tr : tree) (k : key) : tree -> rem_out -> Prop :=
| rm_null :
    t_null tr = true ->
    rm_step ctr tr k tr {| ro_status := St_OK_ROOT_IS_NULL; ro_retired_values := []; ro_retired_nodes := [] |}
| rm_miss q root l t rest :
    lands ctr tr k q root l t rest -> absent tr k root l t ->
    rm_step ctr tr k tr {| ro_status := St_OK_NOT_FOUND; ro_retired_values := []; ro_retired_nodes := [] |}
| rm_hit q root l t rk slot s ov ls' ret :
    lands ctr tr k q root l t [] -> found tr k root l t rk slot s ov ->
    rm_steps (t_layers tr) q t ls' ret ->
    rm_step ctr tr k {| t_layers := ls'; t_null := false |}
      {| ro_status := St_OK; ro_retired_values := gc_ids s; ro_retired_nodes := ret |}.

Lemma remove_null_eq tr k : t_null tr = true ->
  remove tr k = Some (tr, {| ro_status := St_OK_ROOT_IS_NULL; ro_retired_values := []; ro_retired_nodes := [] |}).
Proof. unfold remove. intros ->. reflexivity. Qed.

Lemma remove_null tr k tr' ro : remove tr k = Some (tr', ro) -> t_null tr' = t_null tr.
Proof.
  unfold remove. destruct (t_null tr) eqn:E.
  - intros H. injection H as <- _. exact E.
  - destruct (remove_walk (path_of_key k) [] (t_layers tr)) as [[ls o]|]; [|discriminate].
    intros H. injection H as <- _. reflexivity.
Qed.

Lemma layer_remove_gone ls p t ls' ret : layer_remove ls p t = Some (ls', true, ret) -> p <> [].
Proof.
  intros E. apply layer_remove_inv in E.
  destruct E as (root & _ & [(_ & _ & G & _)|[(_ & _ & H & _)|(_ & _ & _ & _ & _ & _ & _ & _ & G & _)]]);
    [discriminate G|exact H|discriminate G].
Qed.

Lemma remove_last_snoc {A} (l : list A) x : remove_last (l ++ [x]) = l.
Proof.
  induction l as [|a l IH]; [reflexivity|]. destruct l as [|b l]; [reflexivity|].
  change (remove_last ((a :: b :: l) ++ [x])) with (a :: remove_last ((b :: l) ++ [x])).
  rewrite IH. reflexivity.
Qed.

Lemma cascade_steps : forall f ls up x ret ls' ret',
  cascade f ls (up ++ [x]) ret = Some (ls', ret') ->
  exists ret2, rm_steps ls up (mk9 x) ls' ret2 /\ ret' = ret ++ ret2.
Proof.
  induction f as [|f IH]; intros ls up x ret ls' ret' H; [discriminate|].
  cbn [cascade] in H. rewrite rev_unit, remove_last_snoc in H. change {| ks := x; kl := 9 |} with (mk9 x) in H.
  destruct (layer_remove ls up (mk9 x)) as [[[ls1 gone] ret1]|] eqn:Er; [|discriminate].
  destruct gone.
  - destruct (exists_last (layer_remove_gone _ _ _ _ _ Er)) as (up2 & x2 & ->).
    destruct (IH _ _ _ _ _ _ H) as (ret2 & S & ->).
    exists (ret1 ++ ret2). split; [exact (rm_up _ _ _ _ _ _ _ _ Er S)|symmetry; apply app_assoc].
  - injection H as <- <-. exists ret1. split; [exact (rm_stop _ _ _ _ _ Er)|reflexivity].
Qed.

Lemma remove_walk_steps ts p ls ls' o : remove_walk ts p ls = Some (ls', o) ->
  ls' = ls \/ exists q t, rm_steps ls q t ls' (ro_retired_nodes o).
Proof.
  rewrite remove_walk_landing. destruct (landing ts p ls) as [[[[[q root] l] t] rest]|] eqn:EL; [|discriminate].
  destruct (landing_some _ _ _ _ _ _ _ _ EL) as (Eg & Ef & Hlast).
  cbn [remove_walk]. rewrite Eg, Ef. intros H.
  destruct (leaf_lookup l t) as [[[r slot] s]|]; [|injection H as <- _; left; reflexivity].
  destruct Hlast as [X| ->]; [discriminate|]. right. exists q, t.
  destruct (layer_remove ls q t) as [[[ls1 gone] ret]|] eqn:Er; [|discriminate]. destruct gone.
  - destruct (cascade _ ls1 q ret) as [[ls2 ret2]|] eqn:Ec; [|discriminate]. injection H as <- <-.
    destruct (exists_last (layer_remove_gone _ _ _ _ _ Er)) as (up & x & ->).
    destruct (cascade_steps _ _ _ _ _ _ _ Ec) as (r2 & S & ->). exact (rm_up _ _ _ _ _ _ _ _ Er S).
  - injection H as <- <-. exact (rm_stop _ _ _ _ _ Er).
Qed.

Lemma cascade_run ls up x ls' ret : rm_steps ls up (mk9 x) ls' ret ->
  forall f ret0, (length up < f)%nat -> cascade f ls (up ++ [x]) ret0 = Some (ls', ret0 ++ ret).
Proof.
  intros S. remember (mk9 x) as t eqn:Et. revert x Et.
  induction S as [ls p t ls' ret E|ls up x' t ls1 ret1 ls' ret E S IH]; intros x -> f ret0 Hf;
    (destruct f as [|f]; [lia|]); cbn [cascade]; rewrite rev_unit, remove_last_snoc;
    change {| ks := x; kl := 9 |} with (mk9 x); rewrite E.
  - reflexivity.
  - rewrite app_length in Hf. cbn [length] in Hf. rewrite (IH x' eq_refl f (ret0 ++ ret1)) by lia.
    rewrite app_assoc. reflexivity.
Qed.

Lemma rm_steps_walk ls q t ls' ret : rm_steps ls q t ls' ret ->
  match layer_remove ls q t with
  | Some (ls1, gone, ret1) =>
    (if gone then cascade (S (length q)) ls1 q ret1 else Some (ls1, ret1)) = Some (ls', ret)
  | None => False
  end.
Proof.
  intros S. destruct S as [ls p t ls' ret E|ls up x t ls1 ret1 ls' ret E S]; rewrite E; [reflexivity|].
  apply (cascade_run _ _ _ _ _ S). rewrite app_length. cbn. lia.
Qed.

Lemma rm_steps_fun ls q t l1 r1 l2 r2 : rm_steps ls q t l1 r1 -> rm_steps ls q t l2 r2 -> l1 = l2 /\ r1 = r2.
Proof.
  intros S1 S2. pose proof (rm_steps_walk _ _ _ _ _ S1) as H1. pose proof (rm_steps_walk _ _ _ _ _ S2) as H2.
  destruct (layer_remove ls q t) as [[[ls1 gone] ret1]|]; [|contradiction].
  rewrite H1 in H2. injection H2 as -> ->. split; reflexivity.
Qed.

(** ** every write sets one entry *)

(** where the entry [o] of [t] in the layer [p] leads, if it is a link *)
Definition link_target (p : prefix) (t : ktuple) (o : option lvw) : option prefix :=
  match o with Some LLink => Some (p ++ [ks t]) | _ => None end.

Definition ids_at (ls : layers_t) (p : prefix) : list N :=
  match layer_get ls p with Some r => bt_ids r | None => [] end.

Lemma ids_at_get ls p root : layer_get ls p = Some root -> ids_at ls p = bt_ids root.
Proof. intros E. unfold ids_at. rewrite E. reflexivity. Qed.

(** [root'] holds the entries of the layer [p] of [ls] (none, if [p] is the missing layer), with that
    of [t] set to [x]; an id of [root'] is one of that layer or has been taken from the counter *)
Record sets_entry (ctr ctr' : N) (ls : layers_t) (p : prefix) (t : ktuple) (x : option lvw) (root' : bt) : Prop := {
  se_wf : WF_layer root';
  se_lkp : forall t', lkp (bt_elems root') t' = if kt_eq t t' then x else ent ls p t';
  se_ids : forall i, In i (bt_ids root') -> i < ctr' /\ (In i (ids_at ls p) \/ ctr <= i);
  se_ctr : ctr <= ctr' }.

(** Every write of the store sets one entry: an overwrite, an insert of a value or of a link, a
    delete, and each step of [new_chain], which writes the first entry of the layer that is
    missing; the model writes [layer_set ls p root'] in all of them.  A link that comes dangles
    until its layer is there, a link that goes was dangling.  The premises after [sets_entry]:
    [p] is the missing layer, or it is there and nothing dangles except the entry of [t], if that
    is a link (so no layer lies below the entry that changes, and every other link keeps its
    layer); a layer other than the top one is not emptied and gets no empty tuple ([wl_parent],
    [wl_nz]).  Beside the invariant the conclusion gives the entries of the new store.  With
    [x = None] at a tuple that has no entry nothing is set: so [empty_tree_wf] writes the empty root
    border of a fresh storage. *)
Lemma WFL_entry ctr ctr' ls d p t x root' :
  WFL ctr ls d -> sets_entry ctr ctr' ls p t x root' ->
  (d = Some p \/ layer_get ls p <> None /\ d = link_target p t (ent ls p t)) ->
  (p <> [] -> (x = None -> bt_elems root' <> []) /\ (x <> None -> kl t <> 0)) ->
  WFL ctr' (layer_set ls p root') (link_target p t x) /\
  ent (layer_set ls p root') p t = x /\
  forall q' t', q' <> p \/ t' <> t -> ent (layer_set ls p root') q' t' = ent ls q' t'.
Proof.
  intros W [Hwf' Hlkp Hids Hc] Hd Hne. pose proof (wl_layer _ _ _ W) as Hwf.
  set (ls' := layer_set ls p root').
  assert (ent ls' p t = x) as Hnew by (unfold ls'; rewrite ent_set_same, Hlkp, kt_eq_refl; reflexivity).
  assert (forall q' t', q' <> p \/ t' <> t -> ent ls' q' t' = ent ls q' t') as Hfr.
  { intros q' t' Hd'. destruct (prefix_eqb_spec p q') as [<-|Hn]; [|apply ent_set_other; exact Hn].
    destruct Hd' as [Hd'|Hd']; [contradiction|]. unfold ls'. rewrite ent_set_same, Hlkp.
    destruct (kt_eq t t') eqn:K; [apply kt_eq_iff in K; congruence|reflexivity]. }
  split; [|split; assumption].
  pose proof (layer_get_set ls p root' : forall q, layer_get ls' q = _) as G.
  assert (forall q, p <> q -> layer_get ls' q = layer_get ls q) as Gn by (intros q Hn; apply layer_get_set_other; exact Hn).
  assert (forall q, layer_get ls q <> None -> layer_get ls' q <> None) as Gk.
  { intros q H. rewrite G. destruct (prefix_eqb p q); [discriminate|exact H]. }
  assert (forall q r, layer_get ls' q = Some r -> WF_layer r) as Hwf2.
  { intros q r. rewrite G. destruct (prefix_eqb p q); [intros H; injection H as <-; exact Hwf'|apply Hwf]. }
  (* The link fields speak of the entries of [ls'], which are those of [ls] except at [(p, t)]
     ([Hfr]); the links of [ls] are read through [WFL_link]. *)
  pose proof (ent_some ls' Hwf2) as Hin'.
  (* no layer lies below the entry of [t]: were it a link, it would be the one that dangles *)
  assert (forall y, mk9 y = t -> layer_get ls (p ++ [y]) = None) as Hbelow.
  { intros y <-. destruct Hd as [->|[_ Hd]]; [exact (none_below ctr ls _ p W (proj1 (wl_exc _ _ _ W)) [y])|].
    destruct (layer_get ls (p ++ [y])) eqn:E; [exfalso|reflexivity].
    assert (ent ls p (mk9 y) = Some LLink) as Hl by (apply (WFL_link ctr ls d p y W); left; rewrite E; discriminate).
    rewrite Hl in Hd. rewrite Hd in W. rewrite (proj1 (wl_exc _ _ _ W) : layer_get ls (p ++ [y]) = None) in E. discriminate E. }
  (* any other link of [ls] leads to a layer, or to [p] *)
  assert (forall q y, q <> p \/ mk9 y <> t -> ent ls q (mk9 y) = Some LLink -> layer_get ls' (q ++ [y]) <> None) as Hold.
  { intros q y Hs Hl. apply (WFL_link ctr ls d q y W) in Hl. destruct Hl as [Hl|Hl]; [exact (Gk _ Hl)|].
    destruct Hd as [->|[_ Hd]]; [injection Hl as <-; unfold ls'; rewrite layer_get_set_same; discriminate|].
    exfalso. rewrite Hl in Hd. destruct (ent ls p t) as [[| |]|] eqn:E; try discriminate Hd.
    injection Hd as Hd. apply app_inj_tail in Hd. destruct Hd as [-> ->].
    destruct Hs as [Hs|Hs]; [exact (Hs eq_refl)|]. apply Hs. apply mk9_ks. exact (proj2 (ent_ok ls Hwf p t _ E)). }
  assert (layer_get ls' [] <> None) as Htop.
  { rewrite G. destruct (prefix_eqb_spec p []) as [E|Hn]; [discriminate|]. apply (root_exists ctr ls d p W); [|exact Hn].
    destruct Hd as [->|[H _]]; [right; reflexivity|left; exact H]. }
  constructor.
  - apply layer_set_NoDup. apply (wl_nodup _ _ _ W).
  - exact Hwf2.
  - intros q r i. rewrite G. destruct (prefix_eqb_spec p q) as [<-|Hn].
    + intros H. injection H as <-. intros Hi. exact (proj1 (Hids i Hi)).
    + intros H Hi. pose proof (wl_ids _ _ _ W q r i H Hi). lia.
  - assert (forall q rq i, p <> q -> layer_get ls q = Some rq -> In i (bt_ids root') ->
              In i (bt_ids rq) -> False) as X.
    { intros q rq i Hn Hq Hi Hi'. destruct (proj2 (Hids i Hi)) as [H0|Hge].
      - unfold ids_at in H0. destruct (layer_get ls p) as [r0|] eqn:E0; [|destruct H0].
        apply Hn. exact (wl_disj _ _ _ W p q r0 rq i E0 Hq H0 Hi').
      - pose proof (wl_ids _ _ _ W q rq i Hq Hi'). lia. }
    intros q1 q2 r1 r2 i. rewrite !G.
    destruct (prefix_eqb_spec p q1) as [<-|Hn1]; destruct (prefix_eqb_spec p q2) as [<-|Hn2].
    + reflexivity.
    + intros H1 H2 Hi1 Hi2. injection H1 as <-. exfalso. exact (X q2 r2 i Hn2 H2 Hi1 Hi2).
    + intros H1 H2 Hi1 Hi2. injection H2 as <-. exfalso. exact (X q1 r1 i Hn1 H1 Hi2 Hi1).
    + apply (wl_disj _ _ _ W).
  - intros q r y H Hin Hd'. pose proof (proj2 (Hin' q _ _) (ex_intro _ r (conj H Hin))) as Hl.
    destruct (spot_dec q p (mk9 y) t) as [[-> <-]|Hs]; [|rewrite (Hfr _ _ Hs) in Hl; exact (Hold q y Hs Hl)].
    exfalso. apply Hd'. rewrite <- Hnew, Hl. reflexivity.
  - intros q y r H. split.
    + destruct (prefix_eqb_spec p (q ++ [y])) as [E|Hn];
        [|rewrite (Gn _ Hn) in H; exact (proj1 (wl_parent _ _ _ W q y r H))].
      assert (p <> []) as Hp by (rewrite E; destruct q; discriminate).
      unfold ls' in H. rewrite <- E, layer_get_set_same in H. injection H as <-.
      destruct x as [lv|]; [|exact (proj1 (Hne Hp) eq_refl)].
      intros X. specialize (Hlkp t). rewrite X, kt_eq_refl in Hlkp. discriminate Hlkp.
    + (* the link to [q ++ [y]] is in [ls] already, also if that is [p] and was missing; it is not the entry of [t] *)
      apply Hin'.
      assert (ent ls q (mk9 y) = Some LLink) as Hl.
      { apply (WFL_link ctr ls d q y W). destruct (prefix_eqb_spec p (q ++ [y])) as [<-|Hn].
        - destruct Hd as [->|[Hp _]]; [right; reflexivity|left; exact Hp].
        - left. rewrite <- (Gn _ Hn), H. discriminate. }
      destruct (spot_dec q p (mk9 y) t) as [[-> K]|Hs]; [|rewrite (Hfr _ _ Hs); exact Hl].
      rewrite Gn, (Hbelow y K) in H by apply snoc_neq'. discriminate H.
  - intros q y r s H Hin. rewrite <- (mk_eta s) in Hin. pose proof (proj2 (Hin' _ _ _) (ex_intro _ r (conj H Hin))) as Hl.
    assert (q ++ [y] <> []) as Hp by (destruct q; discriminate).
    destruct (spot_dec (q ++ [y]) p (sl_key s) t) as [[E K]|Hs].
    + rewrite K. rewrite E in Hp, Hl. apply (Hne Hp). intros X. rewrite K, Hnew, X in Hl. discriminate Hl.
    + rewrite (Hfr _ _ Hs) in Hl. exact (ent_nz ls Hwf (wl_nz _ _ _ W) _ _ _ Hp Hl).
  - destruct x as [[| |]|] eqn:Ex; cbn [link_target]; try exact Htop.
    assert (mk9 (ks t) = t) as K9 by (apply mk9_ks; exact (proj2 (ent_ok ls' Hwf2 p t _ Hnew))). split.
    + rewrite Gn by apply snoc_neq'. exact (Hbelow (ks t) K9).
    + intros up y E. apply app_inj_tail in E. destruct E as [<- <-]. apply Hin'. rewrite K9. exact Hnew.
Qed.

Lemma WFL_del ctr ls d p root :
  WFL ctr ls d -> p <> [] -> layer_get ls p = Some root ->
  (forall x, In (mk (mk9 x) LLink) (bt_elems root) -> d = Some (p ++ [x])) ->
  (d = None \/ exists x, d = Some (p ++ [x])) ->
  WFL ctr (layer_del ls p) (Some p).
Proof.
  intros W Hp Eg Hlinks Hd. pose proof (wl_nodup _ _ _ W) as Hnd.
  pose proof (fun q => layer_get_del ls p q Hnd) as G.
  constructor.
  - apply layer_del_NoDup. exact Hnd.
  - intros q r. rewrite G. destruct (prefix_eqb p q); [discriminate|]. apply (wl_layer _ _ _ W).
  - intros q r i. rewrite G. destruct (prefix_eqb p q); [discriminate|]. apply (wl_ids _ _ _ W).
  - intros q1 q2 r1 r2 i. rewrite !G. destruct (prefix_eqb p q1); [discriminate|].
    destruct (prefix_eqb p q2); [discriminate|]. apply (wl_disj _ _ _ W).
  - intros q r x. rewrite !G. destruct (prefix_eqb_spec p q) as [<-|Hn]; [discriminate|].
    intros H Hin Hne. destruct (prefix_eqb_spec p (q ++ [x])) as [E|Hn2]; [congruence|].
    apply (wl_link _ _ _ W q r x H Hin). destruct Hd as [->|(y & ->)]; [discriminate|].
    intros X. injection X as X. apply app_inj_tail in X. destruct X as [X _]. apply Hn. symmetry. exact X.
  - intros q x r. rewrite !G. destruct (prefix_eqb_spec p (q ++ [x])) as [E|Hn]; [discriminate|].
    intros H. destruct (wl_parent _ _ _ W q x r H) as (Hnn & r0 & E0 & Hin0).
    split; [exact Hnn|]. destruct (prefix_eqb_spec p q) as [<-|Hn2].
    + exfalso. rewrite Eg in E0. injection E0 as <-. pose proof (Hlinks x Hin0) as X. subst d.
      pose proof (proj1 (wl_exc _ _ _ W)) as Y. congruence.
    + exists r0. split; assumption.
  - intros q x r s. rewrite G. destruct (prefix_eqb p (q ++ [x])); [discriminate|]. apply (wl_nz _ _ _ W).
  - split.
    + rewrite G, prefix_eqb_refl. reflexivity.
    + intros up x E. subst p. destruct (wl_parent _ _ _ W up x root Eg) as (_ & r0 & E0 & Hin0).
      exists r0. split; [|exact Hin0]. rewrite G, (prefix_eqb_neq _ _ (snoc_neq up x)). exact E0.
Qed.

Lemma WFL_nil ctr : WFL ctr [] (Some []).
Proof.
  constructor; try (intros; discriminate).
  - constructor.
  - split; [reflexivity|]. intros up x E. destruct up; discriminate.
Qed.

(** a store of two layers, the root layer and one layer below its only link: the shape of the
    unreachable stores in the counterexamples of ScanProofs and IScanProofs *)
Lemma two_layer_WF ctr x root sub :
  WF_layer root -> WF_layer sub ->
  (forall i, In i (bt_ids root ++ bt_ids sub) -> i < ctr) ->
  (forall i, In i (bt_ids root) -> ~ In i (bt_ids sub)) ->
  (forall y, In (mk (mk9 y) LLink) (bt_elems root) <-> y = x) ->
  (forall y, ~ In (mk (mk9 y) LLink) (bt_elems sub)) ->
  bt_elems sub <> [] -> (forall s, In s (bt_elems sub) -> kl (sl_key s) <> 0) ->
  WFL ctr [([], root); ([x], sub)] None.
Proof.
  intros Hw Hws Hids Hdisj Hlink Hnolink Hne Hnz.
  assert (forall p r, layer_get [([], root); ([x], sub)] p = Some r ->
            (p = [] /\ r = root) \/ (p = [x] /\ r = sub)) as G.
  { intros p r. cbn [layer_get].
    destruct (prefix_eqb_spec [] p) as [<-|N1].
    - intros H. injection H as <-. left. split; reflexivity.
    - destruct (prefix_eqb_spec [x] p) as [<-|N2]; [|discriminate].
      intros H. injection H as <-. right. split; reflexivity. }
  assert (layer_get [([], root); ([x], sub)] [x] = Some sub) as Gx.
  { cbn [layer_get]. destruct (prefix_eqb_spec [] [x]) as [H|_]; [discriminate H|].
    rewrite prefix_eqb_refl. reflexivity. }
  constructor.
  - cbn [map fst]. constructor; [intros [H|[]]; discriminate|]. constructor; [intros []|constructor].
  - intros p r H. destruct (G p r H) as [[_ ->]|[_ ->]]; assumption.
  - intros p r i H Hi. apply Hids. apply in_or_app. destruct (G p r H) as [[_ ->]|[_ ->]]; [left|right]; exact Hi.
  - intros p q rp rq i H1 H2 I1 I2.
    destruct (G p rp H1) as [[-> ->]|[-> ->]], (G q rq H2) as [[-> ->]|[-> ->]]; try reflexivity; exfalso;
      [exact (Hdisj i I1 I2)|exact (Hdisj i I2 I1)].
  - intros p r y H Hin _. destruct (G p r H) as [[-> ->]|[-> ->]]; [|exact (False_ind _ (Hnolink y Hin))].
    apply Hlink in Hin. subst y. cbn [app]. rewrite Gx. discriminate.
  - intros p y r H. destruct (G _ r H) as [[E _]|[E ->]]; [destruct p; discriminate|].
    apply (app_inj_tail p [] y x) in E. destruct E as [-> ->]. split; [exact Hne|].
    exists root. split; [reflexivity|apply Hlink; reflexivity].
  - intros p y r s H Hin. destruct (G _ r H) as [[E _]|[E ->]]; [destruct p; discriminate|exact (Hnz s Hin)].
  - cbn. discriminate.
Qed.

(** ** put keeps the invariant and acts on the abstraction as [smap_put] *)
Definition put_post (v : value) (p : prefix) (ts : list ktuple) (ls ls' : layers_t) : Prop :=
  LP (ent ls') p ts = Some v /\
  forall ts' q0, vp ts' -> mk9s q0 ++ ts' <> mk9s p ++ ts -> LP (ent ls') q0 ts' = LP (ent ls) q0 ts'.

Lemma put_post_here v ls ls' q t : kl t <= 8 ->
  ent ls' q t = Some (LValue v) ->
  (forall q' t', q' <> q \/ t' <> t -> ent ls' q' t' = ent ls q' t') ->
  put_post v q [t] ls ls'.
Proof.
  intros Hl Hnew Hfr. split; [cbn [LP]; rewrite Hnew; reflexivity|].
  intros ts' q0 V' Hne. apply (LP_spot (ent ls) _ q t Hl); assumption.
Qed.

Lemma put_post_link v ls la ls' q t rest : kl t = 9 -> rest <> [] ->
  ent ls q t = None -> (forall t', ent ls (q ++ [ks t]) t' = None) ->
  (forall q' t', q' <> q \/ t' <> t -> ent la q' t' = ent ls q' t') ->
  ent ls' q t = Some LLink ->
  put_post v (q ++ [ks t]) rest la ls' -> put_post v q (t :: rest) ls ls'.
Proof.
  intros H9 Hr HN Hsub Hfr Hnew [P1 P2]. split.
  - cbn [LP]. rewrite Hnew. destruct rest; [contradiction|exact P1].
  - intros ts' q0 V' Hne. rewrite P2; [|exact V'|rewrite (mk9s_snoc q t H9); exact Hne].
    symmetry. apply (LP_dangling (ent la) (ent ls) q t H9); [|exact HN| |exact V'].
    + intros t'. rewrite Hfr by (left; apply snoc_neq). apply Hsub.
    + intros q' t' Hd. symmetry. apply Hfr. exact Hd.
Qed.

Lemma fresh_entry ctr ls p t lv : entry_ok (mk t lv) -> layer_get ls p = None ->
  sets_entry ctr (ctr + 1) ls p t (Some lv) (BLeaf (single_leaf ctr t lv)).
Proof.
  intros Hok Hp. destruct (single_leaf_WF_layer ctr t lv Hok) as (Hwf' & Hel & Hid).
  constructor; [exact Hwf'| | |lia].
  - intros t'. rewrite Hel, lkp_cons, (ent_absent ls p t' Hp). cbn [sl_key sl_lv lkp].
    destruct (kt_eq t t'); reflexivity.
  - rewrite Hid. intros i [<-|[]]. lia.
Qed.

(** the entry of [t] comes into the layer [q]: a value if [t] is the last tuple, else a link with
    the fresh layers of [rest] below it.  [q] is there (the insert of a put) or is the missing
    layer (a step of [new_chain]); in the induction the layer below the link that has come is the
    missing one. *)
Lemma grow v : forall rest t q ctr c1 ls d root',
  WFL ctr ls d -> (d = Some q \/ layer_get ls q <> None /\ d = None) -> ent ls q t = None ->
  vp (t :: rest) -> nz rest -> (q <> [] -> kl t <> 0) ->
  sets_entry ctr c1 ls q t (Some (tail_lv rest v)) root' ->
  WFL (c1 + N.of_nat (length rest)) (layer_set ls q root' ++ chain_of (q ++ [ks t]) rest v c1) None /\
  put_post v q (t :: rest) ls (layer_set ls q root' ++ chain_of (q ++ [ks t]) rest v c1).
Proof.
  induction rest as [|t2 r IH]; intros t q ctr c1 ls d root' W Hd HN [Hw V] Zr Zt Hse.
  all: destruct (WFL_entry ctr c1 ls d q t _ root' W Hse) as (Wa & Hnew & Hfr);
    [rewrite HN; exact Hd|intros Hq; split; [discriminate|intros _; exact (Zt Hq)]|].
  - cbn [chain_of length tail_lv link_target] in *. rewrite app_nil_r, N.add_0_r. split; [exact Wa|].
    exact (put_post_here v ls _ q t V Hnew Hfr).
  - destruct V as [H9 V]. cbn [tail_lv link_target] in Wa, Hnew. set (ls_a := layer_set ls q root') in *.
    pose proof (proj1 (wl_exc _ _ _ Wa)) as Hsub.
    destruct (IH t2 (q ++ [ks t]) c1 (c1 + 1) ls_a _ _ Wa (or_introl eq_refl) (ent_absent _ _ _ Hsub) V
                (nz_tl _ _ Zr) (fun _ => nz_hd _ _ Zr) (fresh_entry c1 ls_a _ t2 _ (tail_entry_ok v t2 r V) Hsub))
      as [W1 P1].
    rewrite (layer_set_none ls_a _ _ Hsub), <- app_assoc in W1, P1. cbn [chain_of length].
    replace (c1 + N.of_nat (S (length r))) with (c1 + 1 + N.of_nat (length r)) by lia.
    split; [exact W1|].
    apply (put_post_link v ls ls_a _ q t (t2 :: r) H9); [discriminate|exact HN| |exact Hfr| |exact P1].
    + intros t'. apply ent_absent. unfold ls_a in Hsub. rewrite layer_get_set_other in Hsub by apply snoc_neq'. exact Hsub.
    + rewrite ent_app_l by (unfold ls_a; rewrite layer_get_set_same; discriminate). exact Hnew.
Qed.

Lemma chain_spec v : forall ts q ctr ls,
  WFL ctr ls (Some q) -> vp ts -> nz (tl ts) -> (q <> [] -> nz ts) ->
  WFL (ctr + N.of_nat (length ts)) (ls ++ chain_of q ts v ctr) None /\
  put_post v q ts ls (ls ++ chain_of q ts v ctr).
Proof.
  intros [|t rest] q ctr ls W V Z1 Z2; [contradiction|]. pose proof (proj1 (wl_exc _ _ _ W)) as Hq.
  cbn [chain_of length]. replace (ctr + N.of_nat (S (length rest))) with (ctr + 1 + N.of_nat (length rest)) by lia.
  change (ls ++ (q, ?r) :: ?ch) with (ls ++ [(q, r)] ++ ch). rewrite app_assoc, <- (layer_set_none ls q _ Hq).
  exact (grow v rest t q ctr (ctr + 1) ls _ _ W (or_introl eq_refl) (ent_absent _ _ _ Hq) V Z1
           (fun H => nz_hd _ _ (Z2 H)) (fresh_entry ctr ls q t _ (tail_entry_ok v t rest V) Hq)).
Qed.

(** a change at or below the landing is seen from the top as it is seen from [q] *)
Lemma put_post_top ctr tr k q root l t rest v ls' : lands ctr tr k q root l t rest ->
  (forall q' t', (length q' < length q)%nat -> layer_get (t_layers tr) q' <> None ->
                 ent ls' q' t' = ent (t_layers tr) q' t') ->
  put_post v q (t :: rest) (t_layers tr) ls' -> put_post v [] (path_of_key k) (t_layers tr) ls'.
Proof.
  intros L Hag [P1 P2]. split; [rewrite (ld_above _ _ _ _ _ _ _ _ L _ Hag); exact P1|].
  rewrite (ld_path _ _ _ _ _ _ _ _ L). exact P2.
Qed.

Theorem put_sound ctr tr k v unique tr' po ctr' : WF_store ctr tr -> bytes k ->
  put_step ctr tr k v unique tr' po ctr' ->
  WF_store ctr' tr' /\ ctr <= ctr' /\
  match smap_get (abs_tree tr) k with
  | None => po_status po = St_OK /\ abs_tree tr' = smap_put (abs_tree tr) k (abs_value v)
  | Some _ =>
    if unique then po_status po = St_WARN_UNIQUE_RESTRICTION /\ abs_tree tr' = abs_tree tr
    else po_status po = St_OK /\ abs_tree tr' = smap_put (abs_tree tr) k (abs_value v)
  end.
Proof.
  intros W0 Hb St. rewrite (abs_tree_get ctr tr k W0 Hb). destruct (path_vp k Hb) as [V Z].
  (* [ls]: the layers that the lookups in [tr] go through, none for a null tree *)
  assert (forall ls ls' c', (forall k', lookup tr k' = LP (ent ls) [] (path_of_key k')) ->
            WFL c' ls' None -> put_post v [] (path_of_key k) ls ls' ->
            abs_tree {| t_layers := ls'; t_null := false |} = smap_put (abs_tree tr) k (abs_value v)) as Hput.
  { intros ls ls' c' Hlk W' [P1 P2]. apply (abs_put_eq ctr c' tr {| t_layers := ls'; t_null := false |} k v W0 W' Hb P1).
    intros k' Hb' Hne. rewrite Hlk. apply (P2 _ [] (proj1 (path_vp k' Hb'))).
    intros X. apply Hne. apply path_inj; assumption. }
  destruct St as [Hn|q root l t rk slot s ov -> L F|q root l t rk slot s ov -> L F|q root l t rest root' info c1 L A Hokn Eput].
  - destruct (chain_spec v _ [] ctr [] (WFL_nil ctr) V Z (fun H => False_ind _ (H eq_refl))) as [W1 P].
    assert (forall k', lookup tr k' = LP (ent []) [] (path_of_key k')) as Hlk
      by (intros k'; rewrite (lookup_null tr k' Hn); symmetry; apply LP_nil).
    rewrite Hlk, LP_nil. cbn [option_map po_status].
    split; [exact W1|]. split; [lia|]. split; [reflexivity|]. exact (Hput [] _ _ Hlk W1 P).
  - rewrite (fd_abs _ _ _ _ _ _ _ _ _ F). split; [exact W0|]. split; [lia|]. split; reflexivity.
  - pose proof (fun ls' => put_post_top ctr tr k q root l t [] v ls' L) as Hpost.
    destruct L as [Hn _ _ Eg Ef Hwr Hids [Hw Vl] [_ Zt] _], F as [El Hin Hs Elv Hab]. rewrite Hab. cbn [option_map po_status].
    pose proof (WF_store_layers _ _ W0 Hn) as W. set (ls := t_layers tr) in *.
    pose proof (layer_keys_NoDup ls (wl_layer _ _ _ W) q root Eg) as Nr.
    pose proof (ent_of_in ls (wl_layer _ _ _ W) q root s Eg Hin) as He. rewrite Hs, Elv in He.
    destruct (layer_update_spec root t l rk slot s v Hwr Hw Ef El Vl)
      as (_ & _ & Hwf' & Hids' & _ & (A & B & HA & HB) & _ & _).
    fold (overwrite root t slot s v) in *. set (root' := overwrite root t slot s v) in *.
    assert (sets_entry ctr ctr ls q t (Some (LValue v)) root') as Hse.
    { constructor; [exact Hwf'| | |lia].
      - intros t'. rewrite (ent_get ls q root t' Eg), HA, HB, <- Hs. apply lkp_replace; [rewrite <- HA; exact Nr|reflexivity].
      - rewrite Hids', (ids_at_get ls q root Eg). intros i Hi. split; [exact (Hids i Hi)|left; exact Hi]. }
    destruct (WFL_entry ctr ctr ls None q t _ root' W Hse) as (W1 & Hnew & Hframe);
      [right; rewrite Eg, He; split; [discriminate|reflexivity]|intros Hqn; split; [discriminate|intros _; exact (Zt Hqn)]|].
    split; [exact W1|]. split; [lia|]. split; [reflexivity|].
    apply (Hput ls _ ctr (fun k' => lookup_layers tr k' Hn) W1). apply Hpost.
    + intros q' t' Hl _. apply ent_set_other. intros ->. lia.
    + exact (put_post_here v ls _ q t Vl Hnew Hframe).
  - pose proof (fun ls' => put_post_top ctr tr k q root l t rest v ls' L) as Hpost.
    destruct L as [Hn _ _ Eg Ef Hwr Hids [Hw Vl] [Zr Zt] _], A as [El Hnin Hab]. rewrite Hab. cbn [option_map po_status].
    pose proof (WF_store_layers _ _ W0 Hn) as W. set (ls := t_layers tr) in *. set (lv := tail_lv rest v) in *.
    assert (ent ls q t = None) as He by (rewrite (ent_get ls q root t Eg); apply lkp_none; exact Hnin).
    destruct (layer_put_spec root t lv ctr Hwr Hw Hnin Hokn Hids)
      as (root2 & info2 & c2 & Eput2 & Hwf' & _ & _ & Hperm & Hc1 & Hids' & _ & Hfresh & _).
    rewrite Eput in Eput2. injection Eput2 as <- <- <-.
    assert (sets_entry ctr c1 ls q t (Some lv) root') as Hse.
    { constructor; [exact Hwf'| | |exact Hc1].
      - intros t'. rewrite (ent_get ls q root t' Eg).
        exact (lkp_perm_cons _ (mk t lv) _ t' (WF_bt_keys_NoDup None None root' (proj1 Hwf')) Hperm).
      - rewrite (ids_at_get ls q root Eg). intros i Hi. split; [exact (Hids' i Hi)|].
        destruct (Hfresh i Hi) as [H|H]; [left; exact H|right; lia]. }
    assert (layer_get ls q <> None) as Hq by (rewrite Eg; discriminate).
    destruct (grow v rest t q ctr c1 ls None root' W (or_intror (conj Hq eq_refl)) He (conj Hw Vl) Zr Zt Hse) as [W2 P2].
    split; [exact W2|]. split; [lia|]. split; [reflexivity|].
    apply (Hput ls _ _ (fun k' => lookup_layers tr k' Hn) W2). apply Hpost; [|exact P2].
    intros q' t' Hl Hq'. rewrite ent_app_l; [apply ent_set_other; intros ->; lia|].
    rewrite layer_get_set_other by (intros ->; lia). exact Hq'.
Qed.

Corollary put_wf ctr tr k v unique tr' po ctr' : WF_store ctr tr -> bytes k ->
  put tr k v unique ctr = Some (tr', po, ctr') -> WFL ctr' (t_layers tr') None /\ ctr <= ctr'.
Proof.
  intros W Hb E. destruct (put_sound _ _ _ _ _ _ _ _ W Hb (put_cases _ _ _ _ _ _ _ _ W Hb E)) as (W' & Hc & _).
  split; [exact (WF_store_layers _ _ W' (put_not_null _ _ _ _ _ _ _ _ E))|exact Hc].
Qed.

Theorem put_refines ctr tr k v unique : WF_store ctr tr -> bytes k ->
  exists tr' po ctr',
    put tr k v unique ctr = Some (tr', po, ctr') /\ WF_store ctr' tr' /\ ctr <= ctr' /\
    match smap_get (abs_tree tr) k with
    | None => po_status po = St_OK /\ abs_tree tr' = smap_put (abs_tree tr) k (abs_value v)
    | Some _ =>
      if unique then po_status po = St_WARN_UNIQUE_RESTRICTION /\ abs_tree tr' = abs_tree tr
      else po_status po = St_OK /\ abs_tree tr' = smap_put (abs_tree tr) k (abs_value v)
    end.
Proof.
  intros W Hb. destruct (put_runs ctr tr k v unique W Hb) as (tr' & po & ctr' & E & St).
  exists tr', po, ctr'. split; [exact E|exact (put_sound _ _ _ _ _ _ _ _ W Hb St)].
Qed.

(** ** remove keeps the invariant and acts on the abstraction as [smap_del] *)
Lemma layer_remove_cases ls p k root :
  layer_get ls p = Some root -> WF_layer root -> kt_wf k = true -> In k (bt_keys root) ->
  exists ls' gone ret, layer_remove ls p k = Some (ls', gone, ret) /\
    ((gone = false /\ exists root'', ls' = layer_set ls p root'' /\ WF_layer root'' /\
        (p <> [] -> bt_elems root'' <> []) /\
        (exists A s B, bt_elems root = A ++ s :: B /\ sl_key s = k /\ bt_elems root'' = A ++ B) /\
        (forall i, In i (bt_ids root'') -> In i (bt_ids root)))
     \/ (gone = true /\ p <> [] /\ ls' = layer_del ls p /\
         exists s, bt_elems root = [s] /\ sl_key s = k)).
Proof.
  intros Eg Hwf Hk Hin.
  destruct (layer_remove_spec ls p k root Eg Hwf Hk Hin) as (ls' & gone & ret & E & [C|[C|C]]);
    exists ls', gone, ret; (split; [exact E|]).
  - destruct C as (-> & root' & root'' & _ & _ & -> & Hwf'' & Hne & Hel & Hperm). left.
    split; [reflexivity|]. exists root''. split; [reflexivity|]. split; [exact Hwf''|].
    split; [intros _; exact Hne|]. split; [exact Hel|].
    intros i Hi. apply (Permutation_in _ (Permutation_sym Hperm)). apply in_or_app. right. exact Hi.
  - destruct C as (-> & Hp & -> & l & s & -> & Hent & Hs & _). right.
    split; [reflexivity|]. split; [exact Hp|]. split; [reflexivity|]. exists s. split; [exact Hent|exact Hs].
  - destruct C as (-> & -> & _ & l & s & l'' & -> & Hent & Hs & -> & Hwf'' & He'' & Hid). left.
    split; [reflexivity|]. exists (BLeaf l''). split; [reflexivity|]. split; [exact Hwf''|].
    split; [intros H; contradiction|]. split.
    + exists [], s, []. cbn [bt_elems app]. split; [exact Hent|]. split; [exact Hs|exact He''].
    + cbn [bt_ids]. rewrite Hid. intros i Hi. exact Hi.
Qed.

Definition dangling (p : prefix) (s : slot_t) : option prefix := link_target p (sl_key s) (Some (sl_lv s)).

(** the entry of [t] in the layer [p] is gone and every other lookup is unchanged; if [t] was a link
    (dangling, its layer deleted just before) the lookup of [p ++ [t]] itself was [None] before as
    well, so then all lookups are unchanged *)
Definition removed (p : prefix) (t : ktuple) (ls ls' : layers_t) : Prop :=
  forall ts' q0, vp ts' ->
    (mk9s q0 ++ ts' = mk9s p ++ [t] -> LP (ent ls') q0 ts' = None) /\
    (kl t = 9 \/ mk9s q0 ++ ts' <> mk9s p ++ [t] -> LP (ent ls') q0 ts' = LP (ent ls) q0 ts').

Lemma LP_removed ls ls' p s :
  entry_ok s ->
  (sl_lv s = LLink -> forall t', ent ls (p ++ [ks (sl_key s)]) t' = None) ->
  ent ls' p (sl_key s) = None ->
  (forall q' t', q' <> p \/ t' <> sl_key s -> ent ls' q' t' = ent ls q' t') ->
  removed p (sl_key s) ls ls'.
Proof.
  intros [_ Hok] Hdang HN Hfr ts' q0 V'. split; [apply LP_spot_none; assumption|].
  destruct (sl_lv s) eqn:Elv; [contradiction| |].
  - intros [X|X]; [lia|]. apply (LP_spot (ent ls) _ p _ Hok Hfr); assumption.
  - intros _. apply (LP_dangling (ent ls) _ p _ Hok (Hdang eq_refl) HN Hfr). exact V'.
Qed.

Lemma removed_up p t up x ls ls1 ls' :
  removed p t ls ls1 -> removed up (mk9 x) ls1 ls' -> removed p t ls ls'.
Proof.
  intros R1 R2 ts' q0 V'. destruct (R2 ts' q0 V') as [_ C]. rewrite (C (or_introl eq_refl)).
  exact (R1 ts' q0 V').
Qed.

Lemma layer_remove_step ctr ls p root s :
  WFL ctr ls (dangling p s) -> layer_get ls p = Some root -> In s (bt_elems root) ->
  exists ls' gone ret, layer_remove ls p (sl_key s) = Some (ls', gone, ret) /\
    WFL ctr ls' (if gone then Some p else None) /\ removed p (sl_key s) ls ls' /\ (gone = true -> p <> []).
Proof.
  intros W Eg Hin. pose proof (wl_layer _ _ _ W) as Hwf. pose proof (wl_nodup _ _ _ W) as Hnd.
  pose proof (Hwf p root Eg) as Hwr. pose proof (layer_keys_NoDup ls Hwf p root Eg) as Nr.
  pose proof (layer_entry_ok ls Hwf p root s Eg Hin) as Hok.
  pose proof (ent_of_in ls Hwf p root s Eg Hin) as Hs.
  assert (sl_lv s = LLink -> forall t', ent ls (p ++ [ks (sl_key s)]) t' = None) as Hdang.
  { intros Elv t'. apply ent_absent. unfold dangling in W. rewrite Elv in W. exact (proj1 (wl_exc _ _ _ W)). }
  destruct (layer_remove_cases ls p (sl_key s) root Eg Hwr (proj1 Hok) (in_elems_in_keys _ _ Hin))
    as (ls' & gone & ret & E & [C|C]); exists ls', gone, ret; (split; [exact E|]).
  - destruct C as (-> & root'' & -> & Hwf'' & Hne & (A & s' & B & HA & Hs' & HB) & Hids).
    assert (s' = s) as ->.
    { apply (WF_bt_key_inj None None root _ _ (proj1 Hwr)); [rewrite HA; apply in_elt|exact Hin|exact Hs']. }
    assert (sets_entry ctr ctr ls p (sl_key s) None root'') as Hse.
    { constructor; [exact Hwf''| | |lia].
      - intros t'. rewrite (ent_get ls p root t' Eg), HA, HB. apply lkp_remove. rewrite <- HA. exact Nr.
      - rewrite (ids_at_get ls p root Eg). intros i Hi.
        split; [exact (wl_ids _ _ _ W p root i Eg (Hids i Hi))|left; exact (Hids i Hi)]. }
    destruct (WFL_entry ctr ctr ls _ p (sl_key s) None root'' W Hse) as (W' & HN & Hfr);
      [right; rewrite Eg, Hs; split; [discriminate|reflexivity]
      |intros Hpn; split; [intros _; exact (Hne Hpn)|intros X; elim X; reflexivity]|].
    split; [exact W'|split; [exact (LP_removed ls _ p s Hok Hdang HN Hfr)|discriminate]].
  - destruct C as (-> & Hpn & -> & s' & Hel & Hs').
    assert (s' = s) as -> by (rewrite Hel in Hin; destruct Hin as [H|[]]; exact H).
    split; [|split; [|intros _; exact Hpn]].
    + apply (WFL_del ctr ls _ p root W Hpn Eg).
      * intros y Hy. rewrite Hel in Hy. destruct Hy as [->|[]]. reflexivity.
      * unfold dangling. destruct (sl_lv s); [left|left|right; eexists]; reflexivity.
    + apply (LP_removed ls _ p s Hok Hdang); [apply ent_del_same; exact Hnd|].
      intros q' t' Hd. destruct (prefix_eqb_spec p q') as [<-|Hn]; [|apply ent_del_other; exact Hn].
      destruct Hd as [Hd|Hd]; [contradiction|]. rewrite (ent_del_same ls p t' Hnd), (ent_get ls p root t' Eg), Hel, lkp_cons.
      destruct (kt_eq (sl_key s) t') eqn:K; [apply kt_eq_iff in K; congruence|reflexivity].
Qed.

(** the effect of the whole run on lookups is that of its first step *)
Lemma rm_steps_run ctr : forall p ls root s,
  WFL ctr ls (dangling p s) -> layer_get ls p = Some root -> In s (bt_elems root) ->
  exists ls' ret, rm_steps ls p (sl_key s) ls' ret /\ WFL ctr ls' None /\ removed p (sl_key s) ls ls'.
Proof.
  induction p as [|x up IH] using rev_ind; intros ls root s W Eg Hin;
    destruct (layer_remove_step ctr ls _ root s W Eg Hin) as (ls1 & gone & ret1 & E & W1 & R1 & Hpn);
    destruct gone; try (exists ls1, ret1; split; [exact (rm_stop _ _ _ _ _ E)|split; assumption]).
  - elim (Hpn eq_refl). reflexivity.
  - destruct (proj2 (wl_exc _ _ _ W1) up x eq_refl) as (r0 & E0 & Hin0).
    destruct (IH ls1 r0 (mk (mk9 x) LLink) W1 E0 Hin0) as (ls' & ret & S & W' & R').
    exists ls', (ret1 ++ ret). split; [exact (rm_up _ _ _ _ _ _ _ _ E S)|].
    split; [exact W'|exact (removed_up _ _ _ _ _ _ _ R1 R')].
Qed.

Theorem remove_runs ctr tr k : WF_store ctr tr -> bytes k ->
  exists tr' ro, remove tr k = Some (tr', ro) /\ rm_step ctr tr k tr' ro.
Proof.
  intros W0 Hb. destruct (t_null tr) eqn:Hn.
  { eexists. eexists. split; [exact (remove_null_eq tr k Hn)|exact (rm_null _ _ _ Hn)]. }
  destruct (lands_at ctr tr k W0 Hn Hb) as (q & root & l & t & rest & L & Hat).
  pose proof L as [_ EL _ Eg Ef]. unfold remove. rewrite Hn, remove_walk_landing, EL. cbn [remove_walk]. rewrite Eg, Ef.
  destruct (leaf_lookup l t) as [[[rk slot] s]|].
  - destruct Hat as (-> & ov & F). pose proof F as [_ Hin Hs Elv _].
    assert (WFL ctr (t_layers tr) (dangling q s)) as Wd
      by (unfold dangling; rewrite Elv; exact (WF_store_layers _ _ W0 Hn)).
    destruct (rm_steps_run ctr q _ root s Wd Eg Hin) as (ls' & ret & S & _). rewrite Hs in S.
    pose proof (rm_steps_walk _ _ _ _ _ S) as Hrun.
    destruct (layer_remove (t_layers tr) q t) as [[[ls1 gone] ret1]|]; [|contradiction].
    destruct gone; [rewrite Hrun|injection Hrun as -> ->]; eexists; eexists; (split; [reflexivity|]);
      exact (rm_hit _ _ _ q root l t rk slot s ov ls' ret L F S).
  - rewrite (tree_eta tr Hn). eexists. eexists. split; [reflexivity|exact (rm_miss _ _ _ q root l t rest L Hat)].
Qed.

Corollary remove_cases ctr tr k tr' ro : WF_store ctr tr -> bytes k ->
  remove tr k = Some (tr', ro) -> rm_step ctr tr k tr' ro.
Proof.
  intros W Hb E. destruct (remove_runs ctr tr k W Hb) as (tr2 & ro2 & E2 & St).
  rewrite E in E2. injection E2 as <- <-. exact St.
Qed.

Theorem remove_sound ctr tr k tr' ro : WF_store ctr tr -> bytes k -> rm_step ctr tr k tr' ro ->
  WF_store ctr tr' /\
  if t_null tr then ro_status ro = St_OK_ROOT_IS_NULL /\ tr' = tr
  else match smap_get (abs_tree tr) k with
       | Some _ => ro_status ro = St_OK /\ abs_tree tr' = smap_del (abs_tree tr) k
       | None => ro_status ro = St_OK_NOT_FOUND /\ abs_tree tr' = abs_tree tr
       end.
Proof.
  intros W0 Hb St. rewrite (abs_tree_get ctr tr k W0 Hb).
  destruct St as [Hn|q root l t rest L A|q root l t rk slot s ov ls' ret L F S].
  - rewrite Hn. split; [exact W0|]. split; reflexivity.
  - rewrite (ld_null _ _ _ _ _ _ _ _ L), (ab_abs _ _ _ _ _ A). split; [exact W0|]. split; reflexivity.
  - destruct L as [Hn _ Hpath Eg], F as [_ Hin Hs Elv ->]. rewrite Hn. cbn [option_map ro_status].
    assert (WFL ctr (t_layers tr) (dangling q s)) as Wd
      by (unfold dangling; rewrite Elv; exact (WF_store_layers _ _ W0 Hn)).
    destruct (rm_steps_run ctr q _ root s Wd Eg Hin) as (ls2 & ret2 & S2 & W' & R). rewrite Hs in S2, R.
    destruct (rm_steps_fun _ _ _ _ _ _ _ S S2) as [-> _].
    split; [exact W'|]. split; [reflexivity|].
    apply (abs_del_eq ctr ctr tr {| t_layers := ls2; t_null := false |} k W0 W' Hb).
    + apply (R _ [] (proj1 (path_vp k Hb))). exact Hpath.
    + intros k' Hb' Hne. rewrite (lookup_layers tr k' Hn). apply (R _ [] (proj1 (path_vp k' Hb'))). right.
      cbn [mk9s map app]. rewrite <- Hpath. intros X. apply Hne. apply path_inj; assumption.
Qed.

Theorem remove_refines ctr tr k : WF_store ctr tr -> bytes k ->
  exists tr' ro,
    remove tr k = Some (tr', ro) /\ WF_store ctr tr' /\
    if t_null tr then ro_status ro = St_OK_ROOT_IS_NULL /\ tr' = tr
    else match smap_get (abs_tree tr) k with
         | Some _ => ro_status ro = St_OK /\ abs_tree tr' = smap_del (abs_tree tr) k
         | None => ro_status ro = St_OK_NOT_FOUND /\ abs_tree tr' = abs_tree tr
         end.
Proof.
  intros W Hb. destruct (remove_runs ctr tr k W Hb) as (tr' & ro & E & St).
  exists tr', ro. split; [exact E|exact (remove_sound _ _ _ _ _ W Hb St)].
Qed.

(** ** put and remove edit the layer list
    What the root of a layer can become: by a put, the root with one value overwritten or with one
    entry inserted; by a [layer_remove], the root that [bt_delete] leaves (flagged as root when a
    border has taken the place of an interior root), or, for the last entry of the store, the emptied
    root border of the layer [[]], flagged deleted. *)
Inductive put_root : prefix -> bt -> bt -> Prop :=
| pr_over p root t l rk slot s v :
    WF_layer root -> find_leaf root t = Some l -> leaf_lookup l t = Some (rk, slot, s) -> In s (bt_elems root) ->
    put_root p root (overwrite root t slot s v)
| pr_ins p root t lv ctr root' info c1 :
    WF_layer root -> kt_wf t = true -> ~ In t (bt_keys root) -> entry_ok (mk t lv) ->
    (forall i, In i (bt_ids root) -> i < ctr) ->
    layer_put root t lv ctr = Some (root', info, c1) -> put_root p root root'.

Inductive rm_root : prefix -> bt -> bt -> Prop :=
| rr_kept p root t root' ret :
    bt_delete (S (bt_height root)) root t = Some (DKept root', ret) ->
    rm_root p root (if N.eqb (bt_id root') (bt_id root) then root' else set_root_flag root' true)
| rr_emptied l t rank slot s :
    leaf_lookup l t = Some (rank, slot, s) -> leaf_cnk l = 1 ->
    rm_root [] (BLeaf l)
      (BLeaf (leaf_with (leaf_delete l rank slot) (set_deleted (lf_ver (leaf_delete l rank slot)) true)
                        (lf_perm (leaf_delete l rank slot)) (lf_slots (leaf_delete l rank slot)))).

(** An edit replaces the root of one layer by a [next] one or deletes a layer other than [[]].  A
    property [Q] of single layers that [next] keeps is kept by an edit, in two readings: of every
    listed layer ([lw]) and of the layer [[]] alone ([at_root]).  The predicates of the scans come in
    both forms ([seps_ok] and [live_all] speak of every pair in the list, [live_ok] of
    [layer_get ls []]), and their remove theorems assume nothing that would make the list free of
    duplicates, so neither reading gives the other. *)
Section Edits.
  Variable next : prefix -> bt -> bt -> Prop.

  Inductive edit : layers_t -> layers_t -> Prop :=
  | ed_set ls p r r' : layer_get ls p = Some r -> next p r r' -> edit ls (layer_set ls p r')
  | ed_del ls p : p <> [] -> edit ls (layer_del ls p).

  Inductive edits : layers_t -> layers_t -> Prop :=
  | eds_refl ls : edits ls ls
  | eds_step ls l1 l2 : edits ls l1 -> edit l1 l2 -> edits ls l2.

  Variable Q : prefix -> bt -> Prop.
  Hypothesis Qfresh : forall p c t lv, Q p (BLeaf (single_leaf c t lv)).
  Hypothesis Qnext : forall p r r', next p r r' -> Q p r -> Q p r'.

  Definition lw (ls : layers_t) : Prop := forall p r, In (p, r) ls -> Q p r.
  Definition at_root (ls : layers_t) : Prop := forall r, layer_get ls [] = Some r -> Q [] r.

  Lemma lw_chain_of v ts p c : lw (chain_of p ts v c).
  Proof. intros q r Hin. destruct (chain_of_in v _ _ _ _ _ Hin) as (_ & c' & t & lv & _ & ->). apply Qfresh. Qed.

  Lemma lw_app a b : lw a -> lw b -> lw (a ++ b).
  Proof. intros Ha Hb p r Hin. apply in_app_or in Hin. destruct Hin as [Hin|Hin]; [exact (Ha _ _ Hin)|exact (Hb _ _ Hin)]. Qed.

  Lemma at_root_chain_of v ts c : at_root (chain_of [] ts v c).
  Proof. intros r Eg. exact (lw_chain_of v ts [] c _ _ (layer_get_in _ _ _ Eg)). Qed.

  Lemma at_root_below ls v ts q x c : at_root ls -> at_root (ls ++ chain_of (q ++ [x]) ts v c).
  Proof.
    intros H r Eg. rewrite layer_get_app in Eg.
    destruct (layer_get ls []) as [r1|] eqn:E1; [injection Eg as <-; exact (H _ E1)|].
    apply layer_get_in in Eg. destruct (chain_of_in v _ _ _ _ _ Eg) as (e & _ & _ & _ & X & _).
    destruct q; discriminate X.
  Qed.

  Lemma edit_lw ls ls' : edit ls ls' -> lw ls -> lw ls'.
  Proof.
    intros [l0 p r r' Eg Hn|l0 p _] H q0 r0 Hin; [|exact (H _ _ (in_layer_del _ _ _ _ Hin))].
    apply in_layer_set in Hin. destruct Hin as [[-> ->]|Hin]; [|exact (H _ _ Hin)].
    exact (Qnext p r r' Hn (H _ _ (layer_get_in _ _ _ Eg))).
  Qed.

  Lemma edit_at_root ls ls' : edit ls ls' -> at_root ls -> at_root ls'.
  Proof.
    intros [l0 p r r' Eg Hn|l0 p Hp] H r0 Eg0; [|rewrite layer_get_del_other in Eg0 by exact Hp; exact (H _ Eg0)].
    destruct p as [|y p]; [|rewrite layer_get_set_other in Eg0 by discriminate; exact (H _ Eg0)].
    rewrite layer_get_set_same in Eg0. injection Eg0 as <-. exact (Qnext [] r r' Hn (H _ Eg)).
  Qed.

  Lemma edits_lw ls ls' : edits ls ls' -> lw ls -> lw ls'.
  Proof. induction 1 as [|ls l1 l2 _ IH E]; intros H; [exact H|exact (edit_lw _ _ E (IH H))]. Qed.

  Lemma edits_at_root ls ls' : edits ls ls' -> at_root ls -> at_root ls'.
  Proof. induction 1 as [|ls l1 l2 _ IH E]; intros H; [exact H|exact (edit_at_root _ _ E (IH H))]. Qed.
End Edits.

Arguments ed_set {next}.
Arguments ed_del {next}.
Arguments eds_refl {next}.
Arguments eds_step {next}.

Lemma layer_remove_edit ls p t ls' g ret : layer_remove ls p t = Some (ls', g, ret) -> edit rm_root ls ls'.
Proof.
  intros E. apply layer_remove_inv in E. destruct E as (root & Eg & [(root' & Ed & _ & ->)|[(_ & _ & Hp & ->)|
    (l & rank & slot & s & -> & -> & El & E1 & _ & _ & ->)]]).
  - exact (ed_set ls p root _ Eg (rr_kept p root t root' ret Ed)).
  - apply ed_del. exact Hp.
  - apply (ed_set ls [] (BLeaf l) _ Eg). exact (rr_emptied l t rank slot s El E1).
Qed.

Lemma rm_steps_edits ls p t ls' ret : rm_steps ls p t ls' ret -> forall l0, edits rm_root l0 ls -> edits rm_root l0 ls'.
Proof.
  induction 1 as [ls p t ls' ret E|ls up x t ls1 ret1 ls' ret E _ IH]; intros l0 H; [|apply IH];
    exact (eds_step _ _ _ H (layer_remove_edit _ _ _ _ _ _ E)).
Qed.

Theorem remove_edits tr k tr' o : remove tr k = Some (tr', o) -> edits rm_root (t_layers tr) (t_layers tr').
Proof.
  unfold remove. destruct (t_null tr); [intros H; injection H as <- _; apply eds_refl|].
  destruct (remove_walk _ [] (t_layers tr)) as [[ls' o']|] eqn:E; [|discriminate].
  intros H. injection H as <- _. cbn [t_layers].
  destruct (remove_walk_steps _ _ _ _ _ E) as [->|(q & t & S)]; [apply eds_refl|].
  exact (rm_steps_edits _ _ _ _ _ S _ (eds_refl _)).
Qed.

(** a put: nothing, or the first layers of a null tree, or one edit and fresh layers below it.
    Appending is not an [edit]: of a removal one wants to say that every border afterwards was there
    before, and edits keep that only as long as none of them adds a layer. *)
Theorem put_edit ctr tr k v unique tr' po ctr' : WF_store ctr tr -> bytes k ->
  put tr k v unique ctr = Some (tr', po, ctr') ->
  tr' = tr \/ t_layers tr' = chain_of [] (path_of_key k) v ctr \/
  exists l1 q x rest c, edit put_root (t_layers tr) l1 /\ t_layers tr' = l1 ++ chain_of (q ++ [x]) rest v c.
Proof.
  intros W Hb E.
  destruct (put_cases _ _ _ _ _ _ _ _ W Hb E)
    as [Hn|q root l t rk slot s ov _ L F|q root l t rk slot s ov _ L F|q root l t rest root' info c1 L A Hok Eput];
    [right; left; reflexivity|left; reflexivity|right; right..]; cbn [t_layers].
  - destruct L as [_ _ _ Eg Ef Hwl], F as [El Hin _ _ _].
    exists (layer_set (t_layers tr) q (overwrite root t slot s v)), q, 0, [], 0. rewrite app_nil_r. split; [|reflexivity].
    apply (ed_set _ q root _ Eg). exact (pr_over q root t l rk slot s v Hwl Ef El Hin).
  - destruct L as [_ _ _ Eg _ Hwl Hids Vl], A as [_ Hnin _]. eexists. exists q, (ks t), rest, c1. split; [|reflexivity].
    apply (ed_set _ q root root' Eg).
    exact (pr_ins q root t (tail_lv rest v) ctr root' info c1 Hwl (proj1 Vl) Hnin Hok Hids Eput).
Qed.

Section Layerwise.
  Variable Q : prefix -> bt -> Prop.
  Hypothesis Qfresh : forall p c t lv, Q p (BLeaf (single_leaf c t lv)).
  Hypothesis Qput : forall p r r', put_root p r r' -> Q p r -> Q p r'.
  Hypothesis Qrm : forall p r r', rm_root p r r' -> Q p r -> Q p r'.

  Theorem put_lw ctr tr k v unique tr' po ctr' : WF_store ctr tr -> bytes k ->
    put tr k v unique ctr = Some (tr', po, ctr') -> lw Q (t_layers tr) -> lw Q (t_layers tr').
  Proof.
    intros W Hb E H.
    destruct (put_edit _ _ _ _ _ _ _ _ W Hb E) as [->|[->|(l1 & q & x & rest & c & Ed & ->)]];
      [exact H|apply (lw_chain_of Q Qfresh)|].
    exact (lw_app Q _ _ (edit_lw _ Q Qput _ _ Ed H) (lw_chain_of Q Qfresh _ _ _ _)).
  Qed.

  Theorem remove_lw tr k tr' o : remove tr k = Some (tr', o) -> lw Q (t_layers tr) -> lw Q (t_layers tr').
  Proof. intros E. exact (edits_lw _ Q Qrm _ _ (remove_edits _ _ _ _ E)). Qed.

  Theorem put_at_root ctr tr k v unique tr' po ctr' : WF_store ctr tr -> bytes k ->
    put tr k v unique ctr = Some (tr', po, ctr') -> at_root Q (t_layers tr) -> at_root Q (t_layers tr').
  Proof.
    intros W Hb E H.
    destruct (put_edit _ _ _ _ _ _ _ _ W Hb E) as [->|[->|(l1 & q & x & rest & c & Ed & ->)]];
      [exact H|apply (at_root_chain_of Q Qfresh)|].
    exact (at_root_below Q _ _ _ _ _ _ (edit_at_root _ Q Qput _ _ Ed H)).
  Qed.

  Theorem remove_at_root tr k tr' o :
    remove tr k = Some (tr', o) -> at_root Q (t_layers tr) -> at_root Q (t_layers tr').
  Proof. intros E. exact (edits_at_root _ Q Qrm _ _ (remove_edits _ _ _ _ E)). Qed.
End Layerwise.

(** ** the initial trees *)
Theorem empty_tree_wf ctr id : id < ctr -> WF_store ctr (empty_tree id) /\ abs_tree (empty_tree id) = [].
Proof.
  intros Hid. destruct (empty_leaf_WF_layer id (v_fresh_border true)) as [Hwf Hel].
  set (root := BLeaf {| lf_id := id; lf_ver := v_fresh_border true; lf_perm := 0; lf_slots := fresh_slots |}) in *.
  split.
  - (* the missing top layer written with an empty border: no entry is set, whichever tuple is named *)
    assert (sets_entry 0 ctr [] [] (mk9 0) None root) as Hse.
    { constructor; [exact Hwf| | |lia].
      - intros t'. rewrite Hel. destruct (kt_eq (mk9 0) t'); reflexivity.
      - intros i [<-|[]]. split; [exact Hid|right; lia]. }
    apply (WFL_entry 0 ctr [] (Some []) [] (mk9 0) None root (WFL_nil 0) Hse); [left; reflexivity|].
    intros H. elim H. reflexivity.
  - unfold abs_tree, empty_tree. cbn [t_null t_layers length abs_layer layer_get prefix_eqb].
    fold root. rewrite Hel. reflexivity.
Qed.

Theorem null_tree_wf ctr : WF_store ctr null_tree /\ abs_tree null_tree = [].
Proof. split; [exact I|reflexivity]. Qed.

(** ** what the invariant says, in plain terms *)
Theorem WF_store_facts ctr tr : WF_store ctr tr -> t_null tr = false ->
  let ls := t_layers tr in
  NoDup (map fst ls) /\ layer_get ls [] <> None /\
  (forall p root, layer_get ls p = Some root ->
     WF_layer root /\ (forall i, In i (bt_ids root) -> i < ctr) /\ (length p < length ls)%nat) /\
  (forall p root s, layer_get ls p = Some root -> In s (bt_elems root) ->
     sl_lv s <> LEmpty /\
     (sl_lv s = LLink <-> kl (sl_key s) = 9 /\ layer_get ls (p ++ [ks (sl_key s)]) <> None)) /\
  (forall p x root, layer_get ls (p ++ [x]) = Some root ->
     bt_elems root <> [] /\ (forall s, In s (bt_elems root) -> kl (sl_key s) <> 0) /\
     exists r0, layer_get ls p = Some r0 /\ In {| sl_key := {| ks := x; kl := 9 |}; sl_lv := LLink |} (bt_elems r0)) /\
  (forall p q rp rq i, layer_get ls p = Some rp -> layer_get ls q = Some rq ->
     In i (bt_ids rp) -> In i (bt_ids rq) -> p = q).
Proof.
  intros W0 Hn. pose proof (WF_store_layers _ _ W0 Hn) as W. cbn zeta. pose proof (wl_layer _ _ _ W) as Hwf.
  split; [exact (wl_nodup _ _ _ W)|]. split; [exact (wl_exc _ _ _ W)|]. split.
  { intros p root E. split; [exact (Hwf p root E)|]. split; [intros i; exact (wl_ids _ _ _ W p root i E)|].
    apply (layer_depth ctr _ None p W). rewrite E. discriminate. }
  split.
  { intros p root s E Hin. destruct (layer_entry_ok _ Hwf p root s E Hin) as [_ Hok].
    destruct (entry_kind ctr _ p root s W E Hin) as [_ K9]. split; [intros X; rewrite X in Hok; exact Hok|]. split.
    - intros Hl. rewrite Hl in Hok. split; [exact Hok|exact (proj2 (K9 Hok))].
    - intros [H9 _]. exact (proj1 (K9 H9)). }
  split.
  { intros p x root E. destruct (wl_parent _ _ _ W p x root E) as (Hne & r0 & E0 & Hin0).
    split; [exact Hne|]. split; [intros s; exact (wl_nz _ _ _ W p x root s E)|].
    exists r0. split; [exact E0|exact Hin0]. }
  exact (wl_disj _ _ _ W).
Qed.

Corollary abs_tree_keys_NoDup ctr tr : WF_store ctr tr -> NoDup (map fst (abs_tree tr)).
Proof.
  intros W. apply (StronglySorted_NoDup (fun a b => lex_lt a b = true)).
  - intros a H. rewrite lex_lt_irrefl in H. discriminate.
  - apply StronglySorted_map_iff. exact (abs_tree_sorted ctr tr W).
Qed.

(** ** sanity: the hypotheses are satisfiable on a three-layer store, and the
    conclusions are what the executable model computes *)
Module StoreExample.
  Definition val (i : N) : value := {| v_id := 100 + i; v_bytes := [i]; v_align := 8; v_inline := false |}.
  Definition k17 : key := [1;2;3;4;5;6;7;8;1;2;3;4;5;6;7;8;9].
  Definition k9 : key := [1;2;3;4;5;6;7;8;9].
  Definition k8 : key := [1;2;3;4;5;6;7;8].
  Definition k0 : key := [].
  Fixpoint puts (tr : tree) (ctr : N) (ks : list key) : option (tree * N) :=
    match ks with
    | [] => Some (tr, ctr)
    | k :: r => match put tr k (val (N.of_nat (length k))) false ctr with
                | Some (tr', _, c') => puts tr' c' r
                | None => None
                end
    end.

  (* the hypothesis has the form of the preservation theorems for [put] of the later files
     ([put_scan_inv], [put_iscan_inv]), which are passed as they stand *)
  Lemma puts_preserve (P : tree -> Prop) :
    (forall ctr tr k v unique tr' po ctr',
       WF_store ctr tr -> bytes k -> put tr k v unique ctr = Some (tr', po, ctr') -> P tr -> P tr') ->
    forall ks tr ctr, WF_store ctr tr -> P tr -> Forall bytes ks ->
    exists tr' ctr', puts tr ctr ks = Some (tr', ctr') /\ WF_store ctr' tr' /\ P tr'.
  Proof.
    intros HP. induction ks as [|k r IH]; intros tr ctr W Hi Hb; [exists tr, ctr; split; [reflexivity|split; assumption]|].
    apply Forall_cons_iff in Hb. destruct Hb as [Hk Hr].
    destruct (put_refines ctr tr k (val (N.of_nat (length k))) false W Hk) as (tr' & po & c' & E & W' & _).
    cbn [puts]. rewrite E. apply IH; [exact W'| |exact Hr].
    exact (HP ctr tr k _ false tr' po c' W Hk E Hi).
  Qed.

  Lemma puts_wf ks tr ctr : WF_store ctr tr -> Forall bytes ks ->
    exists tr' ctr', puts tr ctr ks = Some (tr', ctr') /\ WF_store ctr' tr'.
  Proof.
    intros W Hb.
    destruct (puts_preserve (fun _ => True) (fun _ _ _ _ _ _ _ _ _ _ _ _ => I) ks tr ctr W I Hb)
      as (tr' & c' & E & W' & _).
    exists tr', c'. split; assumption.
  Qed.

  Definition ex_tree : tree :=
    match puts (empty_tree 1) 2 [k17; k9; k8; k0] with Some (t, _) => t | None => null_tree end.

  Example ex_shape : length (t_layers ex_tree) = 3%nat /\
    map fst (abs_tree ex_tree) = [k0; k8; k17; k9].
  Proof. vm_compute. split; reflexivity. Qed.

  Example ex_wf : exists ctr, WF_store ctr ex_tree.
  Proof.
    destruct (puts_wf [k17; k9; k8; k0] (empty_tree 1) 2) as (tr' & c' & E & W).
    - apply empty_tree_wf. lia.
    - apply keys_bytes. reflexivity.
    - exists c'. unfold ex_tree. rewrite E. exact W.
  Qed.

  (* removing the long key cascades: the third layer vanishes and its link in the second is deleted;
     the second layer keeps the entry of [k9] *)
  Example ex_remove :
    match remove ex_tree k17 with
    | Some (t, ro) => (length (t_layers t), ro_status ro, map fst (abs_tree t))
    | None => (0%nat, St_ERR_FATAL, [])
    end = (2%nat, St_OK, [k0; k8; k9]).
  Proof. vm_compute. reflexivity. Qed.
End StoreExample.

Print Assumptions path_of_key_facts.
Print Assumptions path_inj.
Print Assumptions abs_tree_in.
Print Assumptions abs_tree_sorted.
Print Assumptions get_refines.
Print Assumptions put_refines.
Print Assumptions remove_refines.
Print Assumptions empty_tree_wf.
Print Assumptions null_tree_wf.
Print Assumptions WF_store_facts.
Print Assumptions layer_get_set_same.
Print Assumptions layer_get_set_other.
Print Assumptions layer_get_del_same.
Print Assumptions layer_get_del_other.
