(** * LockOrderProofs: an ordered acquisition discipline admits no deadlock *)
From Yk Require Import LockOrderDefs.

Lemma orderedb_spec rank t : orderedb rank t = true <-> ordered rank t.
Proof.
  unfold orderedb, ordered. destruct (waits t) as [l|]; [|tauto].
  rewrite forallb_forall, Forall_forall. split; intros H x Hx.
  - apply Nat.ltb_lt. apply H. exact Hx.
  - apply Nat.ltb_lt. apply H. exact Hx.
Qed.

Lemma max_waiter rank (ts : list lthread) :
  ts <> [] ->
  (exists t, In t ts /\ waits t = None) \/
  (exists t l, In t ts /\ waits t = Some l /\
     forall t' l', In t' ts -> waits t' = Some l' -> rank l' <= rank l).
Proof.
  induction ts as [|a ts IH]; intros Hne; [congruence|].
  destruct (waits a) as [la|] eqn:Ea; [|left; exists a; split; [left; reflexivity|exact Ea]].
  destruct ts as [|b ts'].
  - right. exists a, la. split; [left; reflexivity|]. split; [exact Ea|].
    intros t' l' [<-|[]] Hw. rewrite Ea in Hw. injection Hw as <-. apply le_n.
  - destruct IH as [(t & Hin & Hw)|(t & l & Hin & Hw & Hmax)]; [discriminate| |].
    + left. exists t. split; [right; exact Hin|exact Hw].
    + right. destruct (Nat.le_gt_cases (rank la) (rank l)) as [Hle|Hgt].
      * exists t, l. split; [right; exact Hin|]. split; [exact Hw|].
        intros t' l' [<-|Hin'] Hw'.
        -- rewrite Ea in Hw'. injection Hw' as <-. exact Hle.
        -- apply (Hmax t' l' Hin' Hw').
      * exists a, la. split; [left; reflexivity|]. split; [exact Ea|].
        intros t' l' [<-|Hin'] Hw'.
        -- rewrite Ea in Hw'. injection Hw' as <-. apply le_n.
        -- apply Nat.lt_le_incl, (Nat.le_lt_trans _ _ _ (Hmax t' l' Hin' Hw') Hgt).
Qed.

(** the holder of an awaited lock of maximal rank cannot itself be waiting, since it
    would wait for a lock of still higher rank *)
Theorem ordered_no_deadlock rank (ts : list lthread) :
  ts <> [] -> Forall (ordered rank) ts -> awaited_held ts ->
  exists t, In t ts /\ waits t = None.
Proof.
  intros Hne Hord Hheld.
  destruct (max_waiter rank ts Hne) as [H|(t & l & Hin & Hw & Hmax)]; [exact H|].
  destruct (Hheld t l Hin Hw) as (t' & Hin' & Hl). exists t'. split; [exact Hin'|].
  destruct (waits t') as [l'|] eqn:Ew'; [exfalso|reflexivity].
  rewrite Forall_forall in Hord. pose proof (Hord t' Hin') as Ho.
  unfold ordered in Ho. rewrite Ew' in Ho. rewrite Forall_forall in Ho.
  apply (Nat.lt_irrefl (rank l)), (Nat.lt_le_trans _ _ _ (Ho l Hl) (Hmax t' l' Hin' Ew')).
Qed.
