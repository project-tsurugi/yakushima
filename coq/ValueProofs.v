(** * ValueProofs: layout of out-of-line value blocks and tagging of slot
    words (include/value.h, include/link_or_value.h). *)
From Coq Require Import NArith Lia Bool.
From Yk Require Import Word64 Nibble ValueDefs.
Local Open Scope N_scope.

(** ** setting, testing and clearing one flag bit [2 ^ k] *)

Lemma land_pow2_clear p k : N.testbit p k = false -> N.land p (2 ^ k) = 0.
Proof.
  intros Hp. apply N.bits_inj. intros n. rewrite N.land_spec, N.pow2_bits_eqb, N.bits_0.
  destruct (N.eqb_spec k n) as [<-|]; [rewrite Hp; reflexivity|apply andb_false_r].
Qed.

Lemma land_lor_absorb p f : N.land (N.lor p f) f = f.
Proof.
  apply N.bits_inj. intros n. rewrite N.land_spec, N.lor_spec.
  destruct (N.testbit p n), (N.testbit f n); reflexivity.
Qed.

Lemma land_lor_not64 p f : N.land (N.lor p f) (not64 f) = N.land p (not64 f).
Proof.
  apply N.bits_inj. intros n. rewrite !N.land_spec, N.lor_spec, testbit_not64.
  destruct (N.testbit p n), (N.testbit f n); reflexivity.
Qed.

Lemma land_not64_pow2 w k : w < w64 -> N.testbit w k = false -> N.land w (not64 (2 ^ k)) = w.
Proof.
  intros Hw Hk. apply N.bits_inj. intros n. rewrite N.land_spec, testbit_not64, N.pow2_bits_eqb.
  destruct (N.eqb_spec k n) as [<-|]; [rewrite Hk; reflexivity|].
  destruct (N.ltb_spec n 64); [apply andb_true_r|].
  rewrite (testbit_small w 64) by assumption. reflexivity.
Qed.

(** ** the two tag bits; pointers and inline words are below [2 ^ 62] *)

Lemma vpf_pow : kValPtrFlag = 2 ^ 62.
Proof. reflexivity. Qed.

Lemma cf_pow : kChildFlag = 2 ^ 63.
Proof. reflexivity. Qed.

Lemma pow62_lt_63 : 2 ^ 62 < 2 ^ 63.
Proof. reflexivity. Qed.

Lemma pow62_lt_64 : 2 ^ 62 < 2 ^ 64.
Proof. reflexivity. Qed.

Lemma small62_lt64 w : w < 2 ^ 62 -> w < w64.
Proof. intros Hw. exact (N.lt_trans _ _ _ Hw pow62_lt_64). Qed.

Lemma small62_bit w n : w < 2 ^ 62 -> 62 <= n -> N.testbit w n = false.
Proof. apply testbit_small. Qed.

Lemma land_small_vpf w : w < 2 ^ 62 -> N.land w kValPtrFlag = 0.
Proof. intros Hw. rewrite vpf_pow. apply land_pow2_clear, small62_bit; [exact Hw|lia]. Qed.

Lemma land_small_cf w : w < 2 ^ 62 -> N.land w kChildFlag = 0.
Proof. intros Hw. rewrite cf_pow. apply land_pow2_clear, small62_bit; [exact Hw|lia]. Qed.

(** ** value pointers *)

Lemma remove_ptr_flag_small w : w < 2 ^ 62 -> remove_ptr_flag w = w.
Proof.
  intros Hw. unfold remove_ptr_flag. rewrite vpf_pow.
  apply land_not64_pow2; [apply small62_lt64; exact Hw|apply small62_bit; [exact Hw|lia]].
Qed.

Lemma remove_tag_value_ptr p : p < 2 ^ 62 -> remove_ptr_flag (tag_value_ptr p) = p.
Proof.
  intros Hp. unfold remove_ptr_flag, tag_value_ptr. rewrite land_lor_not64.
  apply remove_ptr_flag_small. exact Hp.
Qed.

Lemma is_value_ptr_tag p : is_value_ptr (tag_value_ptr p) = true.
Proof. unfold is_value_ptr, tag_value_ptr. rewrite land_lor_absorb. reflexivity. Qed.

Lemma tag_value_ptr_child_bit p :
  p < 2 ^ 62 -> N.land (tag_value_ptr p) kChildFlag = 0.
Proof.
  intros Hp. rewrite cf_pow. apply land_pow2_clear. unfold tag_value_ptr.
  rewrite N.lor_spec, (small62_bit p 63) by (assumption || lia). reflexivity.
Qed.

Lemma tag_value_ptr_neq_init p :
  p < 2 ^ 62 -> p <> 0 -> tag_value_ptr p <> kValPtrFlag.
Proof.
  intros Hp Hz E. apply Hz.
  rewrite <- (remove_tag_value_ptr p Hp), E. reflexivity.
Qed.

Lemma tag_value_ptr_neq_0 p : tag_value_ptr p <> 0.
Proof.
  intros E. pose proof (is_value_ptr_tag p) as H. rewrite E in H. discriminate H.
Qed.

Lemma lv_get_value_tag p :
  p < 2 ^ 62 -> p <> 0 -> lv_get_value (tag_value_ptr p) = Some (tag_value_ptr p).
Proof.
  intros Hp Hz. unfold lv_get_value.
  rewrite (tag_value_ptr_child_bit p Hp).
  destruct (N.eqb_spec (tag_value_ptr p) kValPtrFlag) as [E|E].
  - exfalso. exact (tag_value_ptr_neq_init p Hp Hz E).
  - destruct (N.eqb_spec (tag_value_ptr p) 0) as [E0|E0].
    + exfalso. exact (tag_value_ptr_neq_0 p E0).
    + reflexivity.
Qed.

Lemma lv_get_next_layer_tag p :
  p < 2 ^ 62 -> lv_get_next_layer (tag_value_ptr p) = None.
Proof.
  intros Hp. unfold lv_get_next_layer.
  rewrite (tag_value_ptr_child_bit p Hp). reflexivity.
Qed.

(** ** child links *)

Lemma child_strip p : p < 2 ^ 62 -> N.land (tag_child_ptr p) (not64 kChildFlag) = p.
Proof.
  intros Hp. unfold tag_child_ptr. rewrite land_lor_not64, cf_pow.
  apply land_not64_pow2; [apply small62_lt64; exact Hp|apply small62_bit; [exact Hp|lia]].
Qed.

Lemma lv_get_next_layer_child p :
  p < 2 ^ 62 -> lv_get_next_layer (tag_child_ptr p) = Some p.
Proof.
  intros Hp. unfold lv_get_next_layer.
  rewrite (child_strip p Hp).
  unfold tag_child_ptr. rewrite land_lor_absorb. reflexivity.
Qed.

Lemma lv_get_value_child p : lv_get_value (tag_child_ptr p) = None.
Proof.
  unfold lv_get_value, tag_child_ptr. rewrite land_lor_absorb. reflexivity.
Qed.

(** reinterpret_cast<value*>(0) is nullptr *)
Lemma lv_get_value_zero : lv_get_value 0 = None.
Proof. vm_compute. reflexivity. Qed.

Lemma lv_init_empty : lv_get_value lv_init = None /\ lv_get_next_layer lv_init = None.
Proof. split; vm_compute; reflexivity. Qed.

(** ** inline words *)

Lemma value_is_inline_small w : w < 2 ^ 62 -> value_is_inline w = true.
Proof. intros Hw. unfold value_is_inline. rewrite (remove_ptr_flag_small w Hw). apply N.eqb_refl. Qed.

Lemma is_value_ptr_small w : w < 2 ^ 62 -> is_value_ptr w = false.
Proof. intros Hw. unfold is_value_ptr. rewrite (land_small_vpf w Hw). reflexivity. Qed.

Lemma lv_get_value_small w : w < 2 ^ 62 -> w <> 0 -> lv_get_value w = Some w.
Proof.
  intros Hw Hz. unfold lv_get_value. rewrite (land_small_cf w Hw).
  destruct (N.eqb_spec w kValPtrFlag) as [E|E].
  - exfalso. rewrite vpf_pow in E. lia.
  - destruct (N.eqb_spec w 0) as [E0|E0]; [contradiction|reflexivity].
Qed.

Lemma lv_get_next_layer_small w : w < 2 ^ 62 -> lv_get_next_layer w = None.
Proof. intros Hw. unfold lv_get_next_layer. rewrite (land_small_cf w Hw). reflexivity. Qed.

(** ** block layout

    4096 is the largest alignment the layout property is stated for (and the
    leaf driver runs); what the lemmas need is [max align 8 < 2 ^ 16], the width
    of the header field [value::align_]. *)

Definition pow2_align (align : N) : Prop := exists k, align = 2 ^ k /\ k <= 12.

Lemma pow2_align_bounds align : pow2_align align -> 1 <= align /\ align <= 4096.
Proof.
  intros (k & -> & Hk). split.
  - pose proof (N.pow_nonzero 2 k). lia.
  - change 4096 with (2 ^ 12). apply N.pow_le_mono_r; lia.
Qed.

Lemma pow2_align_max_multiple align :
  pow2_align align -> exists m, N.max align 8 = m * align.
Proof.
  intros (k & -> & Hk).
  destruct (N.le_gt_cases k 3) as [H|H].
  - exists (2 ^ (3 - k)).
    assert (2 ^ k <= 2 ^ 3) as Hle by (apply N.pow_le_mono_r; lia).
    rewrite <- N.pow_add_r. replace (3 - k + k) with 3 by lia.
    change (2 ^ 3) with 8 in *. lia.
  - exists 1.
    assert (2 ^ 3 < 2 ^ k) as Hlt by (apply N.pow_lt_mono_r; lia).
    change (2 ^ 3) with 8 in Hlt. lia.
Qed.

(** what the constructor computes when neither header field truncates *)
Lemma create_value_block_eq len align :
  len < 2 ^ 32 -> pow2_align align ->
  create_value_block len align =
  {| vb_alloc_size := len + N.max align 8;
     vb_alloc_align := N.max align 8;
     vb_hdr_len := len;
     vb_hdr_align := N.max align 8 |}.
Proof.
  intros Hl [H1 H2]%pow2_align_bounds. unfold create_value_block, kMinAlignment.
  assert ((if align <? 8 then 8 else align) = N.max align 8) as ->
    by (destruct (N.ltb_spec align 8); lia).
  assert (2 ^ 32 = 4294967296) as E32 by reflexivity.
  assert (2 ^ 16 = 65536) as E16 by reflexivity.
  rewrite E32 in *. rewrite E16.
  rewrite add64_small, !N.mod_small by (unfold w64; lia). reflexivity.
Qed.

(** the body starts [max align 8] bytes into the block *)
Lemma body_aligned align base :
  pow2_align align -> base mod N.max align 8 = 0 -> (base + N.max align 8) mod align = 0.
Proof.
  intros Hp Hb. destruct (pow2_align_bounds align Hp) as [H1 _].
  destruct (pow2_align_max_multiple align Hp) as [m Hm].
  apply N.mod_divide in Hb; [|lia]. destruct Hb as [q Hq].
  replace (base + N.max align 8) with ((q * m + m) * align) by (rewrite Hq, Hm; lia).
  apply N.mod_mul. lia.
Qed.
