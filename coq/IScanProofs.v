(** * IScanProofs: the cursor API (iscan_open / iscan_next), driven to its end, delivers exactly
    the entries of the interval, in the direction of the cursor ([iscan_refines_inv]: every argument record,
    every store reached by puts and removes).
    The model normalises an INF left end point to ([], INCL), which is the same interval; right to left
    the right end is the start and the left end the end; an INF right end is "no end" left to right (end
    tuple max() in every layer) and "start at max()" right to left, and its key is ignored.

    The proof is generic in the direction: [rtl] is a section variable, and tuples, keys and end points are
    compared in the direction of the cursor ([dlt], [dlex], [in_end], [in_start]).  The stack denotes a
    position in the in-order enumeration of the trie; [rems st] is what is still to come after it (per
    layer: the entries beyond the element's key, [pend], with everything under them).
    [ifindfirst_spec]: the descent leaves [rems] = the part of the enumeration on the right side of the
    start point.  The top element stands at a position in the border chain of its layer ([at_pos]; a descent
    with a key arrives at one, [pos_find]), and [iscan_findnext] moves it: along the chain to the first pending
    entry, which leaves [rems] as it is ([pos_next], [pos_skip]; [ifindnext_spec]); there it tests the end, then
    steps over the entry
    ([pos_step]) and returns its value, the head of [rems], or goes down through its link, where it stands
    at a pending entry again ([pos_child]; [ifindnext_hit]).  [inext_spec]: so one step delivers the head
    of [rems] if it is inside the end point and otherwise ends with everything left outside;
    [collect_spec]: induction on [rems]; fuel: [pos_cost_bound], [clayer_count]. *)
From Coq Require Import NArith PeanoNat Lia ZifyBool ZifyN Bool List Sorted.
From Yk Require Import ListAux KeyProofs SpecDefs IScanDefs LeafProofs LayerProofs
     StoreProofs ScanProofs.
Import ListNotations.
Local Open Scope N_scope.

(** ** the specification *)

Definition spec_iscan_list (m : smap) (a : iscan_args) : list (key * aval) :=
  let l := match ia_le a with EP_INF => [] | _ => ia_l a end in
  let sel := filter (fun kv => in_left l (ia_le a) (fst kv) && in_right (ia_r a) (ia_re a) (fst kv)) m in
  if ia_rtl a then rev sel else sel.

(** ** validation: the argument checks of the cursor are those of scan() without the
    right-to-left restriction *)
Definition iscan_to_scan (a : iscan_args) : scan_args :=
  {| sa_l := ia_l a; sa_le := ia_le a; sa_r := ia_r a; sa_re := ia_re a; sa_max := 0%nat; sa_rtl := false;
     sa_lnull := ia_lnull a; sa_rnull := ia_rnull a |}.

Lemma iscan_validate_scan a : iscan_validate a = scan_validate (iscan_to_scan a).
Proof.
  unfold iscan_validate, scan_validate, iscan_to_scan. cbn [sa_l sa_le sa_r sa_re sa_max sa_rtl sa_lnull sa_rnull].
  destruct ((ia_lnull a && negb (Nat.eqb (length (ia_l a)) 0)) || (ia_rnull a && negb (Nat.eqb (length (ia_r a)) 0)));
    [reflexivity|].
  destruct (check_empty_scan_range (ia_l a) (ia_le a) (ia_r a) (ia_re a)); reflexivity.
Qed.

Theorem iscan_validate_spec a :
  (iscan_validate a = None <-> spec_scan_args_ok (iscan_to_scan a) = true) /\
  (spec_scan_args_ok (iscan_to_scan a) = false -> iscan_validate a = Some St_ERR_BAD_USAGE) /\
  (forall s, iscan_validate a = Some s -> s = St_ERR_BAD_USAGE).
Proof.
  rewrite iscan_validate_scan. destruct (scan_validate_spec (iscan_to_scan a)) as [V1 V2].
  split; [exact V1|]. split; [exact V2|].
  intros s E. destruct (spec_scan_args_ok (iscan_to_scan a)) eqn:Eok.
  - rewrite (proj2 V1 eq_refl) in E. discriminate.
  - rewrite (V2 eq_refl) in E. injection E as <-. reflexivity.
Qed.

Lemma lex_le_false l r : lex_lt l r || key_eqb l r = true -> lex_lt r l = false.
Proof.
  intros H. apply orb_true_iff in H. destruct H as [H|H]; [apply lex_lt_asym; exact H|].
  apply key_eqb_eq in H. rewrite H. apply lex_lt_irrefl.
Qed.

Lemma iscan_validate_none a :
  iscan_validate a = None ->
  let l := match ia_le a with EP_INF => [] | _ => ia_l a end in
  (ia_re a <> EP_INF -> lex_lt (ia_r a) l = false) /\
  (ia_le a <> EP_EXCL -> in_right (ia_r a) (ia_re a) l = true) /\
  (ia_re a = EP_INCL -> in_left l (ia_le a) (ia_r a) = true).
Proof.
  intros V l. unfold iscan_validate in V.
  destruct ((ia_lnull a && negb (Nat.eqb (length (ia_l a)) 0)) || (ia_rnull a && negb (Nat.eqb (length (ia_r a)) 0)));
    [discriminate|].
  rewrite check_empty_spec in V.
  match type of V with (match (if ?c then _ else _) with _ => _ end) = _ => destruct c eqn:C; [|discriminate] end.
  clear V. subst l.
  destruct (ia_re a) eqn:Ere; [| |split; [intros H; contradiction|split; [reflexivity|discriminate]]];
    (destruct (ia_le a) eqn:Ele;
     [| |(* no left end *)
         cbn [in_left in_right]; rewrite lex_lt_nil_r; split; [reflexivity|split; [intros _|reflexivity]]]).
  - (* ( l, r ) *) cbn in C. rewrite andb_false_r, orb_false_r in C.
    split; [intros _; apply lex_lt_asym; exact C|split; [intros H; contradiction|discriminate]].
  - (* [ l, r ) *) cbn in C. rewrite andb_false_r, orb_false_r in C.
    split; [intros _; apply lex_lt_asym; exact C|split; [intros _; exact C|discriminate]].
  - (* ( -inf, r ): [r] is not the empty key *)
    cbn in C. destruct (ia_r a); [discriminate C|reflexivity].
  - (* ( l, r ] *) cbn in C. rewrite andb_true_r, andb_false_r, orb_false_r in C.
    split; [intros _; apply lex_lt_asym; exact C|split; [intros H; contradiction|intros _; exact C]].
  - (* [ l, r ] *) cbn in C. rewrite !andb_true_r in C. pose proof (lex_le_false _ _ C) as Hle.
    cbn [in_left in_right]. rewrite Hle. split; [intros _; reflexivity|split; reflexivity].
  - (* ( -inf, r ] *) reflexivity.
Qed.

(** ** the special tuples of the cursor: [kt_min], [kt_max], [kt_sup] of IScanDefs *)
Lemma kt_lt_min x : kt_lt kt_min x = negb (kl x =? 0).
Proof. unfold kt_lt, kt_min. cbn [kl ks]. destruct (kl x =? 0); reflexivity. Qed.

Lemma kt_lt_sup x : kt_wf x = true -> kt_lt x kt_sup = true.
Proof.
  intros Hw. apply kt_wf_spec in Hw. destruct Hw as (H9 & H64 & _).
  unfold kt_lt, kt_sup. cbn [kl ks]. change (10 =? 0) with false. cbv iota.
  destruct (N.eqb_spec (kl x) 0) as [E|E]; [reflexivity|].
  unfold memcmp_tuple. cbn [ks kl].
  destruct (N.leb_spec (N.min (kl x) 10) 8) as [L|L].
  - pose proof (memcmp_max_r (ks x) (N.min (kl x) 10) H64) as M.
    destruct (memcmp_slice (ks x) 18446744073709551615 (N.min (kl x) 10)); [reflexivity| |contradiction].
    apply N.ltb_lt. lia.
  - pose proof (memcmp_max_r (ks x) 8 H64) as M.
    destruct (memcmp_slice (ks x) 18446744073709551615 8); [reflexivity| |contradiction].
    pose proof (cmpN_spec (kl x) 10) as C. destruct (cmpN (kl x) 10); [reflexivity|lia|lia].
Qed.

Lemma route_probe_sup s : kt_wf s = true -> route_probe kt_sup s = false.
Proof.
  intros Hw. apply kt_wf_spec in Hw. destruct Hw as (H9 & H64 & _).
  unfold route_probe, kt_sup. cbv zeta. cbn [ks kl].
  pose proof (memcmp_max_l (ks s) (N.min (N.min 10 (kl s)) 8) H64) as M.
  destruct (memcmp_slice 18446744073709551615 (ks s) (N.min (N.min 10 (kl s)) 8)); [contradiction| |reflexivity].
  apply N.ltb_ge. lia.
Qed.

Lemma kt_min_wf : kt_wf kt_min = true. Proof. reflexivity. Qed.
Lemma kt_max_wf : kt_wf kt_max = true. Proof. reflexivity. Qed.

(** ** the border chain: [leaf_by_id], [neighbour] *)
Lemma leaf_by_id_spec : forall L lf, NoDup (map lf_id L) -> In lf L -> leaf_by_id L (lf_id lf) = Some lf.
Proof.
  induction L as [|a L IH]; intros lf Hnd Hin; [destruct Hin|].
  cbn [leaf_by_id]. cbn [map] in Hnd. apply NoDup_cons_iff in Hnd. destruct Hnd as [Ha Hnd].
  destruct (N.eqb_spec (lf_id a) (lf_id lf)) as [E|E].
  - destruct Hin as [->|Hin]; [reflexivity|]. exfalso. apply Ha. rewrite E. apply in_map. exact Hin.
  - destruct Hin as [->|Hin]; [contradiction|]. apply IH; assumption.
Qed.

Lemma neighbour_split : forall A lf B prev r, NoDup (map lf_id (A ++ lf :: B)) ->
  neighbour (A ++ lf :: B) (lf_id lf) prev r =
  if r then match rev A with [] => prev | x :: _ => Some x end else hd_error B.
Proof.
  induction A as [|a A IH]; intros lf B prev r Hnd; cbn [app neighbour].
  - rewrite N.eqb_refl. destruct r, B; reflexivity.
  - cbn [app map] in Hnd. apply NoDup_cons_iff in Hnd. destruct Hnd as [Ha Hnd].
    destruct (N.eqb_spec (lf_id a) (lf_id lf)) as [E|E].
    { exfalso. apply Ha. rewrite E. apply in_map, in_elt. }
    rewrite (IH lf B (Some a) r Hnd). cbn [rev]. destruct r, (rev A); reflexivity.
Qed.

(** ** order, slot lists and the descent, in the direction of the cursor *)
Section Dir.
  Variable rtl : bool.

  (* [dl] and [dlt] are [ListAux.in_dir rtl] and [KeyBytes.dir_lt rtl] written out: equal by conversion, so that
     what is proved of those holds of these *)
  Definition dl {A} (l : list A) : list A := if rtl then rev l else l.
  Definition dlt (a b : ktuple) : bool := if rtl then canon_lt b a else canon_lt a b.
  Definition hitb (last kt : ktuple) : bool := if rtl then kt_gt last kt else kt_lt last kt.
  (* the key of a stack element is a tuple that a node can hold, or, right to left, [kt_sup], the key with
     which a layer is entered through a link: above every such tuple and not [kt_wf] (its [kl] is 10) *)
  Definition last_ok (last : ktuple) : Prop := kt_wf last = true \/ (rtl = true /\ last = kt_sup).
  Definition ents_dir (lf : leaf) : list (N * slot_t) := dl (leaf_ranked lf).

  Lemma dl_in {A} (l : list A) x : In x (dl l) <-> In x l.
  Proof. exact (in_dir_In rtl l x). Qed.
  Lemma dl_split_in {A} (l : list A) a x b : dl l = a ++ x :: b -> In x l.
  Proof. intros E. apply dl_in. rewrite E. apply in_elt. Qed.
  Lemma dl_length {A} (l : list A) : length (dl l) = length l.
  Proof. exact (in_dir_length rtl l). Qed.
  Lemma dl_map {A B} (f : A -> B) l : map f (dl l) = dl (map f l).
  Proof. exact (in_dir_map rtl f l). Qed.
  Lemma dl_nil {A} : dl (@nil A) = []. Proof. exact (in_dir_nil rtl). Qed.
  Lemma dl_flat_map {A B} (g : A -> list B) l : flat_map (fun x => dl (g x)) (dl l) = dl (flat_map g l).
  Proof. exact (in_dir_flat_map rtl g l). Qed.
  Lemma dl_eq_nil {A} (l : list A) : dl l = [] <-> l = [].
  Proof. exact (in_dir_eq_nil rtl l). Qed.
  Lemma dl_NoDup {A} (l : list A) : NoDup l -> NoDup (dl l).
  Proof. exact (in_dir_NoDup rtl l). Qed.
  Lemma dl_Forall {A} (P : A -> Prop) l : Forall P l -> Forall P (dl l).
  Proof. exact (in_dir_Forall rtl P l). Qed.
  Lemma dl_list_sum {A} (g : A -> nat) l : list_sum (map g (dl l)) = list_sum (map g l).
  Proof. exact (in_dir_list_sum rtl g l). Qed.

  Lemma dlt_irrefl a : dlt a a = false.
  Proof. exact (dir_lt_irrefl rtl a). Qed.
  Lemma dlt_trans a b c : dlt a b = true -> dlt b c = true -> dlt a c = true.
  Proof. exact (dir_lt_trans rtl a b c). Qed.
  Lemma dlt_asym a b : dlt a b = true -> dlt b a = false.
  Proof. exact (dir_lt_asym rtl a b). Qed.
  Lemma dlt_trich a b : dlt a b = false -> dlt b a = false -> a = b.
  Proof. exact (dir_lt_trich rtl a b). Qed.
  Lemma dlt_cases a b : dlt a b = true \/ a = b \/ dlt b a = true.
  Proof. exact (dir_lt_cases rtl a b). Qed.
  Lemma dlt_neq a b : dlt a b = true -> a <> b.
  Proof. exact (dir_lt_neq rtl a b). Qed.
  Lemma dlt_total a b : a <> b -> dlt a b = negb (dlt b a).
  Proof. exact (dir_lt_total rtl a b). Qed.
  Lemma dlt_max x : rtl = false -> kt_wf x = true -> dlt kt_max x = false.
  Proof. intros E Hx. unfold dlt. rewrite E. apply canon_lt_max. exact Hx. Qed.

  (** *** keys and end points in the direction of the cursor *)
  Definition dlex : key -> key -> bool := dir_lex rtl.
  Definition in_end (K : key) (ep : endpoint) (k : key) : bool :=
    match ep with EP_INF => true | EP_INCL => negb (dlex K k) | EP_EXCL => dlex k K end.
  Definition in_start (S : key) (sp : endpoint) (k : key) : bool :=
    match sp with EP_INF => true | EP_INCL => negb (dlex k S) | EP_EXCL => dlex S k end.

  Lemma dlex_irrefl a : dlex a a = false.
  Proof. exact (dir_lex_irrefl rtl a). Qed.
  Lemma dlex_asym a b : dlex a b = true -> dlex b a = false.
  Proof. exact (dir_lex_asym rtl a b). Qed.
  Lemma dlex_app p a b : dlex (p ++ a) (p ++ b) = dlex a b.
  Proof. exact (dir_lex_app rtl p a b). Qed.

  Lemma dlex_tuple_short a b :
    bytes a -> bytes b -> (length a <= 8 \/ length b <= 8)%nat -> dlex a b = dlt (tuple_of_key a) (tuple_of_key b).
  Proof. exact (dir_lex_tuple_short rtl a b). Qed.
  Lemma dlex_tuple_neq a b :
    bytes a -> bytes b -> tuple_of_key a <> tuple_of_key b -> dlex a b = dlt (tuple_of_key a) (tuple_of_key b).
  Proof. exact (dir_lex_tuple_neq rtl a b). Qed.

  Lemma link_dlex t x y :
    kt_wf t = true -> kl t = 9 -> bytes x -> bytes y -> y <> [] ->
    (dlt t (tuple_of_key x) = true -> dlex (bytes_of_slice (ks t) 8 ++ y) x = true) /\
    (dlt (tuple_of_key x) t = true -> dlex x (bytes_of_slice (ks t) 8 ++ y) = true).
  Proof.
    intros Hw H9 Hx Hy Hne. pose proof (heads_link t y Hw H9 Hy Hne) as Hl. pose proof (heads_key x Hx) as Hh.
    split; [exact (dir_heads_lt rtl _ _ _ _ Hl Hh)|exact (dir_heads_lt rtl _ _ _ _ Hh Hl)].
  Qed.

  Lemma in_end_app pb K ep k : in_end (pb ++ K) ep (pb ++ k) = in_end K ep k.
  Proof. destruct ep; cbn [in_end]; rewrite ?dlex_app; reflexivity. Qed.
  Lemma in_end_beyond K ep k : ep <> EP_INF -> dlex K k = true -> in_end K ep k = false.
  Proof.
    intros Hep H. destruct ep; cbn [in_end]; [apply dlex_asym; exact H|rewrite H; reflexivity|contradiction].
  Qed.
  Lemma in_end_before K ep k : dlex k K = true -> in_end K ep k = true.
  Proof. intros H. destruct ep; cbn [in_end]; [exact H|rewrite (dlex_asym _ _ H)|]; reflexivity. Qed.
  Lemma in_start_app pb S sp k : in_start (pb ++ S) sp (pb ++ k) = in_start S sp k.
  Proof. destruct sp; cbn [in_start]; rewrite ?dlex_app; reflexivity. Qed.

  Lemma hitb_dlt a b : kt_wf a = true -> kt_wf b = true -> hitb a b = dlt a b.
  Proof. intros Ha Hb. unfold hitb, dlt. destruct rtl; [apply kt_gt_canon|apply kt_lt_canon]; assumption. Qed.

  Lemma hitb_sup x : rtl = true -> kt_wf x = true -> hitb kt_sup x = true.
  Proof. intros E Hx. unfold hitb. rewrite E. unfold kt_gt. apply kt_lt_sup. exact Hx. Qed.

  Lemma hitb_up last x y :
    last_ok last -> kt_wf x = true -> kt_wf y = true ->
    hitb last x = true -> dlt x y = true -> hitb last y = true.
  Proof.
    intros [Hl|[E ->]] Hx Hy H1 H2.
    - rewrite hitb_dlt in * by assumption. eapply dlt_trans; eassumption.
    - apply hitb_sup; assumption.
  Qed.

  (** *** slot lists in the direction of the cursor *)
  Definition dsorted (l : list slot_t) : Prop :=
    StronglySorted (fun a b => dlt (sl_key a) (sl_key b) = true) l.

  Lemma elems_dsorted lo hi root : WF_bt lo hi root -> dsorted (dl (bt_elems root)).
  Proof.
    intros Hwf. pose proof (WF_bt_elems_sorted lo hi root Hwf) as Hs.
    unfold dsorted, dl, dlt. destruct rtl; [|exact Hs].
    apply (StronglySorted_rev _ _ Hs).
  Qed.

  Lemma slots_dir root : map snd (flat_map ents_dir (dl (bt_leaves root))) = dl (bt_elems root).
  Proof.
    rewrite <- bt_leaves_elems. unfold ents_dir. rewrite dl_flat_map, dl_map. f_equal. apply map_flat_map.
  Qed.

  Lemma in_ents_dir (A : list leaf) x : In x (flat_map ents_dir A) -> In (snd x) (flat_map leaf_entries A).
  Proof.
    intros Hx. apply in_flat_map in Hx. destruct Hx as (lf & Hlf & Hx). apply in_flat_map. exists lf.
    split; [exact Hlf|]. apply in_map. exact (proj1 (dl_in _ _) Hx).
  Qed.

  Definition pend (root : bt) (last : ktuple) : list slot_t :=
    filter (fun s => hitb last (sl_key s)) (dl (bt_elems root)).

  Lemma pend_step_gen last : forall l s rest,
    last_ok last -> Forall (fun x => kt_wf (sl_key x) = true) l -> dsorted l ->
    filter (fun x => hitb last (sl_key x)) l = s :: rest ->
    filter (fun x => hitb (sl_key s) (sl_key x)) l = rest.
  Proof.
    induction l as [|a l IH]; intros s rest Hlast Hw Hs E; [discriminate|].
    apply Forall_cons_iff in Hw. destruct Hw as [Hwa Hw].
    apply StronglySorted_inv in Hs. destruct Hs as [Hs Hf]. rewrite Forall_forall in Hf, Hw.
    cbn [filter] in E |- *. destruct (hitb last (sl_key a)) eqn:Ha.
    - injection E as <- <-. rewrite hitb_dlt, dlt_irrefl by assumption.
      rewrite !filter_all; [reflexivity| |].
      + intros x Hx. apply (hitb_up last (sl_key a)); auto.
      + intros x Hx. rewrite hitb_dlt by auto. apply Hf. exact Hx.
    - assert (In s l) as Hin.
      { assert (In s (filter (fun x => hitb last (sl_key x)) l)) as X by (rewrite E; left; reflexivity).
        apply filter_In in X. apply X. }
      rewrite hitb_dlt by auto. rewrite (dlt_asym _ _ (Hf s Hin)).
      apply IH; try assumption. apply Forall_forall. exact Hw.
  Qed.

  Lemma pend_step lo hi root last s rest :
    WF_bt lo hi root -> last_ok last -> pend root last = s :: rest -> pend root (sl_key s) = rest.
  Proof.
    intros Hwf Hl E. unfold pend in *.
    eapply pend_step_gen; [exact Hl| |eapply elems_dsorted; exact Hwf|exact E].
    apply dl_Forall, Forall_forall. intros x. apply (elem_wf lo hi root x Hwf).
  Qed.

  Lemma pend_in root last s : In s (pend root last) -> In s (bt_elems root) /\ hitb last (sl_key s) = true.
  Proof. unfold pend. intros H. apply filter_In in H. destruct H as [H1 H2]. split; [exact (proj1 (dl_in _ _) H1)|exact H2]. Qed.

  (** *** the descent reaches the border where the key would be *)

  Lemma find_leaf_split_dir root k :
    WF_bt None None root -> kt_wf k = true ->
    exists lf A B,
      find_leaf root k = Some lf /\ dl (bt_leaves root) = A ++ lf :: B /\
      (forall s, In s (flat_map leaf_entries A) -> dlt (sl_key s) k = true).
  Proof.
    intros Hwf Hk.
    destruct (find_leaf_split root k Hwf Hk) as (lf & before & after & Ef & Elv & Hbefore & Hafter & _).
    exists lf, (dl (if rtl then after else before)), (dl (if rtl then before else after)).
    split; [exact Ef|]. split; [rewrite Elv; exact (in_dir_elt rtl before lf after)|].
    intros s Hs. apply in_flat_map in Hs. destruct Hs as (l0 & Hl0 & Hs). apply (proj1 (dl_in _ _)) in Hl0.
    unfold dlt. destruct rtl; [apply Hafter|apply Hbefore]; apply in_flat_map; exists l0; split; assumption.
  Qed.

  (* from [kt_sup] the descent goes to the last border, which is the first one right to left *)
  Lemma find_leaf_dir root k :
    WF_bt None None root -> last_ok k ->
    exists lf A B,
      find_leaf root k = Some lf /\ dl (bt_leaves root) = A ++ lf :: B /\
      (forall x, In x (flat_map ents_dir A) -> hitb k (sl_key (snd x)) = false).
  Proof.
    intros Hwf [Hk|[Ertl ->]].
    - destruct (find_leaf_split_dir root k Hwf Hk) as (lf & A & B & Ef & Edec & HA).
      exists lf, A, B. split; [exact Ef|]. split; [exact Edec|].
      intros x Hx. apply in_ents_dir in Hx. rewrite hitb_dlt; [apply dlt_asym, HA; exact Hx|exact Hk|].
      apply (elem_wf _ _ root _ Hwf). rewrite <- bt_leaves_elems.
      apply in_flat_map in Hx. destruct Hx as (l0 & Hl0 & Hx). apply in_flat_map. exists l0. split; [|exact Hx].
      apply dl_in. rewrite Edec. apply in_or_app. left. exact Hl0.
    - destruct (find_leaf_rightmost root kt_sup Hwf) as (lf & before & Ef & Elv);
        [intros sep _ Hw; exact (route_probe_sup sep Hw)|].
      exists lf, [], (rev before). split; [exact Ef|]. split; [|intros x []].
      unfold dl. rewrite Ertl, Elv, rev_app_distr. reflexivity.
  Qed.

  (** the descent into a layer found by a link: its first border in the direction of the cursor *)
  Definition child_kt : ktuple := if rtl then kt_sup else kt_min.

  Lemma last_ok_child : last_ok child_kt.
  Proof.
    unfold last_ok, child_kt. destruct rtl; [right; split; reflexivity|left; reflexivity].
  Qed.

  Lemma neighbour_dir L A lf B :
    NoDup (map lf_id L) -> dl L = A ++ lf :: B -> neighbour L (lf_id lf) None rtl = hd_error B.
  Proof.
    intros Hnd E. unfold dl in E. destruct rtl.
    - assert (L = rev B ++ lf :: rev A) as ->.
      { rewrite <- (rev_involutive L), E, rev_app_distr. cbn [rev]. rewrite <- app_assoc. reflexivity. }
      rewrite (neighbour_split _ _ _ None true Hnd), rev_involutive. destruct B; reflexivity.
    - subst L. apply (neighbour_split _ _ _ None false Hnd).
  Qed.
End Dir.

(** ** stack prefixes and full keys *)
Lemma stack_prefix_snoc st e : stack_prefix (st ++ [e]) = stack_prefix st ++ [ks (ie_key e)].
Proof. unfold stack_prefix. rewrite map_app. reflexivity. Qed.
Lemma full_key_snoc st e : full_key (st ++ [e]) = full_key st ++ bytes_of_slice (ks (ie_key e)) (kl (ie_key e)).
Proof. unfold full_key. rewrite flat_map_app. cbn [flat_map]. rewrite app_nil_r. reflexivity. Qed.
Lemma stack_prefix_length st : length (stack_prefix st) = length st.
Proof. apply map_length. Qed.

(** ** counting: a store holds at most [layers_entries] values *)
Lemma layers_entries_ge ls : forall p root, In (p, root) ls ->
  (length (flat_map leaf_ranked (bt_leaves root)) + length (bt_leaves root) + 2 * length ls <= layers_entries ls)%nat.
Proof.
  assert (forall l : layers_t, 2 * length l <= layers_entries l)%nat as G.
  { induction l as [|[q t] l IH]; cbn [layers_entries length]; lia. }
  induction ls as [|[q t] ls IH]; intros p root Hin; [destruct Hin|].
  cbn [layers_entries length]. destruct Hin as [E|Hin].
  - injection E as -> ->. specialize (G ls). lia.
  - specialize (IH p root Hin). lia.
Qed.

Definition all_addrs (l : layers_t) : list (prefix * ktuple) :=
  flat_map (fun qt => map (fun s => (fst qt, sl_key s)) (bt_elems (snd qt))) l.

Lemma all_addrs_length l : (length (all_addrs l) <= layers_entries l)%nat.
Proof.
  unfold all_addrs. induction l as [|[q t] l IH]; [cbn; lia|].
  cbn [flat_map layers_entries fst snd]. rewrite app_length, map_length.
  rewrite <- (bt_leaves_elems t).
  assert (forall L, length (flat_map leaf_entries L) = length (flat_map leaf_ranked L)) as E.
  { intros L. apply flat_map_length_eq. intros x _. rewrite leaf_entries_length, leaf_ranked_length. reflexivity. }
  rewrite E. lia.
Qed.

(** ** the cursor over a fixed store, direction and end point *)
Section Cursor.
  Variable ctr : N.
  Variable ls : layers_t.
  Hypothesis W : WFL ctr ls None.
  Variable rtl : bool.
  Variable K : key.
  Variable ep : endpoint.
  Hypothesis HK : bytes K.
  Hypothesis Hep : rtl = true -> ep <> EP_INF.

  (* The constants of Section Dir at the direction of this section.  The notations hide the constants'
     names: a proof that unfolds one of them names it in full ([unfold IScanProofs.dl]). *)
  Local Notation dl := (dl rtl).
  Local Notation dlt := (dlt rtl).
  Local Notation hitb := (hitb rtl).
  Local Notation last_ok := (last_ok rtl).
  Local Notation ents_dir := (ents_dir rtl).
  Local Notation pend := (pend rtl).
  Local Notation child_kt := (child_kt rtl).
  Local Notation in_end := (in_end rtl).

  (** The (layer, tuple) address of every value reachable from the layer at [p].  Every pair that [clayer]
      delivers has one ([addrs_length]); the addresses reached from one root are pairwise different
      ([addrs_NoDup]), and each is an entry of a listed layer ([all_addrs]), of which there are at most
      [layers_entries] ([clayer_count]). *)
  Fixpoint addrs (f : nat) (p : prefix) : list (prefix * ktuple) :=
    match f with
    | O => []
    | S f' =>
      match layer_get ls p with
      | None => []
      | Some root =>
        flat_map (fun s => match sl_lv s with
                           | LValue _ => [(p, sl_key s)]
                           | LLink => addrs f' (p ++ [ks (sl_key s)])
                           | LEmpty => []
                           end) (bt_elems root)
      end
    end.

  Lemma addrs_length : forall f p pb, length (clayer f ls p pb) = length (addrs f p).
  Proof.
    induction f as [|f IH]; intros p pb; [reflexivity|]. cbn [clayer addrs].
    destruct (layer_get ls p) as [root|]; [|reflexivity].
    apply flat_map_length_eq. intros s _. destruct (sl_lv s); [reflexivity|reflexivity|apply IH].
  Qed.

  Lemma addrs_in : forall f p q k, In (q, k) (addrs f p) ->
    (exists r, q = p ++ r) /\ exists root s, layer_get ls q = Some root /\ In s (bt_elems root) /\ sl_key s = k.
  Proof.
    induction f as [|f IH]; intros p q k H; [destruct H|]. cbn [addrs] in H.
    destruct (layer_get ls p) as [root|] eqn:Eg; [|destruct H].
    apply in_flat_map in H. destruct H as (s & Hs & H). destruct (sl_lv s) eqn:Elv; [destruct H| |].
    - destruct H as [H|[]]. injection H as <- <-. split; [exists []; rewrite app_nil_r; reflexivity|].
      exists root, s. repeat split; assumption.
    - apply IH in H. destruct H as [[r ->] H]. split; [|exact H]. exists (ks (sl_key s) :: r).
      rewrite <- app_assoc. reflexivity.
  Qed.

  Lemma addrs_NoDup : forall f p, NoDup (addrs f p).
  Proof.
    induction f as [|f IH]; intros p; [constructor|]. cbn [addrs].
    destruct (layer_get ls p) as [root|] eqn:Eg; [|constructor].
    destruct (wl_layer _ _ _ W p root Eg) as [Hwf _].
    pose proof (WF_bt_entries_ok _ _ _ Hwf) as Hok. rewrite Forall_forall in Hok.
    apply (NoDup_flat_map_key sl_key); [exact (WF_bt_keys_NoDup _ _ _ Hwf)| |].
    - intros a _. destruct (sl_lv a); [constructor|constructor; [intros []|constructor]|apply IH].
    - (* a value's address has prefix [p]; one under a link has a longer prefix, which continues with the link's slice *)
      assert (forall c q k, In c (bt_elems root) ->
                In (q, k) (match sl_lv c with LValue _ => [(p, sl_key c)] | LLink => addrs f (p ++ [ks (sl_key c)]) | LEmpty => [] end) ->
                (q = p ++ [] /\ k = sl_key c) \/ (kl (sl_key c) = 9 /\ exists r, q = p ++ ks (sl_key c) :: r)) as Hsh.
      { intros c q k Hc H. destruct (Hok c Hc) as [_ Hk]. destruct (sl_lv c); [destruct H| |].
        - destruct H as [H|[]]. injection H as <- <-. left. split; [symmetry; apply app_nil_r|reflexivity].
        - apply addrs_in in H. destruct H as [[r ->] _]. right. split; [exact Hk|]. exists r. rewrite <- app_assoc. reflexivity. }
      intros a b [q k] Ha Hb H1 H2.
      destruct (Hsh a q k Ha H1) as [[Q1 K1]|(L1 & r1 & Q1)], (Hsh b q k Hb H2) as [[Q2 K2]|(L2 & r2 & Q2)];
        rewrite Q1 in Q2; apply app_inv_head in Q2; [congruence|discriminate Q2|discriminate Q2|].
      injection Q2 as E _. apply ktuple_eq. split; [exact E|congruence].
  Qed.

  Lemma clayer_count f p pb : (length (clayer f ls p pb) <= layers_entries ls)%nat.
  Proof.
    rewrite addrs_length. eapply Nat.le_trans; [|apply (all_addrs_length ls)].
    apply NoDup_incl_length; [apply addrs_NoDup|].
    intros [q k] H. apply addrs_in in H. destruct H as (_ & root & s & Eg & Hs & <-).
    unfold all_addrs. apply in_flat_map. exists (q, root). split; [apply layer_get_in; exact Eg|].
    cbn [fst snd]. apply (in_map (fun s0 => (q, sl_key s0))). exact Hs.
  Qed.

  Definition mkc (st : list ielem) : ictx :=
    {| ic_end_key := K; ic_end_ep := ep; ic_rtl := rtl; ic_stack := st |}.
  Definition inr (k : key) : bool := if rtl then in_left K ep k else in_right K ep k.
  Definition endt (n : nat) : ktuple := end_tuple (mkc []) n.
  (* the layers that can still lie below depth [n]: a chain of links is shorter than [length ls] *)
  Definition lvl (n : nat) : nat := (length ls - n)%nat.

  Definition dcent (n : nat) (p : prefix) (pb : key) (s : slot_t) : list (key * value) :=
    dl (cent (lvl n) ls p pb s).
  Definition dlayer (n : nat) (p : prefix) (pb : key) : list (key * value) :=
    dl (clayer (S (lvl n)) ls p pb).

  Lemma dlayer_eq n p pb root :
    layer_get ls p = Some root -> dlayer n p pb = flat_map (dcent n p pb) (dl (bt_elems root)).
  Proof.
    intros Eg. unfold dlayer, dcent. rewrite clayer_S, Eg. symmetry. apply (dl_flat_map rtl).
  Qed.

  Lemma dcent_link n p pb s :
    sl_lv s = LLink -> (n < length ls)%nat ->
    dcent n p pb s = dlayer (S n) (p ++ [ks (sl_key s)]) (pb ++ bytes_of_slice (ks (sl_key s)) 8).
  Proof.
    intros E Hn. unfold dcent, dlayer, cent. rewrite E.
    replace (S (lvl (S n))) with (lvl n) by (unfold lvl; lia). reflexivity.
  Qed.

  Lemma dcent_value n p pb s v :
    sl_lv s = LValue v -> dcent n p pb s = [(pb ++ tbytes (sl_key s), v)].
  Proof. exact (cent_value rtl p pb ls (lvl n) s v). Qed.

  Lemma dcent_shape n p pb root s :
    layer_get ls p = Some root -> In s (bt_elems root) -> eok p pb ls (dcent n p pb) s.
  Proof.
    intros Eg Hin. pose proof (eok_all ctr ls W p pb (lvl n) root Eg) as Hok. rewrite Forall_forall in Hok.
    exact (eok_in_dir rtl p pb ls _ s (Hok s Hin)).
  Qed.

  Definition after (below : list ielem) (e : ielem) : list (key * value) :=
    match layer_get ls (stack_prefix below) with
    | None => []
    | Some root =>
      flat_map (dcent (length below) (stack_prefix below) (full_key below)) (pend root (ie_key e))
    end.

  Definition allff (p : prefix) : Prop := Forall (fun x => x = 18446744073709551615) p.

  (** what [compare_to_end == 0] means for the layer with byte prefix [pb] at depth [n].  Either there is no
      end (left to right only): the end tuple is then max() in every layer, and a layer below is entered with
      [compare_to_end == 0] through the link of that tuple only, whose slice is 0xff..ff, hence [allff p].  Or the
      end key runs through this layer, [K = pb ++ rest]; below layer 0 it was entered through the link that is
      the end tuple of the layer above, so bytes of [K] are left.  With [compare_to_end != 0] the layer lies
      wholly inside the end point (every key that continues [pb] does), so that no entry of it needs the end
      test *)
  Definition RI (n : nat) (p : prefix) (pb : key) (cmp0 : bool) : Prop :=
    if cmp0 then
      (rtl = false /\ ep = EP_INF /\ allff p) \/
      (ep <> EP_INF /\ exists rest, K = pb ++ rest /\ (n = 0%nat \/ rest <> []))
    else n <> 0%nat /\ forall x, bytes x -> x <> [] -> inr (pb ++ x) = true.

  Definition is_link (e : ielem) : Prop := kl (ie_key e) = 9 /\ kt_wf (ie_key e) = true.

  (* the position of the stack element [e] over the stack [below]: [A ++ lf :: B] is the border chain of its
     layer in the direction of the cursor, [lf] the border of [e], and no entry of [A] or before position
     [ie_rank e] of [lf] is beyond [ie_key e] *)
  Definition at_pos (below : list ielem) (e : ielem) (root : bt) (A : list leaf) (lf : leaf) (B : list leaf) : Prop :=
    layer_get ls (stack_prefix below) = Some root /\
    dl (bt_leaves root) = A ++ lf :: B /\ ie_leaf e = lf_id lf /\
    (forall x, In x (flat_map ents_dir A ++ firstn (ie_rank e) (ents_dir lf)) ->
               hitb (ie_key e) (sl_key (snd x)) = false) /\
    last_ok (ie_key e) /\
    RI (length below) (stack_prefix below) (full_key below) (ie_cmp0 e).

  (* [exists root A lf B, at_pos below e root A lf B], written out (the two are equal by conversion) *)
  Definition EOK (below : list ielem) (e : ielem) : Prop :=
    exists root A lf B,
      layer_get ls (stack_prefix below) = Some root /\
      dl (bt_leaves root) = A ++ lf :: B /\ ie_leaf e = lf_id lf /\
      (forall x, In x (flat_map ents_dir A ++ firstn (ie_rank e) (ents_dir lf)) ->
                 hitb (ie_key e) (sl_key (snd x)) = false) /\
      last_ok (ie_key e) /\
      RI (length below) (stack_prefix below) (full_key below) (ie_cmp0 e).

  Fixpoint sinvr (rs : list ielem) : Prop :=
    match rs with
    | [] => True
    | e :: brs => EOK (rev brs) e /\ Forall is_link brs /\ sinvr brs
    end.
  Definition sinv (st : list ielem) : Prop := sinvr (rev st).

  Fixpoint remsr (rs : list ielem) : list (key * value) :=
    match rs with
    | [] => []
    | e :: brs => after (rev brs) e ++ remsr brs
    end.
  Definition rems (st : list ielem) : list (key * value) := remsr (rev st).

  Lemma sinv_snoc below e : sinv (below ++ [e]) <-> EOK below e /\ Forall is_link below /\ sinv below.
  Proof.
    unfold sinv. rewrite rev_app_distr. cbn [rev app sinvr]. rewrite rev_involutive.
    split; intros (H1 & H2 & H3); (split; [exact H1|split; [|exact H3]]).
    - rewrite <- (rev_involutive below). apply Forall_rev. exact H2.
    - apply Forall_rev. exact H2.
  Qed.

  Lemma rems_snoc below e : rems (below ++ [e]) = after below e ++ rems below.
  Proof. unfold rems. rewrite rev_app_distr. cbn [rev app remsr]. rewrite rev_involutive. reflexivity. Qed.

  Lemma full_key_length st : Forall is_link st -> length (full_key st) = (8 * length st)%nat.
  Proof.
    induction st as [|e st IH] using rev_ind; intros H; [reflexivity|].
    apply Forall_app in H. destruct H as [H1 H2]. apply Forall_cons_iff in H2. destruct H2 as [[H9 _] _].
    rewrite full_key_snoc, !app_length, IH, bos_length, H9 by exact H1. cbn [length]. lia.
  Qed.

  Lemma push_link below e kt :
    ie_key e = kt -> kl kt = 9 -> kt_wf kt = true -> Forall is_link below ->
    stack_prefix (below ++ [e]) = stack_prefix below ++ [ks kt] /\
    full_key (below ++ [e]) = full_key below ++ bytes_of_slice (ks kt) 8 /\
    length (below ++ [e]) = S (length below) /\ Forall is_link (below ++ [e]).
  Proof.
    intros <- H9 Hw Hlk. split; [apply stack_prefix_snoc|]. split; [rewrite full_key_snoc, H9; reflexivity|].
    split; [rewrite app_length; apply Nat.add_1_r|].
    apply Forall_app. split; [exact Hlk|]. constructor; [split; assumption|constructor].
  Qed.

  Lemma full_key_bytes st : bytes (full_key st).
  Proof.
    induction st as [|e st IH]; [constructor|]. unfold full_key in *. cbn [flat_map].
    apply Forall_app. split; [apply bos_bytes|exact IH].
  Qed.

  Lemma depth_lt below root : layer_get ls (stack_prefix below) = Some root -> (length below < length ls)%nat.
  Proof.
    intros E. rewrite <- (stack_prefix_length below). apply (layer_depth ctr ls None _ W). rewrite E. discriminate.
  Qed.

  (** *** the decision of [iscan_findnext] on one entry *)
  Definition hitf (kt ekt : ktuple) : bool :=
    let incl := ep_eqb ep EP_INCL in
    if negb rtl
    then (if incl then negb (kt_gt kt ekt) else kt_lt kt ekt || (kt_eq kt ekt && (8 <? kl kt)))
    else (if incl then negb (kt_lt kt ekt) else kt_gt kt ekt || (kt_eq kt ekt && (8 <? kl kt))).

  Lemma idecide_eq st cmp0 last kt ekt :
    idecide (mkc st) cmp0 last kt ekt =
    if negb (hitb last kt) then D_SKIP
    else if negb cmp0 then D_HIT else if hitf kt ekt then D_HIT else D_RANGE_END.
  Proof. reflexivity. Qed.

  Lemma endt_wf n : kt_wf (endt n) = true.
  Proof.
    unfold endt, end_tuple. cbn [mkc ic_rtl ic_end_ep ic_end_key].
    destruct (negb rtl && ep_eqb ep EP_INF); [reflexivity|]. apply tuple_of_key_wf. apply bytes_skipn. exact HK.
  Qed.

  Lemma inr_in_end k : inr k = in_end K ep k.
  Proof. unfold inr, IScanProofs.in_end, IScanProofs.dlex, dir_lex. destruct rtl, ep; reflexivity. Qed.

  Lemma inr_app pb rest k : K = pb ++ rest -> inr (pb ++ k) = in_end rest ep k.
  Proof. intros E. rewrite inr_in_end, E. apply in_end_app. Qed.

  Lemma K_rest_bytes pb rest : K = pb ++ rest -> bytes rest.
  Proof. intros E. pose proof HK as H. rewrite E in H. apply Forall_app in H. apply H. Qed.

  Lemma RI_endt n p pb :
    RI n p pb true -> length pb = (8 * n)%nat ->
    (rtl = false /\ ep = EP_INF /\ allff p /\ endt n = kt_max) \/
    (ep <> EP_INF /\ exists rest, K = pb ++ rest /\ bytes rest /\ endt n = tuple_of_key rest /\
                                 (n = 0%nat \/ rest <> [])).
  Proof.
    intros HR Hl. cbn [RI] in HR. unfold endt, end_tuple. cbn [mkc ic_rtl ic_end_ep ic_end_key].
    destruct HR as [(Er & Ee & Hff)|(Hne & rest & EK & Hrne)].
    - left. rewrite Er, Ee. repeat split; assumption.
    - right. split; [exact Hne|]. exists rest. split; [exact EK|]. split; [exact (K_rest_bytes pb rest EK)|].
      split; [|exact Hrne].
      assert (ep_eqb ep EP_INF = false) as -> by (destruct ep; try reflexivity; contradiction).
      rewrite andb_false_r. rewrite EK, skipn_app, skipn_all2, Hl, Nat.sub_diag by lia. reflexivity.
  Qed.

  Lemma hitf_canon kt ekt :
    kt_wf kt = true -> kt_wf ekt = true ->
    hitf kt ekt = if ep_eqb ep EP_INCL then negb (dlt ekt kt) else dlt kt ekt || (kt_eq kt ekt && (8 <? kl kt)).
  Proof.
    intros H1 H2. unfold hitf, IScanProofs.dlt. cbv zeta. rewrite !kt_gt_canon, !kt_lt_canon by assumption.
    destruct rtl; reflexivity.
  Qed.

  Lemma dec_value n p pb kt :
    RI n p pb true -> length pb = (8 * n)%nat -> kt_wf kt = true -> kl kt <= 8 ->
    hitf kt (endt n) = inr (pb ++ tbytes kt).
  Proof.
    intros HR Hl Hw H8. rewrite (hitf_canon kt _ Hw (endt_wf n)).
    assert (8 <? kl kt = false) as -> by (clear - H8; lia). rewrite andb_false_r, orb_false_r.
    destruct (RI_endt n p pb HR Hl) as [(Er & Ee & _ & ->)|(Hne & rest & EK & Hrest & -> & _)].
    - rewrite inr_in_end, Ee. cbn [ep_eqb IScanProofs.in_end].
      destruct (dlt_cases rtl kt kt_max) as [H|[H|H]]; [exact H| |].
      + subst kt. exfalso. apply H8. reflexivity.
      + rewrite (dlt_max rtl kt Er Hw) in H. discriminate.
    - rewrite (inr_app pb rest _ EK).
      assert (length (tbytes kt) <= 8)%nat as Hlen by (pose proof (tbytes_length kt H8); lia).
      pose proof (dlex_tuple_short rtl (tbytes kt) rest (bos_bytes _ _) Hrest (or_introl Hlen)) as E1.
      pose proof (dlex_tuple_short rtl rest (tbytes kt) Hrest (bos_bytes _ _) (or_intror Hlen)) as E2.
      rewrite (tuple_of_tbytes kt Hw H8) in E1, E2.
      destruct ep; cbn [ep_eqb IScanProofs.in_end]; rewrite ?E1, ?E2; try reflexivity. contradiction.
  Qed.

  Lemma RI_false_ext n p pb s :
    RI n p pb false -> RI (S n) (p ++ [s]) (pb ++ bytes_of_slice s 8) false.
  Proof.
    intros [_ H]. split; [discriminate|]. intros x Hx Hne. rewrite <- app_assoc. apply H.
    - apply Forall_app. split; [apply bos_bytes|exact Hx].
    - intros E. apply app_eq_nil in E. destruct E as [_ E]. contradiction.
  Qed.

  Lemma dec_link n p pb kt :
    RI n p pb true -> length pb = (8 * n)%nat -> kt_wf kt = true -> kl kt = 9 ->
    (hitf kt (endt n) = false ->
       forall x, bytes x -> x <> [] -> inr (pb ++ bytes_of_slice (ks kt) 8 ++ x) = false) /\
    (hitf kt (endt n) = true ->
       RI (S n) (p ++ [ks kt]) (pb ++ bytes_of_slice (ks kt) 8) (kt_eq kt (endt n))).
  Proof.
    intros HR Hl Hw H9. rewrite (hitf_canon kt _ Hw (endt_wf n)), H9. change (8 <? 9) with true. rewrite andb_true_r.
    destruct (RI_endt n p pb HR Hl) as [(Er & Ee & Hff & ->)|(Hne & rest & EK & Hrest & -> & Hrne)].
    - rewrite Ee. cbn [ep_eqb]. destruct (dlt_cases rtl kt kt_max) as [H|[H|H]].
      + rewrite H, (kt_neq _ _ (dlt_neq rtl _ _ H)). split; [discriminate|]. intros _.
        split; [discriminate|]. intros x _ _. rewrite inr_in_end, Ee. reflexivity.
      + subst kt. rewrite kt_eq_refl, orb_true_r. split; [discriminate|]. intros _.
        left. split; [exact Er|]. split; [exact Ee|]. apply Forall_app. split; [exact Hff|].
        constructor; [reflexivity|constructor].
      + rewrite (dlt_max rtl kt Er Hw) in H. discriminate.
    - set (ekt := tuple_of_key rest).
      assert (forall x, inr (pb ++ bytes_of_slice (ks kt) 8 ++ x) = in_end rest ep (bytes_of_slice (ks kt) 8 ++ x))
        as Einr by (intros x; apply inr_app; exact EK).
      destruct (dlt_cases rtl kt ekt) as [H|[H|H]].
      + (* before the end tuple: everything under the link is inside *)
        rewrite H, (dlt_asym rtl _ _ H), (kt_neq _ _ (dlt_neq rtl _ _ H)). cbn [negb orb]. rewrite if_same.
        split; [discriminate|]. intros _. split; [discriminate|]. intros x Hx Hxne.
        rewrite <- app_assoc, Einr. apply in_end_before. apply (link_dlex rtl kt rest x Hw H9 Hrest Hx Hxne). exact H.
      + (* the end tuple: the end key continues in the layer below *)
        rewrite <- H, kt_eq_refl, dlt_irrefl. cbn [negb orb]. rewrite if_same.
        split; [discriminate|]. intros _. right. split; [exact Hne|].
        destruct (heads_link_shape kt rest H9 (conj Hrest (eq_sym H))) as (rest' & E' & Hb' & Hne').
        exists rest'. split; [rewrite EK, E', app_assoc; reflexivity|right; exact Hne'].
      + (* beyond the end tuple: everything under the link is outside *)
        rewrite H, (dlt_asym rtl _ _ H), kt_eq_sym, (kt_neq _ _ (dlt_neq rtl _ _ H)). cbn [negb orb]. rewrite if_same.
        split; [|discriminate]. intros _ x Hx Hxne. rewrite Einr.
        apply in_end_beyond; [exact Hne|]. apply (link_dlex rtl kt rest x Hw H9 Hrest Hx Hxne). exact H.
  Qed.

  Lemma hitf_mono kt kt' ekt :
    kt_wf kt = true -> kt_wf kt' = true -> kt_wf ekt = true ->
    hitf kt ekt = false -> dlt kt kt' = true -> hitf kt' ekt = false.
  Proof.
    intros H1 H2 H3. rewrite !hitf_canon by assumption. destruct (ep_eqb ep EP_INCL); intros Hf Hlt.
    - apply negb_false_iff in Hf. rewrite (dlt_trans rtl _ _ _ Hf Hlt). reflexivity.
    - apply orb_false_iff in Hf. destruct Hf as [Hf _].
      assert (dlt ekt kt' = true) as X.
      { destruct (dlt_cases rtl kt ekt) as [H|[H|H]]; [congruence|subst; exact Hlt|eapply dlt_trans; eassumption]. }
      rewrite (dlt_asym rtl _ _ X), kt_eq_sym, (kt_neq _ _ (dlt_neq rtl _ _ X)). reflexivity.
  Qed.

  Lemma slot_dead n p pb root s :
    layer_get ls p = Some root -> In s (bt_elems root) ->
    RI n p pb true -> length pb = (8 * n)%nat -> hitf (sl_key s) (endt n) = false ->
    forall kv, In kv (dcent n p pb s) -> inr (fst kv) = false.
  Proof.
    intros Eg Hin HR Hl Hf kv Hkv.
    destruct (dcent_shape n p pb root s Eg Hin) as ((Hw & Hlv) & _ & Hsh).
    destruct (sl_lv s) as [|v|] eqn:Elv; [contradiction| |].
    - rewrite (dcent_value n p pb s v Elv) in Hkv. destruct Hkv as [<-|[]]. cbn [fst].
      rewrite <- (dec_value n p pb (sl_key s) HR Hl Hw Hlv). exact Hf.
    - destruct (Hsh kv Hkv) as (x & E & Ht).
      destruct (heads_link_shape (sl_key s) x Hlv Ht) as (x' & -> & Hb' & Hne').
      rewrite E. apply (proj1 (dec_link n p pb (sl_key s) HR Hl Hw Hlv) Hf x' Hb' Hne').
  Qed.

  Lemma pend_dead n p pb root last s rest :
    layer_get ls p = Some root -> RI n p pb true -> length pb = (8 * n)%nat ->
    pend root last = s :: rest -> hitf (sl_key s) (endt n) = false ->
    forall kv, In kv (flat_map (dcent n p pb) (s :: rest)) -> inr (fst kv) = false.
  Proof.
    intros Eg HR Hl Ep Hf kv Hkv. destruct (wl_layer _ _ _ W p root Eg) as [Hwf _].
    apply in_flat_map in Hkv. destruct Hkv as (s' & Hs' & Hkv).
    assert (forall y, In y (s :: rest) -> In y (bt_elems root)) as Hin.
    { intros y Hy. rewrite <- Ep in Hy. apply (pend_in rtl) in Hy. apply Hy. }
    pose proof (fun y => elem_wf _ _ root y Hwf) as Hwy.
    apply (slot_dead n p pb root s' Eg (Hin s' Hs') HR Hl); [|exact Hkv].
    destruct Hs' as [<-|Hs']; [exact Hf|].
    apply (hitf_mono (sl_key s) (sl_key s') (endt n)); auto using endt_wf.
    - apply Hwy. apply Hin. left. reflexivity.
    - apply Hwy. apply Hin. right. exact Hs'.
    - pose proof (StronglySorted_filter _ (fun x => hitb last (sl_key x)) _ (elems_dsorted rtl _ _ root Hwf)) as S.
      fold (pend root last) in S. rewrite Ep in S. apply StronglySorted_inv in S. destruct S as [_ S].
      rewrite Forall_forall in S. apply S. exact Hs'.
  Qed.

  (** with [compare_to_end == 0] in a layer, everything that is still to come in the layers above
      it is beyond the end *)
  Lemma beyond : forall brs rest,
    Forall is_link brs -> sinvr brs -> ep <> EP_INF ->
    K = full_key (rev brs) ++ rest -> (brs <> [] -> rest <> []) ->
    forall kv, In kv (remsr brs) -> inr (fst kv) = false.
  (* The argument does not need [Hep].  In this section a proof takes it along with every [destruct rtl], and [lia]
     reads it (ZifyBool) whether it has to or not, so which hypotheses a proof term ends up holding is an
     accident of the scripts it rests on; they are named here so that the statement after the section does not
     depend on that. *)
  Proof using W HK Hep.
    induction brs as [|e brs IH]; intros rest Hlk Hs Hne EK Hrne kv Hkv; [destruct Hkv|].
    cbn [remsr] in Hkv. cbn [sinvr] in Hs. destruct Hs as (HE & _ & Hs).
    apply Forall_cons_iff in Hlk. destruct Hlk as [[H9 Hw] Hlk].
    cbn [rev] in EK. rewrite full_key_snoc, H9 in EK.
    change (bytes_of_slice (ks (ie_key e)) 9) with (bytes_of_slice (ks (ie_key e)) 8) in EK.
    rewrite <- app_assoc in EK.
    assert (rest <> []) as Hr by (apply Hrne; discriminate).
    pose proof (K_rest_bytes _ _ EK) as Hbr. apply Forall_app in Hbr. destruct Hbr as [_ Hbr].
    apply in_app_or in Hkv. destruct Hkv as [Hkv|Hkv].
    - unfold after in Hkv. destruct HE as (root & _ & _ & _ & Eg & _). rewrite Eg in Hkv.
      apply in_flat_map in Hkv. destruct Hkv as (s & Hs' & Hkv). apply (pend_in rtl) in Hs'. destruct Hs' as [Hin Hhit].
      destruct (dcent_shape (length (rev brs)) _ (full_key (rev brs)) root s Eg Hin) as ((Hws & _) & _ & Hsh).
      destruct (Hsh kv Hkv) as (x & E & [Hb Ht]).
      rewrite (hitb_dlt rtl _ _ Hw Hws), <- Ht in Hhit.
      rewrite E, (inr_app _ _ _ EK). apply in_end_beyond; [exact Hne|].
      apply (link_dlex rtl (ie_key e) x rest Hw H9 Hb Hbr Hr). exact Hhit.
    - apply (IH (bytes_of_slice (ks (ie_key e)) 8 ++ rest) Hlk Hs Hne EK); [|exact Hkv].
      intros _ X. apply app_eq_nil in X. destruct X as [_ X]. contradiction.
  Qed.

  Lemma beyond_inf : forall brs,
    rtl = false -> Forall is_link brs -> sinvr brs -> allff (stack_prefix (rev brs)) -> remsr brs = [].
  Proof.
    intros brs Er. induction brs as [|e brs IH]; intros Hlk Hs Hff; [reflexivity|].
    cbn [remsr]. cbn [sinvr] in Hs. destruct Hs as (HE & _ & Hs).
    apply Forall_cons_iff in Hlk. destruct Hlk as [[H9 Hw] Hlk].
    cbn [rev] in Hff. rewrite stack_prefix_snoc in Hff. apply Forall_app in Hff. destruct Hff as [Hff He].
    apply Forall_cons_iff in He. destruct He as [He _].
    rewrite (IH Hlk Hs Hff), app_nil_r.
    unfold after. destruct HE as (root & _ & _ & _ & Eg & _). rewrite Eg.
    assert (ie_key e = kt_max) as ->.
    { destruct (ie_key e) as [a b]. cbn [ks kl] in *. subst. reflexivity. }
    assert (pend root kt_max = []) as ->; [|reflexivity].
    destruct (wl_layer _ _ _ W _ root Eg) as [Hwf _].
    apply filter_nil_iff. intros s Hs'. apply (proj1 (dl_in rtl _ _)) in Hs'.
    pose proof (elem_wf _ _ root s Hwf Hs') as Hws.
    rewrite (hitb_dlt rtl _ _ kt_max_wf Hws). apply dlt_max; assumption.
  Qed.

  Lemma rems_dead below :
    Forall is_link below -> sinv below ->
    RI (length below) (stack_prefix below) (full_key below) true ->
    forall kv, In kv (rems below) -> inr (fst kv) = false.
  Proof.
    intros Hlk Hs HR kv Hkv. cbn [RI] in HR. destruct HR as [(Er & Ee & Hff)|(Hne & rest & EK & Hrne)].
    - unfold rems in Hkv. rewrite (beyond_inf (rev below) Er) in Hkv; [destruct Hkv|apply Forall_rev; exact Hlk|exact Hs|].
      rewrite rev_involutive. exact Hff.
    - apply (beyond (rev below) rest); try assumption.
      + apply Forall_rev. exact Hlk.
      + rewrite rev_involutive. exact EK.
      + intros Hnn. destruct Hrne as [H0|H]; [|exact H]. destruct below; [contradiction|discriminate].
  Qed.

  (** *** [iscan_findnext] *)
  Lemma set_top_mkc below top e : set_top (mkc (below ++ [top])) e = mkc (below ++ [e]).
  Proof. unfold set_top, set_stack, mkc. cbn [ic_stack ic_end_key ic_end_ep ic_rtl]. rewrite removelast_last. reflexivity. Qed.
  Lemma push_mkc st e : push_elem (mkc st) e = mkc (st ++ [e]).
  Proof. reflexivity. Qed.

  Definition stuck (cbs : list (N * N)) (c : ictx) : iout :=
    {| io_status := IS_STUCK; io_value := None; io_cbs := cbs; io_ctx := c |}.

  (** one unfolding, with the border [l] of the top element and its neighbour (the head of [B]) resolved *)
  Lemma ifindnext_at f below top root A l B cbs :
    layer_get ls (stack_prefix below) = Some root -> dl (bt_leaves root) = A ++ l :: B -> ie_leaf top = lf_id l ->
    ifindnext true (S f) ls (mkc (below ++ [top])) cbs =
    let c := mkc (below ++ [top]) in
    let p := stack_prefix below in
    let cmp0 := ie_cmp0 top in
    let last := ie_key top in
    let ekt := if cmp0 then endt (length below) else (if rtl then kt_min else kt_max) in
    let es := ents_dir l in
    let n := length es in
    let no_cb_at_end := (negb true || cmp0) && ep_eqb ep EP_INCL && kt_eq last ekt in
    if Nat.leb n (ie_rank top) then
      let cbs' := if no_cb_at_end then cbs else cbs ++ [(lf_id l, lf_ver l)] in
      match hd_error B with
      | None => {| io_status := (if cmp0 then IS_END else IS_CONT); io_value := None; io_cbs := cbs'; io_ctx := c |}
      | Some nb =>
        ifindnext true f ls (set_top c {| ie_key := last; ie_leaf := lf_id nb; ie_cmp0 := cmp0; ie_rank := 0 |}) cbs'
      end
    else
      match nth_error es (ie_rank top) with
      | None => stuck cbs c
      | Some (_, s) =>
        let kt := sl_key s in
        match idecide c cmp0 last kt ekt with
        | D_SKIP =>
          ifindnext true f ls (set_top c {| ie_key := last; ie_leaf := lf_id l; ie_cmp0 := cmp0;
                                            ie_rank := S (ie_rank top) |}) cbs
        | D_RANGE_END =>
          {| io_status := IS_END; io_value := None;
             io_cbs := (if no_cb_at_end then cbs else cbs ++ [(lf_id l, lf_ver l)]); io_ctx := c |}
        | D_HIT =>
          let cbs' := cbs ++ [(lf_id l, lf_ver l)] in
          let top' := {| ie_key := kt; ie_leaf := lf_id l; ie_cmp0 := cmp0; ie_rank := S (ie_rank top) |} in
          if 8 <? kl kt then
            match layer_get ls (p ++ [ks kt]) with
            | None => stuck cbs' c
            | Some croot =>
              match find_leaf croot child_kt with
              | None => stuck cbs' c
              | Some cl =>
                let cmp0' := cmp0 && kt_eq kt ekt in
                ifindnext true f ls (push_elem (set_top c top') {| ie_key := child_kt; ie_leaf := lf_id cl;
                                                                   ie_cmp0 := cmp0'; ie_rank := 0 |}) cbs'
              end
            end
          else
            match sl_lv s with
            | LValue v => {| io_status := IS_OK; io_value := Some v; io_cbs := cbs'; io_ctx := set_top c top' |}
            | _ => stuck cbs' c
            end
        end
      end.
  Proof.
    intros Eg Edec Eid. pose proof (VersionReportProofs.leaf_ids_NoDup root (proj2 (wl_layer _ _ _ W _ root Eg))) as Hnd.
    cbn [ifindnext]. change (ic_stack (mkc (below ++ [top]))) with (below ++ [top]).
    change (ic_rtl (mkc (below ++ [top]))) with rtl.
    rewrite rev_app_distr. cbn [rev app]. rewrite rev_involutive. cbv zeta.
    rewrite Eg, Eid, (leaf_by_id_spec _ l Hnd (dl_split_in rtl _ _ _ _ Edec)), (neighbour_dir rtl _ A l B Hnd Edec).
    reflexivity.
  Qed.

  Lemma pos_split root A lf B rank :
    dl (bt_leaves root) = A ++ lf :: B ->
    dl (bt_elems root) =
    map snd (flat_map ents_dir A ++ firstn rank (ents_dir lf)) ++
    map snd (skipn rank (ents_dir lf) ++ flat_map ents_dir B).
  Proof.
    intros E. rewrite <- (slots_dir rtl), E, flat_map_app. cbn [flat_map].
    rewrite <- (firstn_skipn rank (ents_dir lf)) at 1. rewrite <- !map_app, <- !app_assoc. reflexivity.
  Qed.

  Lemma after_eq below e root :
    layer_get ls (stack_prefix below) = Some root ->
    after below e = flat_map (dcent (length below) (stack_prefix below) (full_key below)) (pend root (ie_key e)).
  Proof. intros Eg. unfold after. rewrite Eg. reflexivity. Qed.

  Lemma pend_at below e root A lf B :
    at_pos below e root A lf B ->
    pend root (ie_key e) =
    filter (fun s => hitb (ie_key e) (sl_key s)) (map snd (skipn (ie_rank e) (ents_dir lf) ++ flat_map ents_dir B)).
  Proof.
    intros (_ & Edec & _ & Hpassed & _). unfold IScanProofs.pend.
    rewrite (pos_split root A lf B (ie_rank e) Edec), filter_app.
    rewrite (proj2 (filter_nil_iff (fun s => hitb (ie_key e) (sl_key s)) _)); [reflexivity|].
    intros s Hs0. apply in_map_iff in Hs0. destruct Hs0 as (x & <- & Hx). apply Hpassed. exact Hx.
  Qed.

  Lemma pend_child croot q x :
    layer_get ls (q ++ [x]) = Some croot -> pend croot child_kt = dl (bt_elems croot).
  Proof.
    intros Eg. destruct (wl_layer _ _ _ W _ croot Eg) as [Hwf _]. unfold IScanProofs.pend. apply filter_all.
    intros s Hs. apply (proj1 (dl_in rtl _ _)) in Hs. pose proof (elem_wf _ _ croot s Hwf Hs) as Hw.
    unfold IScanProofs.child_kt, IScanProofs.hitb. destruct rtl.
    - unfold kt_gt. apply kt_lt_sup. exact Hw.
    - rewrite kt_lt_min. pose proof (wl_nz _ _ _ W q x croot s Eg Hs) as Hnz. apply negb_true_iff. apply N.eqb_neq. exact Hnz.
  Qed.

  (* What [ifindnext] does to the top element, as moves of its position.  [after] depends on the key of
     the element only, and nothing before a position is pending.  So going on to the next border or past an
     entry that is not pending is free: the key stays, and with it [after].  The step past the first pending
     entry [s] makes [sl_key s] the key and replaces [pend] by its tail.  Going down through a link starts,
     at a pending entry, a position whose [after] is the whole layer under the link. *)
  Lemma pos_next below top root A lf nb B' :
    at_pos below top root A lf (nb :: B') -> (length (ents_dir lf) <= ie_rank top)%nat ->
    at_pos below {| ie_key := ie_key top; ie_leaf := lf_id nb; ie_cmp0 := ie_cmp0 top; ie_rank := 0 |}
           root (A ++ [lf]) nb B'.
  Proof.
    intros (Eg & Edec & _ & Hpassed & Hlast & HR) Hex. split; [exact Eg|].
    split; [rewrite Edec, <- app_assoc; reflexivity|]. split; [reflexivity|]. split; [|split; assumption].
    cbn [ie_key ie_rank firstn]. intros x Hx. apply Hpassed. rewrite firstn_all2 by exact Hex.
    rewrite app_nil_r, flat_map_app in Hx. cbn [flat_map] in Hx. rewrite app_nil_r in Hx. exact Hx.
  Qed.

  Lemma pos_skip below top root A lf B i s :
    at_pos below top root A lf B -> nth_error (ents_dir lf) (ie_rank top) = Some (i, s) ->
    hitb (ie_key top) (sl_key s) = false ->
    at_pos below {| ie_key := ie_key top; ie_leaf := lf_id lf; ie_cmp0 := ie_cmp0 top; ie_rank := S (ie_rank top) |}
           root A lf B.
  Proof.
    intros (Eg & Edec & _ & Hpassed & Hlast & HR) Enth Ehit. split; [exact Eg|]. split; [exact Edec|].
    split; [reflexivity|]. split; [|split; assumption].
    cbn [ie_key ie_rank]. rewrite (firstn_S_nth_error _ _ _ Enth), app_assoc.
    intros x Hx. apply in_app_or in Hx. destruct Hx as [Hx|[<-|[]]]; [apply Hpassed; exact Hx|exact Ehit].
  Qed.

  Lemma pos_step below top root A lf B i s :
    at_pos below top root A lf B -> nth_error (ents_dir lf) (ie_rank top) = Some (i, s) ->
    hitb (ie_key top) (sl_key s) = true ->
    In s (bt_elems root) /\
    at_pos below {| ie_key := sl_key s; ie_leaf := lf_id lf; ie_cmp0 := ie_cmp0 top; ie_rank := S (ie_rank top) |}
           root A lf B /\
    pend root (ie_key top) = s :: pend root (sl_key s).
  Proof.
    intros Hpos Enth Ehit. pose proof Hpos as (Eg & Edec & _ & Hpassed & Hlast & HR).
    destruct (wl_layer _ _ _ W _ root Eg) as [Hwf _].
    pose proof (pos_split root A lf B (ie_rank top) Edec) as Esplit.
    pose proof (skipn_nth_error _ _ _ Enth) as Esk. rewrite Esk in Esplit.
    assert (In s (bt_elems root)) as Hsin.
    { apply (dl_in rtl). rewrite Esplit. apply in_or_app. right. left. reflexivity. }
    pose proof (elem_wf _ _ root s Hwf Hsin) as Hws.
    pose proof (pend_at below top root A lf B Hpos) as Epend. rewrite Esk in Epend.
    cbn [app map filter snd] in Epend. rewrite Ehit in Epend.
    split; [exact Hsin|]. split.
    - split; [exact Eg|]. split; [exact Edec|]. split; [reflexivity|]. split; [|split; [left; exact Hws|exact HR]].
      (* the entries up to [s] are not beyond [sl_key s]: the layer is sorted *)
      cbn [ie_rank ie_key]. rewrite (firstn_S_nth_error _ _ _ Enth), app_assoc. intros x Hx.
      pose proof (elems_dsorted rtl _ _ root Hwf) as Hsorted. rewrite Esplit in Hsorted.
      apply StronglySorted_app_iff in Hsorted. destruct Hsorted as (_ & _ & Hcross).
      assert (kt_wf (sl_key (snd x)) = true) as Hwx.
      { apply (elem_wf _ _ root _ Hwf). apply (dl_in rtl). rewrite Esplit. apply in_app_or in Hx.
        destruct Hx as [Hx|[<-|[]]]; [apply in_or_app; left; apply in_map; exact Hx|].
        apply in_or_app. right. left. reflexivity. }
      rewrite (hitb_dlt rtl _ _ Hws Hwx).
      apply in_app_or in Hx. destruct Hx as [Hx|[<-|[]]]; [|apply dlt_irrefl].
      apply dlt_asym. apply Hcross; [apply in_map; exact Hx|left; reflexivity].
    - rewrite Epend. f_equal. symmetry. exact (pend_step rtl _ _ root _ s _ Hwf Hlast Epend).
  Qed.

  Lemma pos_find below root k cmp0 :
    layer_get ls (stack_prefix below) = Some root -> last_ok k ->
    RI (length below) (stack_prefix below) (full_key below) cmp0 ->
    exists lf A B, find_leaf root k = Some lf /\
      at_pos below {| ie_key := k; ie_leaf := lf_id lf; ie_cmp0 := cmp0; ie_rank := 0 |} root A lf B.
  Proof.
    intros Eg Hk HR. destruct (wl_layer _ _ _ W _ root Eg) as [Hwf _].
    destruct (find_leaf_dir rtl root k Hwf Hk) as (lf & A & B & Ef & Edec & Hpassed).
    exists lf, A, B. split; [exact Ef|]. split; [exact Eg|]. split; [exact Edec|]. split; [reflexivity|].
    split; [|split; [exact Hk|exact HR]]. cbn [ie_rank ie_key firstn]. rewrite app_nil_r. exact Hpassed.
  Qed.

  Lemma pos_child below q x croot cmp0 :
    stack_prefix below = q ++ [x] -> layer_get ls (stack_prefix below) = Some croot ->
    RI (length below) (stack_prefix below) (full_key below) cmp0 ->
    exists cl Ac Bc i s,
      find_leaf croot child_kt = Some cl /\
      let child := {| ie_key := child_kt; ie_leaf := lf_id cl; ie_cmp0 := cmp0; ie_rank := 0 |} in
      at_pos below child croot Ac cl Bc /\
      nth_error (ents_dir cl) 0 = Some (i, s) /\ hitb child_kt (sl_key s) = true /\
      after below child = dlayer (length below) (stack_prefix below) (full_key below).
  Proof.
    intros Ep Egc HR. pose proof Egc as Egq. rewrite Ep in Egq.
    destruct (wl_layer _ _ _ W _ croot Egc) as [Hwfc _]. destruct (wl_parent _ _ _ W _ _ croot Egq) as [Hcne _].
    destruct (pos_find below croot child_kt cmp0 Egc (last_ok_child rtl) HR) as (cl & Ac & Bc & Efc & Hposc).
    pose proof (proj1 (proj2 Hposc)) as Edecc.
    destruct (ents_dir cl) as [|[i s] es] eqn:Ecl.
    { exfalso. apply (bt_leaves_nonempty _ _ _ Hwfc Hcne cl (dl_split_in rtl _ _ _ _ Edecc)).
      apply leaf_entries_nil. exact (proj1 (dl_eq_nil rtl _) Ecl). }
    exists cl, Ac, Bc, i, s. split; [exact Efc|]. cbv zeta. split; [exact Hposc|]. split; [rewrite Ecl; reflexivity|split].
    - (* every entry of the layer is pending *)
      assert (In s (pend croot child_kt)) as Hs.
      { rewrite (pend_child croot q x Egq), <- (slots_dir rtl), Edecc. apply (in_map snd _ (i, s)).
        apply in_flat_map. exists cl. split; [apply in_elt|rewrite Ecl; left; reflexivity]. }
      apply (pend_in rtl) in Hs. apply Hs.
    - rewrite (after_eq below _ croot Egc). cbn [ie_key]. rewrite (pend_child croot q x Egq).
      symmetry. apply dlayer_eq. exact Egc.
  Qed.

  Lemma dcent_link_nonempty below pb s :
    sl_lv s = LLink -> layer_get ls (stack_prefix below ++ [ks (sl_key s)]) <> None -> (length below < length ls)%nat ->
    dcent (length below) (stack_prefix below) pb s <> [].
  Proof.
    intros Elv Egc Hdepth. rewrite (dcent_link _ _ pb s Elv Hdepth). unfold dlayer. intros X.
    apply (proj1 (dl_eq_nil rtl _)) in X. revert X. apply (clayer_nonempty ctr ls W); [exact Egc|destruct (stack_prefix below); discriminate|].
    rewrite app_length, stack_prefix_length. cbn [length]. unfold lvl. clear - Hdepth. lia.
  Qed.

  Definition out_ok (o : iout) (R : list (key * value)) : Prop :=
    match R with
    | [] => io_status o = IS_END
    | kv :: rest =>
      (io_status o = IS_END /\ forall kv', In kv' (kv :: rest) -> inr (fst kv') = false) \/
      (io_status o = IS_OK /\ io_value o = Some (snd kv) /\ inr (fst kv) = true /\
       exists st', io_ctx o = mkc st' /\ full_key st' = fst kv /\ sinv st' /\ st' <> [] /\ rems st' = rest)
    end.

  Definition fn_post (o : iout) (below : list ielem) (cmp0 : bool) (aft : list (key * value)) : Prop :=
    match aft with
    | [] => io_status o = (if cmp0 then IS_END else IS_CONT) /\ exists e', io_ctx o = mkc (below ++ [e'])
    | _ :: _ => out_ok o (aft ++ rems below)
    end.

  (* The fuel of [ifindnext] pays one unit per entry skipped, per border left and per link descended.
     [pos_cost]: what the rest of the border chain from position [rank] of [lf] costs; it pays for the
     walk to the first pending entry of the layer ([ifindnext_spec]).  At a pending entry the call ends,
     returns the value or goes down through the link, and after a descent it stands at a pending entry
     again ([pos_child]): from the first pending entry on it costs one unit per level, [lvl] at most,
     however long the chains of the layers below are ([ifindnext_hit]). *)
  Definition pos_cost (lf : leaf) (B : list leaf) (rank : nat) : nat :=
    (length (leaf_ranked lf) - rank) + 1 + list_sum (map (fun l => S (length (leaf_ranked l))) B).

  Lemma ifindnext_hit : forall fuel below top root A lf B cbs i s,
    sinv below -> Forall is_link below -> at_pos below top root A lf B ->
    nth_error (ents_dir lf) (ie_rank top) = Some (i, s) -> hitb (ie_key top) (sl_key s) = true ->
    (lvl (length below) <= fuel)%nat ->
    fn_post (ifindnext true fuel ls (mkc (below ++ [top])) cbs) below (ie_cmp0 top) (after below top).
  Proof.
    induction fuel as [|f IH]; intros below top root A lf B cbs i s Hs Hlk Hpos Enth Ehit Hfuel.
    { pose proof (depth_lt below root (proj1 Hpos)) as Hdepth. unfold lvl in Hfuel. clear - Hfuel Hdepth. lia. }
    pose proof Hpos as (Eg & Edec & Eid & _ & _ & HR).
    pose proof (depth_lt below root Eg) as Hdepth.
    pose proof (full_key_length below Hlk) as Hpbl.
    rewrite (ifindnext_at f below top root A lf B cbs Eg Edec Eid). cbv zeta.
    rewrite (proj2 (Nat.leb_gt _ _)) by (apply nth_error_Some; rewrite Enth; discriminate).
    rewrite Enth, idecide_eq, Ehit. cbn [negb].
    destruct (pos_step below top root A lf B i s Hpos Enth Ehit) as (Hsin & Hpos' & Epend1).
    set (top' := {| ie_key := sl_key s; ie_leaf := lf_id lf; ie_cmp0 := ie_cmp0 top; ie_rank := S (ie_rank top) |}) in *.
    set (n := length below) in *. set (p := stack_prefix below) in *. set (pb := full_key below) in *.
    destruct (dcent_shape n p pb root s Eg Hsin) as ((Hws & Hlv) & Hlayer & _).
    destruct (ie_cmp0 top && negb (hitf (sl_key s) (endt n))) eqn:Eend.
    { (* beyond the end *)
      apply andb_true_iff in Eend. destruct Eend as [Ec Eh]. apply negb_true_iff in Eh.
      rewrite Ec in *. cbn [negb]. rewrite Eh.
      assert (forall kv', In kv' (after below top ++ rems below) -> inr (fst kv') = false) as Hdead.
      { intros kv' Hkv'. apply in_app_or in Hkv'. destruct Hkv' as [Hkv'|Hkv'].
        - rewrite (after_eq below top root Eg), Epend1 in Hkv'.
          exact (pend_dead n p pb root (ie_key top) s _ Eg HR Hpbl Epend1 Eh kv' Hkv').
        - apply (rems_dead below Hlk Hs HR). exact Hkv'. }
      destruct (after below top) as [|kv rest]; cbn [fn_post app out_ok io_status io_ctx].
      - split; [reflexivity|]. exists top. reflexivity.
      - left. split; [reflexivity|exact Hdead]. }
    assert ((if negb (ie_cmp0 top) then D_HIT
             else if hitf (sl_key s) (if ie_cmp0 top then endt n else if rtl then kt_min else kt_max)
                  then D_HIT else D_RANGE_END) = D_HIT) as ->.
    { destruct (ie_cmp0 top); cbn [negb andb] in *; [|reflexivity]. apply negb_false_iff in Eend. rewrite Eend. reflexivity. }
    assert (sinv (below ++ [top'])) as Hs'
      by (apply sinv_snoc; split; [exists root, A, lf, B; exact Hpos'|split; assumption]).
    rewrite (after_eq below top root Eg), Epend1. cbn [flat_map].
    change (pend root (sl_key s)) with (pend root (ie_key top')). rewrite <- (after_eq below top' root Eg).
    fold n p pb.
    destruct (sl_lv s) as [|v|] eqn:Elv; [contradiction| |].
    + (* a value: delivered *)
      assert (8 <? kl (sl_key s) = false) as -> by (clear - Hlv; lia).
      rewrite set_top_mkc. fold top'. rewrite (dcent_value n p pb s v Elv). cbn [app fn_post out_ok io_status io_value io_ctx fst snd].
      right. split; [reflexivity|]. split; [reflexivity|]. split.
      * destruct (ie_cmp0 top) eqn:Ec; cbn [andb] in Eend.
        -- apply negb_false_iff in Eend. rewrite <- (dec_value n p pb (sl_key s) HR Hpbl Hws Hlv). exact Eend.
        -- destruct HR as [Hn0 HR]. apply HR; [apply bos_bytes|].
           apply tbytes_not_nil. destruct below as [|b0 below'] using rev_ind; [contradiction|].
           unfold p in Eg. rewrite stack_prefix_snoc in Eg. exact (wl_nz _ _ _ W _ _ root s Eg Hsin).
      * exists (below ++ [top']). split; [reflexivity|]. split; [rewrite full_key_snoc; reflexivity|].
        split; [exact Hs'|]. split; [intros X; apply app_eq_nil in X; destruct X as [_ X]; discriminate|].
        apply rems_snoc.
    + (* a link: the layer below *)
      rewrite Hlv. change (8 <? 9) with true. cbv iota.
      assert (dcent n p pb s <> []) as Hnn by (apply dcent_link_nonempty; [exact Elv|exact (Hlayer eq_refl)|exact Hdepth]).
      destruct (layer_get ls (p ++ [ks (sl_key s)])) as [croot|] eqn:Egc; [|exfalso; exact (Hlayer eq_refl eq_refl)].
      set (cmp0' := ie_cmp0 top && kt_eq (sl_key s) (if ie_cmp0 top then endt n else if rtl then kt_min else kt_max)).
      destruct (push_link below top' (sl_key s) eq_refl Hlv Hws Hlk) as (Ep' & Epb' & En' & Hlk').
      fold p pb n in Ep', Epb', En'.
      assert (RI (length (below ++ [top'])) (stack_prefix (below ++ [top'])) (full_key (below ++ [top'])) cmp0') as HR'.
      { rewrite Ep', Epb', En'. unfold cmp0'. destruct (ie_cmp0 top) eqn:Ec; cbn [andb] in *.
        - apply negb_false_iff in Eend. apply (proj2 (dec_link n p pb (sl_key s) HR Hpbl Hws Hlv) Eend).
        - apply RI_false_ext. exact HR. }
      rewrite <- Ep' in Egc.
      destruct (pos_child (below ++ [top']) p _ croot cmp0' Ep' Egc HR')
        as (cl & Ac & Bc & ic & sc & Efc & Hposc & Enthc & Ehitc & Eafterc).
      rewrite Efc, set_top_mkc, push_mkc. fold top' cmp0'.
      assert (lvl (length (below ++ [top'])) <= f)%nat as Hfuel' by (rewrite En'; unfold lvl in Hfuel |- *; clear - Hfuel Hdepth; lia).
      pose proof (IH (below ++ [top']) _ croot Ac cl Bc (cbs ++ [(lf_id lf, lf_ver lf)]) ic sc Hs' Hlk' Hposc Enthc Ehitc Hfuel')
        as Hpost.
      rewrite Eafterc, En', Ep', Epb', <- (dcent_link n p pb s Elv Hdepth) in Hpost. clear IH.
      destruct (dcent n p pb s) as [|kv restc] eqn:Edc; [contradiction|].
      cbn [fn_post app ie_cmp0] in Hpost |- *. rewrite <- (app_assoc restc).
      rewrite rems_snoc in Hpost. exact Hpost.
  Qed.

  Lemma ifindnext_spec : forall fuel below top root A lf B cbs,
    sinv below -> Forall is_link below -> at_pos below top root A lf B ->
    (pos_cost lf B (ie_rank top) + lvl (length below) <= fuel)%nat ->
    fn_post (ifindnext true fuel ls (mkc (below ++ [top])) cbs) below (ie_cmp0 top) (after below top).
  Proof.
    induction fuel as [|f IH]; intros below top root A lf B cbs Hs Hlk Hpos Hfuel.
    { unfold pos_cost in Hfuel. clear - Hfuel. lia. }
    pose proof Hpos as (Eg & Edec & Eid & _).
    destruct (Nat.leb_spec (length (ents_dir lf)) (ie_rank top)) as [Hex|Hin].
    - (* the border is exhausted *)
      rewrite (ifindnext_at f below top root A lf B cbs Eg Edec Eid). cbv zeta.
      rewrite (proj2 (Nat.leb_le _ _) Hex).
      destruct B as [|nb B']; cbn [hd_error].
      + rewrite (after_eq below top root Eg), (pend_at below top root A lf [] Hpos), skipn_all2 by exact Hex.
        cbn [flat_map app map filter fn_post io_status io_ctx]. split; [reflexivity|]. exists top. reflexivity.
      + rewrite set_top_mkc.
        apply (IH below _ root (A ++ [lf]) nb B' _ Hs Hlk (pos_next below top root A lf nb B' Hpos Hex)).
        cbn [ie_rank]. clear - Hfuel. unfold pos_cost, list_sum in *. cbn [map fold_right] in Hfuel. lia.
    - (* an entry *)
      destruct (nth_error (ents_dir lf) (ie_rank top)) as [[i s]|] eqn:Enth.
      2:{ apply nth_error_None in Enth. lia. }
      destruct (hitb (ie_key top) (sl_key s)) eqn:Ehit.
      + apply (ifindnext_hit (S f) below top root A lf B cbs i s Hs Hlk Hpos Enth Ehit). clear - Hfuel. lia.
      + rewrite (ifindnext_at f below top root A lf B cbs Eg Edec Eid). cbv zeta.
        rewrite (proj2 (Nat.leb_gt _ _) Hin), Enth, idecide_eq, Ehit. cbn [negb]. rewrite set_top_mkc.
        apply (IH below _ root A lf B _ Hs Hlk (pos_skip below top root A lf B i s Hpos Enth Ehit)).
        cbn [ie_rank]. pose proof (dl_length rtl (leaf_ranked lf) : length (ents_dir lf) = _) as Hel. clear - Hfuel Hin Hel. unfold pos_cost in *. lia.
  Qed.

  (** *** fuel: [big] covers one border chain and one descent *)
  Definition big : nat := (layers_entries ls + 4)%nat.

  Lemma pos_cost_bound p root A lf B rank :
    layer_get ls p = Some root -> dl (bt_leaves root) = A ++ lf :: B ->
    (pos_cost lf B rank + length ls <= big)%nat.
  Proof.
    intros Eg Edec. pose proof (layers_entries_ge ls p root (layer_get_in _ _ _ Eg)) as G.
    assert (list_sum (map (fun l => S (length (leaf_ranked l))) (dl (bt_leaves root))) =
            list_sum (map (fun l => S (length (leaf_ranked l))) (bt_leaves root))) as E1.
    { apply (dl_list_sum rtl). }
    rewrite Edec, map_app, list_sum_app in E1. cbn [map] in E1.
    rewrite (sum_S_length leaf_ranked (bt_leaves root)) in E1.
    unfold pos_cost, big. unfold list_sum in *. cbn [fold_right] in E1. lia.
  Qed.

  (** *** [iscan_next] *)
  Lemma inext_spec : forall fuel st cbs,
    sinv st -> st <> [] -> (length st <= fuel)%nat ->
    out_ok (inext true fuel big ls (mkc st) cbs) (rems st).
  Proof.
    induction fuel as [|f IH]; intros st cbs Hs Hne Hfuel.
    { destruct st; [contradiction|cbn [length] in Hfuel; clear - Hfuel; lia]. }
    destruct (exists_last Hne) as (below & top & ->). clear Hne.
    apply sinv_snoc in Hs. destruct Hs as (HE & Hlk & Hs).
    destruct HE as (root & A & lf & B & Hpos). pose proof Hpos as (Eg & Edec & _ & _ & _ & HR).
    pose proof (pos_cost_bound _ root A lf B (ie_rank top) Eg Edec) as Hb.
    assert (lvl (length below) <= length ls)%nat as Hl by (unfold lvl; clear; lia).
    pose proof (ifindnext_spec big below top root A lf B cbs Hs Hlk Hpos ltac:(clear - Hb Hl; lia)) as Hpost.
    cbn [inext]. set (o := ifindnext true big ls (mkc (below ++ [top])) cbs) in *.
    rewrite rems_snoc. destruct (after below top) as [|kv rest]; cbn [fn_post] in Hpost.
    - destruct Hpost as [Est (e' & Ectx)]. cbn [app]. destruct (ie_cmp0 top) eqn:Ec; rewrite Est.
      + destruct (rems below) as [|kv rest] eqn:Er; cbn [out_ok io_status]; [reflexivity|].
        left. split; [reflexivity|]. rewrite <- Er. apply (rems_dead below Hlk Hs HR).
      + rewrite Ectx. cbn [mkc ic_stack]. rewrite removelast_last.
        destruct below as [|b below']; [reflexivity|].
        apply IH; [exact Hs|discriminate|]. rewrite app_length in Hfuel. cbn [length] in *. clear - Hfuel. lia.
    - cbn [app out_ok] in Hpost |- *. destruct Hpost as [[Est Hdead]|[Est Hok]]; rewrite Est.
      + left. split; [reflexivity|exact Hdead].
      + right. split; [exact Est|exact Hok].
  Qed.

  (** *** [iscan_findfirst]: the descent along the start key *)
  Variable Sk : key.
  Variable sp : endpoint.
  Hypothesis HS : bytes Sk.
  Hypothesis Hsp : rtl = false -> sp <> EP_INF.
  Definition usekey : bool := negb (rtl && ep_eqb sp EP_INF).
  Hypothesis Hord : ep <> EP_INF -> usekey = true -> dlex rtl K Sk = false.
  Hypothesis Hval : sp = EP_INCL -> inr Sk = true.
  Hypothesis Hlive : forall p root lf, layer_get ls p = Some root -> In lf (bt_leaves root) ->
      get_deleted (lf_ver lf) && get_root (lf_ver lf) = true -> bt_elems root = [].

  Definition ins (k : key) : bool := in_start rtl Sk sp k.
  Definition dkt (start : key) : ktuple := if rtl && ep_eqb sp EP_INF then kt_max else tuple_of_key start.

  Lemma dkt_wf start : bytes start -> kt_wf (dkt start) = true.
  Proof. intros H. unfold dkt. destruct (rtl && ep_eqb sp EP_INF); [reflexivity|apply tuple_of_key_wf; exact H]. Qed.

  Lemma usekey_false : usekey = false -> rtl = true /\ sp = EP_INF.
  Proof.
    unfold usekey. intros H. apply negb_false_iff, andb_true_iff in H. destruct H as [H1 H2].
    split; [exact H1|]. destruct sp; try discriminate. reflexivity.
  Qed.

  Lemma dkt_usekey start : usekey = true -> dkt start = tuple_of_key start.
  Proof. unfold usekey, dkt. intros H. apply negb_true_iff in H. rewrite H. reflexivity. Qed.

  Lemma ins_hit n p pb root start s' kv :
    layer_get ls p = Some root -> In s' (bt_elems root) ->
    (usekey = true -> Sk = pb ++ start) -> bytes start -> sl_key s' <> dkt start ->
    In kv (dcent n p pb s') -> ins (fst kv) = hitb (dkt start) (sl_key s').
  Proof.
    intros Eg Hin HSk Hb Hneq Hkv.
    destruct (dcent_shape n p pb root s' Eg Hin) as ((Hws & _) & _ & Hsh).
    destruct (Hsh kv Hkv) as (x & E & [Hx Ht]). pose proof (dkt_wf start Hb) as Hwk.
    rewrite (hitb_dlt rtl _ _ Hwk Hws). unfold ins. rewrite E.
    destruct usekey eqn:Eu.
    - rewrite (dkt_usekey start Eu) in *. rewrite (HSk eq_refl), in_start_app.
      assert (tuple_of_key start <> tuple_of_key x) as Hne by (rewrite Ht; apply not_eq_sym; exact Hneq).
      pose proof (dlex_tuple_neq rtl start x Hb Hx Hne) as L1.
      pose proof (dlex_tuple_neq rtl x start Hx Hb (not_eq_sym Hne)) as L2. rewrite Ht in L1, L2, Hne.
      destruct sp eqn:Esp; cbn [in_start].
      + exact L1.
      + rewrite L2. symmetry. apply dlt_total. exact Hne.
      + exfalso. unfold usekey in Eu. destruct rtl eqn:Er; [rewrite Esp in Eu; discriminate Eu|exact (Hsp eq_refl eq_refl)].
    - (* right to left from "no start": everything is below max() *)
      destruct (usekey_false Eu) as [Er Es]. unfold dkt in Hneq |- *. rewrite Er, Es in Hneq |- *. cbn [ep_eqb andb in_start] in *.
      destruct (dlt_cases true kt_max (sl_key s')) as [H|[H|H]]; [symmetry; exact H|congruence|].
      destruct (eq_true_false_abs _ H (canon_lt_max _ Hws)).
  Qed.

  Lemma filter_ins_fm n p pb root start : forall L,
    layer_get ls p = Some root -> (forall s', In s' L -> In s' (bt_elems root) /\ sl_key s' <> dkt start) ->
    (usekey = true -> Sk = pb ++ start) -> bytes start ->
    filter (fun kv => ins (fst kv)) (flat_map (dcent n p pb) L) =
    flat_map (dcent n p pb) (filter (fun s' => hitb (dkt start) (sl_key s')) L).
  Proof.
    induction L as [|a L IH]; intros Eg HL HSk Hb; [reflexivity|].
    cbn [flat_map filter]. rewrite filter_app, IH; try assumption.
    2:{ intros s' Hs'. apply HL. right. exact Hs'. }
    destruct (HL a (or_introl eq_refl)) as [Ha1 Ha2].
    destruct (hitb (dkt start) (sl_key a)) eqn:Eh; cbn [flat_map].
    - f_equal. apply filter_all. intros kv Hkv. rewrite (ins_hit n p pb root start a kv Eg Ha1 HSk Hb Ha2 Hkv). exact Eh.
    - rewrite (proj2 (filter_nil_iff _ _)); [reflexivity|]. intros kv Hkv.
      rewrite (ins_hit n p pb root start a kv Eg Ha1 HSk Hb Ha2 Hkv). exact Eh.
  Qed.

  Lemma layer_ins_absent n p pb root start :
    layer_get ls p = Some root -> (usekey = true -> Sk = pb ++ start) -> bytes start ->
    ~ In (dkt start) (bt_keys root) ->
    filter (fun kv => ins (fst kv)) (dlayer n p pb) = flat_map (dcent n p pb) (pend root (dkt start)).
  Proof.
    intros Eg HSk Hb Hnin. rewrite (dlayer_eq n p pb root Eg).
    apply (filter_ins_fm n p pb root start); try assumption.
    intros s' Hs'. apply (proj1 (dl_in rtl _ _)) in Hs'. split; [exact Hs'|].
    intros E. apply Hnin. rewrite <- E. apply in_elems_in_keys. exact Hs'.
  Qed.

  Lemma layer_ins_found n p pb root start s :
    layer_get ls p = Some root -> (usekey = true -> Sk = pb ++ start) -> bytes start ->
    In s (bt_elems root) -> sl_key s = dkt start ->
    filter (fun kv => ins (fst kv)) (dlayer n p pb) =
    filter (fun kv => ins (fst kv)) (dcent n p pb s) ++ flat_map (dcent n p pb) (pend root (dkt start)).
  Proof.
    intros Eg HSk Hb Hin Hk. rewrite (dlayer_eq n p pb root Eg).
    destruct (wl_layer _ _ _ W p root Eg) as [Hwf _].
    pose proof (elems_dsorted rtl _ _ root Hwf) as Hsorted. unfold IScanProofs.pend.
    assert (In s (dl (bt_elems root))) as Hin' by (apply (dl_in rtl); exact Hin).
    destruct (in_split _ _ Hin') as (X & Y & EXY). rewrite EXY in *.
    assert (forall y, In y (X ++ s :: Y) -> In y (bt_elems root)) as Hsub.
    { intros y Hy. rewrite <- EXY in Hy. apply (proj1 (dl_in rtl _ _)) in Hy. exact Hy. }
    apply StronglySorted_app_iff in Hsorted. destruct Hsorted as (_ & HsY & Hcross).
    apply StronglySorted_inv in HsY. destruct HsY as [_ HsY]. rewrite Forall_forall in HsY.
    assert (forall x, In x X -> sl_key x <> dkt start /\ hitb (dkt start) (sl_key x) = false) as HX.
    { intros x Hx. pose proof (Hcross x s Hx (or_introl eq_refl)) as D. split.
      - intros E. rewrite E, <- Hk, dlt_irrefl in D. discriminate.
      - rewrite <- Hk. rewrite (hitb_dlt rtl); [apply dlt_asym; exact D| |];
          apply (elem_wf _ _ root _ Hwf); apply Hsub; apply in_or_app; [right; left; reflexivity|left; exact Hx]. }
    assert (forall y, In y Y -> sl_key y <> dkt start) as HY.
    { intros y Hy E. pose proof (HsY y Hy) as D. rewrite E, <- Hk, dlt_irrefl in D. discriminate. }
    rewrite !flat_map_app, !filter_app. cbn [flat_map filter].
    rewrite (filter_app _ (dcent n p pb s)).
    rewrite (filter_ins_fm n p pb root start X), (filter_ins_fm n p pb root start Y); try assumption.
    - rewrite (proj2 (filter_nil_iff _ X)) by (intros x Hx; apply (HX x Hx)).
      assert (hitb (dkt start) (sl_key s) = false) as ->.
      { rewrite Hk, (hitb_dlt rtl) by (apply dkt_wf; exact Hb). apply dlt_irrefl. }
      reflexivity.
    - intros y Hy. split; [apply Hsub; apply in_or_app; right; right; exact Hy|apply HY; exact Hy].
    - intros x Hx. split; [apply Hsub; apply in_or_app; left; exact Hx|apply (HX x Hx)].
  Qed.

  Lemma start_dlt n p pb start :
    RI n p pb true -> length pb = (8 * n)%nat -> bytes start -> (usekey = true -> Sk = pb ++ start) ->
    dlt (endt n) (dkt start) = false.
  Proof.
    intros HR Hl Hb HSk. pose proof (dkt_wf start Hb) as Hwk.
    destruct (RI_endt n p pb HR Hl) as [(Er & _ & _ & ->)|(Hne & rest & EK & Hrest & -> & _)].
    - apply dlt_max; assumption.
    - destruct usekey eqn:Eu.
      + rewrite (dkt_usekey start Eu). specialize (Hord Hne eq_refl). rewrite (HSk eq_refl), EK, dlex_app in Hord.
        destruct (dlt (tuple_of_key rest) (tuple_of_key start)) eqn:D; [exfalso|reflexivity].
        rewrite (dlex_tuple_neq rtl rest start Hrest Hb (dlt_neq rtl _ _ D)), D in Hord. discriminate.
      + destruct (usekey_false Eu) as [Er Es]. unfold dkt. rewrite Er, Es.
        exact (canon_lt_max _ (tuple_of_key_wf rest Hrest)).
  Qed.

  Lemma hitf_start kt ekt :
    kt_wf kt = true -> kl kt = 9 -> kt_wf ekt = true -> dlt ekt kt = false -> hitf kt ekt = true.
  Proof.
    intros Hw H9 Hwe D. rewrite (hitf_canon kt ekt Hw Hwe), D, H9. change (8 <? 9) with true.
    rewrite andb_true_r. destruct (ep_eqb ep EP_INCL); [reflexivity|].
    destruct (dlt_cases rtl kt ekt) as [H|[H|H]]; [rewrite H; reflexivity| |congruence].
    subst. rewrite kt_eq_refl. apply orb_true_r.
  Qed.

  Definition ff_post (o : iout) (root : bt) (R : list (key * value)) : Prop :=
    (io_status o = IS_END /\ bt_elems root = []) \/
    exists st, io_ctx o = mkc st /\ sinv st /\ st <> [] /\
      ((io_status o = IS_CONT /\ rems st = R) \/
       (io_status o = IS_OK /\ exists kv, io_value o = Some (snd kv) /\ full_key st = fst kv /\
          inr (fst kv) = true /\ kv :: rems st = R)).

  Lemma ins_self : sp <> EP_INF -> ins Sk = ep_eqb sp EP_INCL.
  Proof.
    intros H. unfold ins. destruct sp; cbn [in_start ep_eqb]; rewrite ?dlex_irrefl; try reflexivity. contradiction.
  Qed.

  (* The descent looks up the tuple of the start key in the layer.  A value there is the start key itself: the
     cursor stands behind it and delivers it iff the start point is inclusive.  A link means that the start key
     continues in the layer below, where the descent goes on with the rest of it.  If the tuple is not there, the
     cursor stands before the first pending entry and nothing is delivered yet ([IS_CONT]).  In each case [rems]
     of the resulting stack is the part of the enumeration on the right side of the start point. *)
  Lemma ifindfirst_spec : forall fuel below start one_point cmp0 cbs root,
    sinv below -> Forall is_link below ->
    layer_get ls (stack_prefix below) = Some root ->
    bytes start -> (usekey = true -> Sk = full_key below ++ start) ->
    RI (length below) (stack_prefix below) (full_key below) cmp0 ->
    (lvl (length below) <= fuel)%nat ->
    ff_post (ifindfirst true fuel ls (mkc below) start sp one_point cmp0 cbs) root
            (filter (fun kv => ins (fst kv)) (dlayer (length below) (stack_prefix below) (full_key below)) ++ rems below).
  Proof.
    induction fuel as [|f IH]; intros below start one_point cmp0 cbs root Hs Hlk Eg Hb HSk HR Hfuel.
    { pose proof (depth_lt below root Eg) as Hdepth. unfold lvl in Hfuel. clear - Hfuel Hdepth. lia. }
    pose proof (depth_lt below root Eg) as Hdepth.
    destruct (wl_layer _ _ _ W _ root Eg) as [Hwf Hnd].
    pose proof (full_key_length below Hlk) as Hpbl.
    pose proof (dkt_wf start Hb) as Hwk.
    cbn [ifindfirst]. change (ic_stack (mkc below)) with below. rewrite Eg.
    change (if ic_rtl (mkc below) && ep_eqb sp EP_INF then kt_max else tuple_of_key start) with (dkt start).
    destruct (pos_find below root (dkt start) cmp0 Eg (or_introl Hwk) HR) as (lf & A & B & Ef & Hpos).
    rewrite Ef.
    destruct (get_deleted (lf_ver lf) && get_root (lf_ver lf)) eqn:Edel.
    { left. split; [reflexivity|]. exact (Hlive _ root lf Eg (dl_split_in rtl _ _ _ _ (proj1 (proj2 Hpos))) Edel). }
    set (e := {| ie_key := dkt start; ie_leaf := lf_id lf; ie_cmp0 := cmp0; ie_rank := 0 |}) in *.
    assert (sinv (below ++ [e])) as Hs1
      by (apply sinv_snoc; split; [exists root, A, lf, B; exact Hpos|split; assumption]).
    assert (below ++ [e] <> []) as Hne1 by (intros X; apply app_eq_nil in X; destruct X as [_ X]; discriminate X).
    pose proof (after_eq below e root Eg) as Eafter. cbn [ie_key e] in Eafter.
    set (n := length below) in *. set (p := stack_prefix below) in *. set (pb := full_key below) in *.
    destruct (find_leaf_lookup root (dkt start) lf Hwf Hwk Ef) as [HN HSm].
    destruct (leaf_lookup lf (dkt start)) as [[[r slot] s]|] eqn:El.
    - destruct (HSm r slot s eq_refl) as (Hsin & Hsk & _).
      destruct (dcent_shape n p pb root s Eg Hsin) as ((Hws & Hlv) & Hlayer & _).
      pose proof (layer_ins_found n p pb root start s Eg HSk Hb Hsin Hsk) as Elayer.
      destruct (sl_lv s) as [|v|] eqn:Elv; [contradiction| |].
      + (* the start key itself *)
        assert (8 <? kl (sl_key s) = false) as -> by (clear - Hlv; lia).
        assert (usekey = true) as Eu.
        { destruct usekey eqn:Eu; [reflexivity|]. destruct (usekey_false Eu) as [Er Es].
          unfold dkt in Hsk. rewrite Er, Es in Hsk. cbn [andb ep_eqb] in Hsk. rewrite Hsk in Hlv. cbn in Hlv. clear - Hlv. lia. }
        specialize (HSk Eu). rewrite (dkt_usekey start Eu) in Hsk.
        assert (length start <= 8)%nat as Hlen.
        { destruct (Nat.le_gt_cases (length start) 8) as [H|H]; [exact H|].
          pose proof (tuple_kl_long start H) as X. rewrite Hsk, X in Hlv. clear - Hlv. lia. }
        assert (pb ++ tbytes (sl_key s) = Sk) as Ekey.
        { rewrite Hsk, (tbytes_tuple_short start Hb Hlen). symmetry. exact HSk. }
        assert (sp <> EP_INF) as Hspi.
        { intros Es. unfold usekey in Eu. rewrite Es in Eu. destruct rtl eqn:Er; [discriminate|]. exact (Hsp eq_refl Es). }
        rewrite (dcent_value n p pb s v Elv), Ekey in Elayer. cbn [filter fst] in Elayer.
        rewrite (ins_self Hspi) in Elayer.
        destruct (ep_eqb sp EP_INCL) eqn:Esp.
        * right. exists (below ++ [e]). split; [reflexivity|]. split; [exact Hs1|]. split; [exact Hne1|].
          right. split; [reflexivity|]. exists (Sk, v). cbn [fst snd io_value]. split; [reflexivity|].
          split; [rewrite full_key_snoc; cbn [ie_key e]; rewrite (dkt_usekey start Eu), <- Hsk; exact Ekey|].
          split; [apply Hval; destruct sp; try discriminate; reflexivity|].
          rewrite rems_snoc, Eafter, Elayer. reflexivity.
        * right. exists (below ++ [e]). split; [reflexivity|]. split; [exact Hs1|]. split; [exact Hne1|].
          left. split; [reflexivity|]. rewrite rems_snoc, Eafter, Elayer. reflexivity.
      + (* a link: the layer below *)
        rewrite Hlv. change (8 <? 9) with true. cbv iota. rewrite push_mkc. fold e.
        destruct (layer_get ls (p ++ [ks (sl_key s)])) as [croot|] eqn:Egc; [|exfalso; exact (Hlayer eq_refl eq_refl)].
        change (end_tuple (mkc below) (length below)) with (endt n).
        set (below' := below ++ [e]).
        destruct (push_link below e (sl_key s) (eq_sym Hsk) Hlv Hws Hlk) as (Ep' & Epb' & En' & Hlk').
        fold below' p pb n in Ep', Epb', En', Hlk'.
        assert (usekey = true -> Sk = full_key below' ++ skipn 8 start) as HSk'.
        { intros Eu. rewrite Epb', (HSk Eu), <- app_assoc. f_equal.
          rewrite (dkt_usekey start Eu) in Hsk.
          assert (8 < length start)%nat as Hlen.
          { destruct (Nat.le_gt_cases (length start) 8) as [H|H]; [|exact H].
            pose proof (tuple_kl_short start H) as X. rewrite <- Hsk, Hlv in X. clear - X H. lia. }
          rewrite Hsk, (bos8_tuple_long start Hb Hlen). symmetry. apply firstn_skipn. }
        assert (RI (length below') (stack_prefix below') (full_key below') (cmp0 && kt_eq (dkt start) (endt n))) as HR'.
        { rewrite Ep', Epb', En'. destruct cmp0; cbn [andb]; [|apply RI_false_ext; exact HR].
          rewrite <- Hsk. apply (proj2 (dec_link n p pb (sl_key s) HR Hpbl Hws Hlv)).
          apply hitf_start; [exact Hws|exact Hlv|apply endt_wf|].
          rewrite Hsk. apply (start_dlt n p pb start HR Hpbl Hb HSk). }
        assert (lvl (length below') <= f)%nat as Hfuel' by (rewrite En'; unfold lvl in *; clear - Hfuel Hdepth; lia).
        destruct (IH below' (skipn 8 start) one_point _ cbs croot Hs1 Hlk' (eq_trans (f_equal (layer_get ls) Ep') Egc)
                     (bytes_skipn _ _ Hb) HSk' HR' Hfuel') as [[_ Hemp]|Hpost].
        { exfalso. destruct (wl_parent _ _ _ W _ _ croot Egc) as [Hcne _]. contradiction. }
        (* what is to come below [e] is what is to come in the layer under the link, then the rest of this layer *)
        rewrite Ep', Epb', En' in Hpost. unfold below' in Hpost. rewrite rems_snoc, Eafter, app_assoc in Hpost.
        rewrite Elayer, (dcent_link n p pb s Elv Hdepth). right. exact Hpost.
    - (* the start key is not there *)
      right. exists (below ++ [e]). split; [destruct one_point; reflexivity|]. split; [exact Hs1|]. split; [exact Hne1|].
      left. split; [destruct one_point; reflexivity|]. rewrite rems_snoc, Eafter.
      rewrite (layer_ins_absent n p pb root start Eg HSk Hb); [reflexivity|]. apply HN. reflexivity.
  Qed.

  (** *** open + iterate to the end *)
  Lemma sinv_length st : sinv st -> st <> [] -> (length st <= length ls)%nat.
  Proof.
    intros Hs Hne. destruct (exists_last Hne) as (below & top & ->). apply sinv_snoc in Hs.
    destruct Hs as ((root & _ & _ & _ & Eg & _) & _ & _). pose proof (depth_lt below root Eg) as Hd.
    rewrite app_length. cbn [length]. clear - Hd. lia.
  Qed.

  Definition ALL : list (key * value) := dl (clayer (S (length ls)) ls [] []).

  Lemma ALL_dlayer : dlayer 0 [] [] = ALL.
  Proof. unfold dlayer, ALL, lvl. rewrite Nat.sub_0_r. reflexivity. Qed.

  Lemma RI_root : RI 0 [] [] true.
  Proof.
    cbn [RI]. destruct ep eqn:Ee.
    - right. split; [discriminate|]. exists K. split; [reflexivity|left; reflexivity].
    - right. split; [discriminate|]. exists K. split; [reflexivity|left; reflexivity].
    - left. split; [|split; [reflexivity|constructor]].
      destruct rtl eqn:Er; [|reflexivity]. exfalso. exact (Hep eq_refl eq_refl).
  Qed.

  Lemma open_spec start one_point :
    bytes start -> (usekey = true -> Sk = start) ->
    let o := ifindfirst true (S (length ls)) ls (mkc []) start sp one_point true [] in
    out_ok (match io_status o with
            | IS_CONT => inext true (S (length ls)) big ls (io_ctx o) (io_cbs o)
            | _ => o
            end) (filter (fun kv => ins (fst kv)) ALL).
  Proof.
    intros Hb HSk. cbv zeta.
    destruct (layer_get ls []) as [root|] eqn:Eg; [|exfalso; exact (wl_exc _ _ _ W Eg)].
    pose proof (ifindfirst_spec (S (length ls)) [] start one_point true [] root I (Forall_nil _) Eg Hb HSk RI_root) as Hpost.
    specialize (Hpost ltac:(unfold lvl; cbn [length]; lia)).
    cbn [length stack_prefix full_key map flat_map] in Hpost. rewrite ALL_dlayer in Hpost.
    set (o := ifindfirst true (S (length ls)) ls (mkc []) start sp one_point true []) in *.
    change (rems []) with (@nil (key * value)) in Hpost. rewrite app_nil_r in Hpost.
    destruct Hpost as [[Est Hemp]|(news & Ectx & Hsn & Hnn & Hres)].
    - rewrite Est. assert (ALL = []) as ->; [|exact Est].
      unfold ALL. rewrite clayer_S, Eg, Hemp. cbn [flat_map]. apply (dl_nil rtl).
    - destruct Hres as [[Est Er]|(Est & kv & Ev & Efk & Hin & Er)]; rewrite Est.
      + rewrite Ectx, <- Er. apply inext_spec; [exact Hsn|exact Hnn|].
        pose proof (sinv_length news Hsn Hnn) as Hlen. clear - Hlen. lia.
      + rewrite <- Er. cbn [out_ok]. right. split; [exact Est|]. split; [exact Ev|]. split; [exact Hin|].
        exists news. repeat split; assumption.
  Qed.

  Variable tr : tree.
  Hypothesis Htr : t_layers tr = ls.

  Lemma collect_spec : forall R o acc cbs fuel,
    out_ok o R -> (length R < fuel)%nat ->
    exists cbs', iscan_collect true fuel tr o acc cbs =
                 Some (acc ++ filter (fun kv => inr (fst kv)) R, cbs').
  Proof.
    induction R as [|kv rest IH]; intros o acc cbs fuel Ho Hfuel; (destruct fuel as [|f]; [clear - Hfuel; lia|]); cbn [iscan_collect].
    - cbn [out_ok] in Ho. rewrite Ho. cbn [filter]. rewrite app_nil_r. eexists. reflexivity.
    - cbn [out_ok] in Ho. destruct Ho as [[Est Hdead]|(Est & Ev & Hin & st' & Ectx & Efk & Hs' & Hne' & Er)]; rewrite Est.
      + rewrite (proj2 (filter_nil_iff (fun kv0 => inr (fst kv0)) _)) by exact Hdead. rewrite app_nil_r. eexists. reflexivity.
      + rewrite Ev, Ectx. cbn [mkc ic_stack]. rewrite Efk. cbn [filter]. rewrite Hin.
        unfold iscan_next_gen. rewrite Htr. fold big. fold (mkc st').
        destruct (IH (inext true (S (length ls)) big ls (mkc st') []) (acc ++ [(fst kv, snd kv)])
                     (cbs ++ io_cbs o) f) as (cbs' & E).
        * rewrite <- Er. apply inext_spec; [exact Hs'|exact Hne'|]. pose proof (sinv_length st' Hs' Hne') as Hlen. clear - Hlen. lia.
        * cbn [length] in Hfuel. clear - Hfuel. lia.
        * exists cbs'. rewrite E. rewrite <- app_assoc. cbn [app]. destruct kv; reflexivity.
  Qed.

  Lemma ALL_length : (length ALL <= layers_entries ls)%nat.
  Proof. unfold ALL. rewrite (dl_length rtl). apply clayer_count. Qed.

  Theorem cursor_all start one_point :
    bytes start -> (usekey = true -> Sk = start) ->
    let o := ifindfirst true (S (length ls)) ls (mkc []) start sp one_point true [] in
    exists cbs',
      iscan_collect true (layers_entries ls + 4) tr
        (match io_status o with
         | IS_CONT => inext true (S (length ls)) big ls (io_ctx o) (io_cbs o)
         | _ => o
         end) [] [] =
      Some (filter (fun kv => inr (fst kv)) (filter (fun kv => ins (fst kv)) ALL), cbs').
  Proof.
    intros Hb HSk. cbv zeta.
    destruct (collect_spec _ _ [] [] (layers_entries ls + 4) (open_spec start one_point Hb HSk)) as (cbs' & E).
    - pose proof (proj1 (filter_length_full (fun kv => ins (fst kv)) ALL)) as H1. pose proof ALL_length as H2. clear - H1 H2. lia.
    - exists cbs'. exact E.
  Qed.
End Cursor.

(** ** the public cursor *)

(** the one fact about reachable stores that [WF_store] does not record and the cursor needs: a
    border flagged deleted-and-root only occurs in the empty store (the descent of
    [iscan_findfirst] stops at such a border in EVERY layer, not only in layer 0) *)
Definition iscan_live (tr : tree) : Prop :=
  forall p root lf, layer_get (t_layers tr) p = Some root -> In lf (bt_leaves root) ->
    get_deleted (lf_ver lf) && get_root (lf_ver lf) = true -> bt_elems root = [].

Lemma spec_iscan_list_nil a : spec_iscan_list [] a = [].
Proof. unfold spec_iscan_list. cbn [filter rev]. destruct (ia_rtl a); reflexivity. Qed.

Theorem iscan_refines_live : forall ctr tr a,
  WF_store ctr tr -> iscan_live tr -> bytes (ia_l a) -> bytes (ia_r a) ->
  exists st kvs cbs, iscan_all tr a = Some (st, kvs, cbs) /\
    match iscan_validate a with
    | Some s => st = s /\ kvs = []
    | None => st = St_OK /\ map (fun kv => (fst kv, abs_value (snd kv))) kvs = spec_iscan_list (abs_tree tr) a
    end.
Proof.
  intros ctr tr a Wst Hlive Hbl Hbr. unfold iscan_all, iscan_all_gen.
  destruct (iscan_validate a) as [s|] eqn:V.
  { exists s, [], []. split; [reflexivity|split; reflexivity]. }
  destruct (iscan_validate_none a V) as (V1 & V2 & V3).
  set (l := match ia_le a with EP_INF => [] | _ => ia_l a end) in *.
  set (le := match ia_le a with EP_INF => EP_INCL | e => e end).
  assert (bytes l) as Hl by (unfold l; destruct (ia_le a); try exact Hbl; constructor).
  assert (le <> EP_INF) as Hle by (unfold le; destruct (ia_le a); discriminate).
  assert (forall k, in_left l le k = in_left l (ia_le a) k) as Hleft.
  { intros k. unfold l, le. destruct (ia_le a); try reflexivity. cbn [in_left]. rewrite lex_lt_nil_r. reflexivity. }
  unfold iscan_open_gen. fold l. fold le.
  destruct (t_null tr) eqn:Hnull.
  { destruct (layers_entries (t_layers tr) + 4)%nat eqn:Ef; [lia|]. cbn [iscan_collect io_status].
    eexists St_OK, [], _. split; [reflexivity|]. split; [reflexivity|].
    rewrite (abs_tree_null tr Hnull). symmetry. apply spec_iscan_list_nil. }
  apply (fun W => WF_store_layers _ _ W Hnull) in Wst.
  set (ls := t_layers tr) in *. set (rtl := ia_rtl a).
  set (K := if rtl then l else ia_r a). set (ep := if rtl then le else ia_re a).
  set (start := if rtl then ia_r a else l). set (sp := if rtl then ia_re a else le).
  assert (negb (negb rtl && ep_eqb sp EP_INF) = true) as ->.
  { unfold sp. destruct rtl; [reflexivity|]. destruct le; try reflexivity. contradiction. }
  assert (bytes K) as HK by (unfold K; destruct rtl; assumption).
  assert (bytes start) as Hst by (unfold start; destruct rtl; assumption).
  match goal with |- context [ifindfirst _ _ _ _ _ _ ?op _ _] => set (one_point := op) end.
  destruct (cursor_all ctr ls Wst rtl K ep HK) with (Sk := start) (sp := sp) (tr := tr) (start := start)
    (one_point := one_point) as (cbs' & E).
  - intros Er. unfold ep. rewrite Er. exact Hle.
  - intros Er. unfold sp. rewrite Er. exact Hle.
  - intros Hep Hu. unfold K, start, ep, sp, usekey, dlex, dir_lex in *. destruct rtl.
    + apply V1. intros X. rewrite X in Hu. discriminate.
    + apply V1. exact Hep.
  - intros Hsp. unfold inr, K, ep, start, sp in *. destruct rtl.
    + rewrite Hleft. apply V3. exact Hsp.
    + apply V2. unfold le in Hsp. intros X. rewrite X in Hsp. discriminate.
  - exact Hlive.
  - reflexivity.
  - exact Hst.
  - reflexivity.
  - cbv zeta in E. unfold big in E. change (mkc rtl K ep []) with
      {| ic_end_key := K; ic_end_ep := ep; ic_rtl := rtl; ic_stack := [] |} in E.
    rewrite E. eexists St_OK, _, cbs'. split; [reflexivity|]. split; [reflexivity|].
    change (fun kv : key * value => (fst kv, abs_value (snd kv))) with abskv.
    rewrite (abs_tree_clayer tr Hnull). fold ls.
    set (cl := clayer (S (length ls)) ls [] []).
    set (Q := fun k : key => in_left l (ia_le a) k && in_right (ia_r a) (ia_re a) k).
    assert (filter (fun kv => inr rtl K ep (fst kv)) (filter (fun kv => ins rtl start sp (fst kv)) (ALL ls rtl)) =
            dl rtl (filter (fun kv => Q (fst kv)) cl)) as ->.
    { unfold ALL. fold cl. unfold inr, ins, K, ep, start, sp, dl, Q. destruct rtl.
      - rewrite !filter_rev, filter_filter. f_equal. apply filter_ext. intros kv. rewrite Hleft. apply andb_comm.
      - rewrite filter_filter. apply filter_ext. intros kv. rewrite Hleft. reflexivity. }
    unfold spec_iscan_list. fold l. fold rtl.
    change (fun kv : key * aval => in_left l (ia_le a) (fst kv) && in_right (ia_r a) (ia_re a) (fst kv))
      with (fun kv : key * aval => Q (fst kv)).
    rewrite (filter_map_abskv Q). exact (dl_map rtl abskv _).
Qed.

(** ** [scan_inv] alone is not enough: a well-formed store that satisfies [scan_inv] (but is not
    reachable by puts and removes) in which a border of layer 1 is flagged deleted-and-root;
    the cursor stops there, the specification does not *)
Module IScanCounterexample.
  Import ScanCounterexamples.
  Definition X : N := 506381209866536711.        (* the slice 07 07 07 07 07 07 07 07 *)
  Definition eL : slot_t := mk (mk9 X) LLink.
  Lemma okL : entry_ok eL. Proof. split; reflexivity. Qed.
  Definition lfL : leaf := single_leaf 11 (mk9 X) LLink.
  Definition rootL : bt := BLeaf lfL.
  Definition subD : bt := bt_set_ver (BLeaf lfC) (set_deleted (lf_ver lfC) true).
  Definition cx : tree := {| t_layers := [([], rootL); ([X], subD)]; t_null := false |}.
  Definition from_inside : iscan_args :=
    {| ia_l := [7;7;7;7;7;7;7;7;3]; ia_le := EP_INCL; ia_r := []; ia_re := EP_INF; ia_rtl := false;
       ia_lnull := false; ia_rnull := false |}.

  Lemma cx_wf : WF_store 20 cx.
  Proof.
    destruct (single_leaf_WF_layer 11 (mk9 X) LLink okL) as (HwL & HelL & HidL).
    fold lfL in HwL, HelL, HidL. fold rootL in HwL, HelL, HidL.
    destruct (single_leaf_WF_layer 12 kC (LValue (val 3)) okC) as ([HwC HndC] & HelC & HidC).
    fold lfC in HwC, HndC, HelC, HidC.
    assert (WF_layer subD) as HwD.
    { split; [apply bt_set_ver_WF; exact HwC|]. unfold subD. rewrite bt_set_ver_ids. exact HndC. }
    assert (bt_elems subD = [eC]) as HelD by (unfold subD; rewrite bt_set_ver_elems; exact HelC).
    assert (bt_ids subD = [12]) as HidD by (unfold subD; rewrite bt_set_ver_ids; exact HidC).
    apply two_layer_WF; try assumption.
    - rewrite HidL, HidD. intros i [<-|[<-|[]]]; lia.
    - rewrite HidL, HidD. intros i [<-|[]] [H|[]]. discriminate H.
    - intros y. rewrite HelL. split.
      + intros [Hin|[]]. injection Hin as <-. reflexivity.
      + intros ->. left. reflexivity.
    - intros y. rewrite HelD. intros [Hin|[]]. discriminate Hin.
    - rewrite HelD. discriminate.
    - intros s. rewrite HelD. intros [<-|[]]. cbn. lia.
  Qed.

  Lemma cx_scan_inv : scan_inv cx.
  Proof.
    split.
    - unfold scan_seps, cx. cbn [t_layers]. constructor; [apply seps_good_leaf|].
      constructor; [|constructor]. unfold subD. cbn [snd bt_set_ver]. apply seps_good_leaf.
    - intros root lf Eg Hin Hd. cbn in Eg. injection Eg as <-. cbn [bt_leaves rootL] in Hin.
      destruct Hin as [<-|[]]. vm_compute in Hd. discriminate Hd.
  Qed.

  Theorem iscan_refines_needs_iscan_live :
    exists ctr tr a,
      WF_store ctr tr /\ scan_inv tr /\ bytes (ia_l a) /\ bytes (ia_r a) /\ iscan_validate a = None /\
      exists cbs, iscan_all tr a = Some (St_OK, [], cbs) /\
                  spec_iscan_list (abs_tree tr) a = [([7;7;7;7;7;7;7;7;3], abs_value (val 3))].
  Proof.
    exists 20, cx, from_inside. split; [exact cx_wf|]. split; [exact cx_scan_inv|].
    split; [repeat constructor|]. split; [constructor|]. split; [reflexivity|].
    eexists. split; vm_compute; reflexivity.
  Qed.

  Theorem iscan_refines_all_false_from_scan_inv :
    ~ (forall ctr tr a,
         WF_store ctr tr -> scan_inv tr -> bytes (ia_l a) -> bytes (ia_r a) ->
         exists st kvs cbs, iscan_all tr a = Some (st, kvs, cbs) /\
           match iscan_validate a with
           | Some s => st = s /\ kvs = []
           | None => st = St_OK /\
                     map (fun kv => (fst kv, abs_value (snd kv))) kvs = spec_iscan_list (abs_tree tr) a
           end).
  Proof.
    intros H. destruct iscan_refines_needs_iscan_live as (ctr & tr & a & W & Hi & Hl & Hr & V & cbs & E & Es).
    destruct (H ctr tr a W Hi Hl Hr) as (st & kvs & cbs' & E' & Hres).
    rewrite V in Hres. rewrite E in E'. injection E' as <- <- <-. destruct Hres as [_ Hres].
    rewrite Es in Hres. discriminate Hres.
  Qed.
End IScanCounterexample.

(** ** [iscan_live] holds on every store reached by puts and removes: no border is flagged
    deleted except the border of the empty store ([live_all]), an invariant *)
Definition live_all (ls : layers_t) : Prop :=
  forall p root lf, In (p, root) ls -> In lf (bt_leaves root) -> get_deleted (lf_ver lf) = true ->
    bt_elems root = [].

Definition iscan_inv (tr : tree) : Prop := live_all (t_layers tr).

Lemma live_all_iscan_live tr : live_all (t_layers tr) -> iscan_live tr.
Proof.
  intros H p root lf Eg Hin Hd. apply andb_true_iff in Hd. destruct Hd as [Hd _].
  exact (H p root lf (layer_get_in _ _ _ Eg) Hin Hd).
Qed.

Lemma live_all_live_ok ls : live_all ls -> live_ok ls.
Proof. intros H root lf Eg. exact (H [] root lf (layer_get_in _ _ _ Eg)). Qed.

Lemma live_all_lw ls : live_all ls <-> lw (fun _ => layer_live) ls.
Proof. split; [intros H p r Hin lf; exact (H p r lf Hin)|intros H p r lf Hin; exact (H p r Hin lf)]. Qed.

Theorem put_iscan_inv ctr tr k v unique tr' po ctr' :
  WF_store ctr tr -> bytes k -> put tr k v unique ctr = Some (tr', po, ctr') -> iscan_inv tr -> iscan_inv tr'.
Proof.
  unfold iscan_inv. rewrite !live_all_lw.
  exact (put_lw _ (fun _ => single_leaf_live) put_root_live ctr tr k v unique tr' po ctr').
Qed.

Theorem remove_iscan_inv tr k tr' ro : remove tr k = Some (tr', ro) -> iscan_inv tr -> iscan_inv tr'.
Proof. unfold iscan_inv. rewrite !live_all_lw. exact (remove_lw _ rm_root_live tr k tr' ro). Qed.

Theorem iscan_inv_null : iscan_inv null_tree.
Proof. intros p root lf []. Qed.

Theorem iscan_inv_empty id : iscan_inv (empty_tree id).
Proof.
  intros p root lf [H|[]] Hin Hd. injection H as _ <-. cbn [bt_leaves] in Hin.
  destruct Hin as [<-|[]]. cbn [lf_ver] in Hd. vm_compute in Hd. discriminate Hd.
Qed.

Theorem iscan_refines_inv : forall ctr tr a,
  WF_store ctr tr -> iscan_inv tr -> bytes (ia_l a) -> bytes (ia_r a) ->
  exists st kvs cbs, iscan_all tr a = Some (st, kvs, cbs) /\
    match iscan_validate a with
    | Some s => st = s /\ kvs = []
    | None => st = St_OK /\ map (fun kv => (fst kv, abs_value (snd kv))) kvs = spec_iscan_list (abs_tree tr) a
    end.
Proof.
  intros ctr tr a W Hi. apply (iscan_refines_live ctr tr a W). apply live_all_iscan_live. exact Hi.
Qed.

(** ** the hypotheses are satisfiable: they hold on the 39-layer store of [ScanExample] and on
    stores obtained from it by removes, so that the theorem speaks about the runs of the executable model
    on them *)
Module IScanExample.
  Import ScanExample.

  Fixpoint removes (tr : tree) (ks : list key) : option tree :=
    match ks with
    | [] => Some tr
    | k :: r => match remove tr k with Some (tr', _) => removes tr' r | None => None end
    end.

  Lemma removes_iinv : forall ks tr ctr, WF_store ctr tr -> iscan_inv tr -> Forall bytes ks ->
    exists tr', removes tr ks = Some tr' /\ WF_store ctr tr' /\ iscan_inv tr'.
  Proof.
    induction ks as [|k r IH]; intros tr ctr W Hi Hb; [exists tr; split; [reflexivity|split; assumption]|].
    apply Forall_cons_iff in Hb. destruct Hb as [Hk Hr].
    destruct (remove_refines ctr tr k W Hk) as (tr' & ro & E & W' & _).
    cbn [removes]. rewrite E. apply IH; [exact W'| |exact Hr].
    exact (remove_iscan_inv tr k tr' ro E Hi).
  Qed.

  Example ex_iinv : exists ctr, WF_store ctr ex_tree /\ iscan_inv ex_tree.
  Proof. exact (ex_built iscan_inv put_iscan_inv (iscan_inv_empty 1)). Qed.

  (** after removes: the layer under 07^8 shrinks, the layer under ff^8 and the five deepest layers
      of the 300-byte key vanish, the empty key goes *)
  Definition gone_keys : list key :=
    [[]; p8 ++ p8 ++ [1]; p8 ++ p8; f8 ++ [3]; repeat 7 300; [7]]
    ++ map (fun i => p8 ++ [N.of_nat i; 2]) (seq 3 14).
  Definition ex_tree2 : tree := match removes ex_tree gone_keys with Some t => t | None => null_tree end.
  (** everything removed: the root border of layer 0 stays, empty and flagged deleted *)
  Definition ex_tree3 : tree := match removes ex_tree ex_keys with Some t => t | None => null_tree end.

  Example ex_shapes :
    (length (t_layers ex_tree2), length (abs_tree ex_tree2), length (t_layers ex_tree3), length (abs_tree ex_tree3),
     t_null ex_tree3) = (32%nat, 31%nat, 1%nat, 0%nat, false).
  Proof. vm_compute. reflexivity. Qed.

  Lemma removed_iinv ks : forallb bytesb ks = true ->
    exists tr', removes ex_tree ks = Some tr' /\ exists ctr, WF_store ctr tr' /\ iscan_inv tr'.
  Proof.
    intros Hb. destruct ex_iinv as (ctr & W & Hi).
    destruct (removes_iinv ks ex_tree ctr W Hi (keys_bytes ks Hb)) as (tr' & E & W' & Hi').
    exists tr'. split; [exact E|]. exists ctr. split; assumption.
  Qed.

  Example ex2_iinv : exists ctr, WF_store ctr ex_tree2 /\ iscan_inv ex_tree2.
  Proof.
    destruct (removed_iinv gone_keys) as (tr' & E & H); [vm_compute; reflexivity|].
    unfold ex_tree2. rewrite E. exact H.
  Qed.

  Example ex3_iinv : exists ctr, WF_store ctr ex_tree3 /\ iscan_inv ex_tree3.
  Proof.
    destruct (removed_iinv ex_keys) as (tr' & E & H); [vm_compute; reflexivity|].
    unfold ex_tree3. rewrite E. exact H.
  Qed.

  Example ex_iapplies a : bytes (ia_l a) -> bytes (ia_r a) ->
    exists st kvs cbs, iscan_all ex_tree a = Some (st, kvs, cbs) /\
      match iscan_validate a with
      | Some s => st = s /\ kvs = []
      | None => st = St_OK /\ map (fun kv => (fst kv, abs_value (snd kv))) kvs = spec_iscan_list (abs_tree ex_tree) a
      end.
  Proof. intros Hl Hr. destruct ex_iinv as (ctr & W & Hi). exact (iscan_refines_inv ctr ex_tree a W Hi Hl Hr). Qed.

  (** the grids: both directions, all endpoint kinds; endpoints that are stored keys, proper prefixes of
      stored keys, inside next layers, on 8-byte boundaries, longer than 255 bytes *)
  Definition aval_eqb (x y : aval) : bool :=
    Nat.eqb (length (av_bytes x)) (length (av_bytes y)) &&
    forallb (fun pr => fst pr =? snd pr) (combine (av_bytes x) (av_bytes y)) &&
    Bool.eqb (av_inline x) (av_inline y).
  Definition kvl_eqb (a b : list (key * aval)) : bool :=
    Nat.eqb (length a) (length b) &&
    forallb (fun pr => key_eqb (fst (fst pr)) (fst (snd pr)) && aval_eqb (snd (fst pr)) (snd (snd pr))) (combine a b).
  Definition icheck (tr : tree) (a : iscan_args) : bool :=
    match iscan_all tr a with
    | None => false
    | Some (st, kvs, _) =>
      match iscan_validate a with
      | Some s => match kvs, st, s with [], St_ERR_BAD_USAGE, St_ERR_BAD_USAGE => true | _, _, _ => false end
      | None => match st with
                | St_OK => kvl_eqb (map (fun kv => (fst kv, abs_value (snd kv))) kvs) (spec_iscan_list (abs_tree tr) a)
                | _ => false
                end
      end
    end.
  Definition mk_args (ls : list key) (rs : list key) : list iscan_args :=
    flat_map (fun l => flat_map (fun le => flat_map (fun r => flat_map (fun re => flat_map (fun rtl =>
      [{| ia_l := l; ia_le := le; ia_r := r; ia_re := re; ia_rtl := rtl; ia_lnull := false; ia_rnull := false |}])
      [false; true]) eps) rs) eps) ls.
  Definition iex_args : list iscan_args :=
    mk_args [[]; [7;0]; p8; p8 ++ [5]; p8 ++ p8] [p8; p8 ++ p8 ++ [1]; f8 ++ [3]; [10;1]]
    ++ mk_args [repeat 7 256; f8] [repeat 7 300; f8 ++ [4]]
    ++ mk_args [[3;1]] [[3;1]; []].
  Definition iex_args_small : list iscan_args :=
    mk_args [[]; p8 ++ [5]; p8 ++ p8] [p8 ++ p8 ++ [1]; f8 ++ [3]].

  Example iex_args_length : (length iex_args, length iex_args_small) = (468%nat, 108%nat).
  Proof. vm_compute. reflexivity. Qed.

  Lemma aval_eqb_refl x : aval_eqb x x = true.
  Proof.
    unfold aval_eqb. rewrite Nat.eqb_refl, eqb_reflx, andb_true_r. cbn [andb].
    induction (av_bytes x) as [|b l IH]; [reflexivity|]. cbn [combine forallb fst snd]. rewrite N.eqb_refl. exact IH.
  Qed.
  Lemma kvl_eqb_refl l : kvl_eqb l l = true.
  Proof.
    unfold kvl_eqb. rewrite Nat.eqb_refl. cbn [andb].
    induction l as [|x l IH]; [reflexivity|].
    cbn [combine forallb fst snd]. rewrite key_eqb_refl, aval_eqb_refl. exact IH.
  Qed.

  (* The grids are not evaluated: every argument record of [mk_args] has byte-string endpoints, so
     [iscan_refines_inv] gives [icheck] on any store that satisfies its hypotheses. *)
  Lemma icheck_grid tr ls rs :
    (exists ctr, WF_store ctr tr /\ iscan_inv tr) -> Forall bytes ls -> Forall bytes rs ->
    forallb (icheck tr) (mk_args ls rs) = true.
  Proof.
    intros (ctr & W & Hi) Bl Br. rewrite Forall_forall in Bl, Br. apply forallb_forall. intros a Ha.
    assert (bytes (ia_l a) /\ bytes (ia_r a)) as [Hl Hr].
    { unfold mk_args in Ha. repeat (apply in_flat_map in Ha; destruct Ha as (? & ? & Ha)).
      destruct Ha as [<-|[]]. split; [apply Bl|apply Br]; assumption. }
    destruct (iscan_refines_inv ctr tr a W Hi Hl Hr) as (st & kvs & cbs & E & H).
    unfold icheck. rewrite E. destruct (iscan_validate a) as [s|] eqn:V.
    - destruct H as [-> ->]. rewrite (proj2 (proj2 (iscan_validate_spec a)) s V). reflexivity.
    - destruct H as [-> <-]. apply kvl_eqb_refl.
  Qed.

  Example iex_checks : forallb (icheck ex_tree) iex_args = true.
  Proof.
    unfold iex_args. rewrite 2!forallb_app.
    apply andb_true_intro; split; [|apply andb_true_intro; split];
      apply (icheck_grid _ _ _ ex_iinv); apply keys_bytes; reflexivity.
  Qed.
  Example iex_checks2 : forallb (icheck ex_tree2) iex_args_small = true.
  Proof. apply (icheck_grid _ _ _ ex2_iinv); apply keys_bytes; reflexivity. Qed.
  Example iex_checks3 : forallb (icheck ex_tree3) iex_args_small = true.
  Proof. apply (icheck_grid _ _ _ ex3_iinv); apply keys_bytes; reflexivity. Qed.
End IScanExample.

(** ** axiom audit *)
Print Assumptions iscan_validate_spec.
Print Assumptions iscan_refines_inv.
Print Assumptions iscan_inv_null.
Print Assumptions iscan_inv_empty.
Print Assumptions put_iscan_inv.
Print Assumptions remove_iscan_inv.
Print Assumptions IScanCounterexample.iscan_refines_needs_iscan_live.
Print Assumptions IScanCounterexample.iscan_refines_all_false_from_scan_inv.
Print Assumptions IScanExample.ex_iinv.
Print Assumptions IScanExample.ex2_iinv.
Print Assumptions IScanExample.ex3_iinv.
Print Assumptions IScanExample.ex_iapplies.
Print Assumptions IScanExample.iex_checks.
Print Assumptions IScanExample.iex_checks2.
Print Assumptions IScanExample.iex_checks3.
