(** * ListAux: [insert_at] and [remove_at], two list operations of the model (BorderDefs edits the
    permutation of a border with them, TreeDefs the key and child lists of an interior node; both are
    extracted), and the list lemmas of the development that the 8.16 standard library lacks: [nth], [firstn]
    and [skipn] of a list edited by the two operations, [NoDup], [filter], sortedness as [StronglySorted]
    (ChainProofs.pairwise and BorderProofs.ksorted are fixed definitions of their own and are bridged to it
    where they stand), a list in the order in which a scan of either direction meets it ([in_dir]), and last
    the induction over a run of a step function, which the proofs about the concurrent models share. *)
From Coq Require Import PeanoNat BinNat Lia Bool List Sorted Permutation.
Import ListNotations.

Definition insert_at {A} (r : nat) (x : A) (l : list A) : list A := firstn r l ++ x :: skipn r l.
Definition remove_at {A} (r : nat) (l : list A) : list A := firstn r l ++ skipn (S r) l.

(** ** [nth] *)
Lemma nth_firstn {A} (d : A) l n i :
  nth i (firstn n l) d = if i <? n then nth i l d else d.
Proof.
  revert n i. induction l as [|a l IH]; intros n i.
  - rewrite firstn_nil. destruct i; destruct (_ <? _); reflexivity.
  - destruct n as [|n].
    + cbn [firstn]. destruct i; reflexivity.
    + destruct i as [|i]; [reflexivity|]. cbn [firstn nth]. rewrite IH.
      destruct (Nat.ltb_spec i n); destruct (Nat.ltb_spec (S i) (S n)); try lia; reflexivity.
Qed.

Lemma nth_skipn {A} (d : A) l n i : nth i (skipn n l) d = nth (n + i) l d.
Proof.
  revert l. induction n as [|n IH]; intros l; [reflexivity|].
  destruct l as [|a l]; [destruct i; reflexivity|]. cbn [skipn]. rewrite IH. reflexivity.
Qed.

Lemma nth_insert_at {A} (d x : A) l r i :
  (r <= length l)%nat ->
  nth i (insert_at r x l) d =
    if (i <? r)%nat then nth i l d else if (i =? r)%nat then x else nth (i - 1)%nat l d.
Proof.
  intros Hr. unfold insert_at.
  destruct (Nat.ltb_spec i r) as [H|H].
  - rewrite app_nth1 by (rewrite firstn_length; lia).
    rewrite nth_firstn. destruct (Nat.ltb_spec i r); [reflexivity|lia].
  - rewrite app_nth2 by (rewrite firstn_length; lia).
    rewrite firstn_length, Nat.min_l by lia.
    destruct (Nat.eqb_spec i r) as [->|Hne].
    + rewrite Nat.sub_diag. reflexivity.
    + destruct (i - r)%nat as [|k] eqn:E; [lia|]. cbn [nth].
      rewrite nth_skipn. f_equal. lia.
Qed.

Lemma nth_remove_at {A} (d : A) l r i :
  (r < length l)%nat ->
  nth i (remove_at r l) d = if (i <? r)%nat then nth i l d else nth (S i) l d.
Proof.
  intros Hr. unfold remove_at.
  destruct (Nat.ltb_spec i r) as [H|H].
  - rewrite app_nth1 by (rewrite firstn_length; lia).
    rewrite nth_firstn. destruct (Nat.ltb_spec i r); [reflexivity|lia].
  - rewrite app_nth2 by (rewrite firstn_length; lia).
    rewrite firstn_length, Nat.min_l by lia.
    rewrite nth_skipn. f_equal. lia.
Qed.

Lemma insert_at_length {A} r (x : A) l : (r <= length l)%nat -> length (insert_at r x l) = S (length l).
Proof.
  intros. unfold insert_at. rewrite app_length. cbn [length].
  rewrite firstn_length, skipn_length. lia.
Qed.

Lemma remove_at_length {A} r (l : list A) : (r < length l)%nat -> length (remove_at r l) = (length l - 1)%nat.
Proof.
  intros. unfold remove_at. rewrite app_length, firstn_length, skipn_length. lia.
Qed.

Lemma nth_map_seq {A} (f : nat -> A) a n i d :
  (i < n)%nat -> nth i (map f (seq a n)) d = f (a + i)%nat.
Proof.
  intros H. rewrite (nth_indep _ d (f 0%nat)) by (rewrite map_length, seq_length; exact H).
  rewrite map_nth, seq_nth by exact H. reflexivity.
Qed.

(** ** a list cut at one of its elements *)
Lemma split_at_nth_error {A} (l : list A) r x :
  nth_error l r = Some x -> l = firstn r l ++ x :: skipn (S r) l.
Proof.
  revert l. induction r as [|r IH]; intros [|a l] H; try discriminate.
  - injection H as ->. reflexivity.
  - cbn [firstn skipn app]. f_equal. apply IH. exact H.
Qed.

Lemma split_at_nth {A} (d : A) l r :
  (r < length l)%nat -> l = firstn r l ++ nth r l d :: skipn (S r) l.
Proof. intros H. apply split_at_nth_error. apply nth_error_nth'. exact H. Qed.

Lemma firstn_S_nth_error {A} (l : list A) n x :
  nth_error l n = Some x -> firstn (S n) l = firstn n l ++ [x].
Proof.
  revert n. induction l as [|a l IH]; intros [|n] H; try discriminate.
  - injection H as ->. reflexivity.
  - cbn [nth_error] in H. cbn [firstn app]. f_equal. apply IH. exact H.
Qed.

Lemma skipn_nth_error {A} (l : list A) n x :
  nth_error l n = Some x -> skipn n l = x :: skipn (S n) l.
Proof.
  revert n. induction l as [|a l IH]; intros [|n] H; try discriminate.
  - injection H as ->. reflexivity.
  - cbn [nth_error] in H. cbn [skipn]. apply IH. exact H.
Qed.

Lemma hd_error_skipn {A} n (l : list A) : hd_error (skipn n l) = nth_error l n.
Proof. revert l. induction n as [|n IH]; intros [|a l]; try reflexivity. apply IH. Qed.

Lemma last_cons {A} (l : list A) : forall a d, last (a :: l) d = last l a.
Proof.
  induction l as [|b l IH]; intros a d; [reflexivity|].
  change (last (a :: b :: l) d) with (last (b :: l) d). rewrite (IH b d), (IH b a). reflexivity.
Qed.

Lemma app_cons_assoc {A} (l1 : list A) a d r : l1 ++ a :: d ++ r = (l1 ++ a :: d) ++ r.
Proof. rewrite <- app_assoc. reflexivity. Qed.

(** ** membership *)
Lemma hd_error_in {A} (l : list A) x : hd_error l = Some x -> In x l.
Proof. destruct l; [discriminate|]. cbn. intros H. injection H as ->. left. reflexivity. Qed.

Lemma in_firstn {A} r (y : A) l : In y (firstn r l) -> In y l.
Proof. intros H. rewrite <- (firstn_skipn r l). apply in_or_app. auto. Qed.

Lemma in_skipn {A} r (y : A) l : In y (skipn r l) -> In y l.
Proof. intros H. rewrite <- (firstn_skipn r l). apply in_or_app. auto. Qed.

Lemma in_insert_at {A} r (x y : A) l : In y (insert_at r x l) <-> y = x \/ In y l.
Proof.
  unfold insert_at. rewrite in_app_iff. cbn [In].
  rewrite <- (firstn_skipn r l) at 3. rewrite in_app_iff. intuition congruence.
Qed.

Lemma insert_at_perm {A} r (x : A) l : Permutation (insert_at r x l) (x :: l).
Proof.
  unfold insert_at. symmetry.
  rewrite <- (firstn_skipn r l) at 1. apply Permutation_middle.
Qed.

Lemma in_remove_at {A} (d : A) r y l :
  (r < length l)%nat -> (In y l <-> y = nth r l d \/ In y (remove_at r l)).
Proof.
  intros H. unfold remove_at. rewrite (split_at_nth d l r H) at 1.
  rewrite !in_app_iff. cbn [In]. intuition congruence.
Qed.

Lemma in_remove_at_incl {A} r (y : A) l : In y (remove_at r l) -> In y l.
Proof.
  unfold remove_at. rewrite in_app_iff. intros [H|H].
  - eapply in_firstn; eauto.
  - eapply in_skipn; eauto.
Qed.

Lemma existsb_eqb_In x l : existsb (N.eqb x) l = true <-> In x l.
Proof.
  rewrite existsb_exists. split.
  - intros [y [Hy E]]. apply N.eqb_eq in E. subst. exact Hy.
  - intros H. exists x. split; [exact H|apply N.eqb_refl].
Qed.

(** ** [map], [Forall], [flat_map] through [firstn] / [skipn] / [insert_at] / [remove_at] *)
Lemma map_insert_at {A B} (f : A -> B) r x l :
  map f (insert_at r x l) = insert_at r (f x) (map f l).
Proof. unfold insert_at. rewrite map_app, firstn_map, skipn_map. reflexivity. Qed.

Lemma map_remove_at {A B} (f : A -> B) r l :
  map f (remove_at r l) = remove_at r (map f l).
Proof. unfold remove_at. rewrite map_app, firstn_map, skipn_map. reflexivity. Qed.

Lemma Forall_firstn_skipn {A} (P : A -> Prop) r l :
  Forall P l -> Forall P (firstn r l) /\ Forall P (skipn r l).
Proof. intros H. apply Forall_app. rewrite firstn_skipn. exact H. Qed.

Lemma Forall_firstn {A} (P : A -> Prop) r l : Forall P l -> Forall P (firstn r l).
Proof. intros H. apply (Forall_firstn_skipn P r l H). Qed.

Lemma Forall_skipn {A} (P : A -> Prop) r l : Forall P l -> Forall P (skipn r l).
Proof. intros H. apply (Forall_firstn_skipn P r l H). Qed.

Lemma Forall_insert_at {A} (P : A -> Prop) r x l :
  Forall P l -> P x -> Forall P (insert_at r x l).
Proof.
  intros Hl Hx. apply Forall_app. split; [apply Forall_firstn; exact Hl|].
  constructor; [exact Hx|apply Forall_skipn; exact Hl].
Qed.

Lemma Forall_remove_at {A} (P : A -> Prop) r l : Forall P l -> Forall P (remove_at r l).
Proof.
  intros Hl. apply Forall_app. split; [apply Forall_firstn|apply Forall_skipn]; exact Hl.
Qed.

Lemma flat_map_split {A B} (f : A -> list B) (d : A) l i :
  (i < length l)%nat ->
  flat_map f l = flat_map f (firstn i l) ++ f (nth i l d) ++ flat_map f (skipn (S i) l).
Proof.
  intros H. rewrite (split_at_nth d l i H) at 1. rewrite flat_map_app. cbn [flat_map]. reflexivity.
Qed.

Lemma flat_map_remove_at {A B} (f : A -> list B) l i :
  flat_map f (remove_at i l) = flat_map f (firstn i l) ++ flat_map f (skipn (S i) l).
Proof. unfold remove_at. apply flat_map_app. Qed.

Lemma in_flat_map_nth {A B} (f : A -> list B) (d : A) l y :
  In y (flat_map f l) <-> exists i, (i < length l)%nat /\ In y (f (nth i l d)).
Proof.
  rewrite in_flat_map. split.
  - intros (x & Hx & Hy). destruct (In_nth l x d Hx) as (i & Hi & E).
    exists i. split; [exact Hi|]. rewrite E. exact Hy.
  - intros (i & Hi & Hy). exists (nth i l d). split; [apply nth_In; exact Hi|exact Hy].
Qed.

Lemma in_flat_firstn {A B} (f : A -> list B) d l i x :
  In x (flat_map f (firstn i l)) -> exists j, (j < i)%nat /\ (j < length l)%nat /\ In x (f (nth j l d)).
Proof.
  intros H. apply (in_flat_map_nth f d) in H. destruct H as (j & Hj & Hx).
  rewrite firstn_length in Hj. rewrite nth_firstn in Hx.
  destruct (Nat.ltb_spec j i) as [Hji|Hji]; [|lia]. exists j. split; [exact Hji|]. split; [lia|exact Hx].
Qed.

Lemma in_flat_skipn {A B} (f : A -> list B) d l i x :
  In x (flat_map f (skipn i l)) -> exists j, (i <= j)%nat /\ (j < length l)%nat /\ In x (f (nth j l d)).
Proof.
  intros H. apply (in_flat_map_nth f d) in H. destruct H as (j & Hj & Hx).
  rewrite skipn_length in Hj. rewrite nth_skipn in Hx.
  exists (i + j)%nat. split; [lia|]. split; [lia|exact Hx].
Qed.

Lemma map_flat_map {A B C} (g : B -> C) (h : A -> list B) l :
  map g (flat_map h l) = flat_map (fun x => map g (h x)) l.
Proof. induction l as [|a l IH]; [reflexivity|]. cbn [flat_map]. rewrite map_app, IH. reflexivity. Qed.

Lemma flat_map_rev {A B} (g : A -> list B) l :
  flat_map (fun x => rev (g x)) (rev l) = rev (flat_map g l).
Proof.
  induction l as [|a l IH]; [reflexivity|]. cbn [rev flat_map].
  rewrite flat_map_app, IH, rev_app_distr. cbn [flat_map]. rewrite app_nil_r. reflexivity.
Qed.

(** ** cutting [insert_at i x l] and [remove_at r l] *)
Lemma firstn_remove_at {A} r (l : list A) : firstn r (remove_at r l) = firstn r l.
Proof.
  revert l. induction r as [|r IH]; intros [|a l]; try reflexivity.
  unfold remove_at in *. cbn [firstn skipn app]. f_equal. apply IH.
Qed.

Lemma insert_at_cons {A} i (x a : A) l : insert_at (S i) x (a :: l) = a :: insert_at i x l.
Proof. reflexivity. Qed.

Lemma firstn_insert_at_le {A} (x : A) : forall i n l,
  (i <= n)%nat -> firstn (S n) (insert_at i x l) = insert_at i x (firstn n l).
Proof.
  induction i as [|i IH]; intros n l H.
  - reflexivity.
  - destruct n as [|n]; [lia|]. destruct l as [|a l].
    + unfold insert_at. cbn. destruct i; reflexivity.
    + rewrite insert_at_cons. cbn [firstn]. rewrite insert_at_cons. f_equal.
      apply (IH n l). lia.
Qed.

Lemma skipn_insert_at_le {A} (x : A) : forall i n l,
  (i <= n)%nat -> skipn (S n) (insert_at i x l) = skipn n l.
Proof.
  induction i as [|i IH]; intros n l H.
  - reflexivity.
  - destruct n as [|n]; [lia|]. destruct l as [|a l].
    + unfold insert_at. cbn. destruct n; reflexivity.
    + rewrite insert_at_cons. cbn [skipn]. apply (IH n l). lia.
Qed.

Lemma firstn_insert_at_ge {A} (x : A) : forall n i l,
  (n <= i)%nat -> (i <= length l)%nat -> firstn n (insert_at i x l) = firstn n l.
Proof.
  induction n as [|n IH]; intros i l H1 H2; [reflexivity|].
  destruct i as [|i]; [lia|]. destruct l as [|a l]; [cbn in H2; lia|].
  rewrite insert_at_cons. cbn [firstn]. f_equal. apply IH; [lia|cbn [length] in H2; lia].
Qed.

Lemma skipn_insert_at_ge {A} (x : A) : forall n i l,
  (n <= i)%nat -> (i <= length l)%nat -> skipn n (insert_at i x l) = insert_at (i - n) x (skipn n l).
Proof.
  induction n as [|n IH]; intros i l H1 H2.
  - cbn [skipn]. rewrite Nat.sub_0_r. reflexivity.
  - destruct i as [|i]; [lia|]. destruct l as [|a l]; [cbn in H2; lia|].
    rewrite insert_at_cons. cbn [skipn Nat.sub]. apply IH; [lia|cbn [length] in H2; lia].
Qed.

(** ** [NoDup] *)
Lemma NoDup_app {A} (a b : list A) :
  NoDup (a ++ b) <-> NoDup a /\ NoDup b /\ (forall x, In x a -> In x b -> False).
Proof.
  induction a as [|y a IH]; cbn [app].
  - split; [intros H|intros (_ & H & _); exact H].
    split; [constructor|]. split; [exact H|intros x []].
  - rewrite !NoDup_cons_iff, IH, in_app_iff. split.
    + intros (Hy & H1 & H2 & H3). split; [split; [tauto|exact H1]|]. split; [exact H2|].
      intros x [->|Hx] Hb; [tauto|exact (H3 x Hx Hb)].
    + intros ((Hy & H1) & H2 & H3). split; [|split; [exact H1|split; [exact H2|]]].
      * intros [X|X]; [exact (Hy X)|exact (H3 y (or_introl eq_refl) X)].
      * intros x Hx. apply H3. right. exact Hx.
Qed.

Lemma NoDup_snoc {A} (l : list A) a : NoDup l -> ~ In a l -> NoDup (l ++ [a]).
Proof.
  intros Hl Hn. apply NoDup_app. split; [exact Hl|]. split; [constructor; [intros []|constructor]|].
  intros x Hx [<-|[]]. exact (Hn Hx).
Qed.

Lemma nth_notin_remove_at {A} (d : A) l r :
  NoDup l -> (r < length l)%nat -> ~ In (nth r l d) (remove_at r l).
Proof.
  intros Hnd Hr. rewrite (split_at_nth d l r Hr) in Hnd.
  apply NoDup_remove_2 in Hnd. exact Hnd.
Qed.

Lemma map_NoDup_inj {A B} (f : A -> B) l a b :
  NoDup (map f l) -> In a l -> In b l -> f a = f b -> a = b.
Proof.
  induction l as [|x l IH]; intros Hnd Ha Hb E; [destruct Ha|].
  cbn [map] in Hnd. apply NoDup_cons_iff in Hnd. destruct Hnd as [Hx Hnd].
  destruct Ha as [->|Ha], Hb as [->|Hb].
  - reflexivity.
  - exfalso. apply Hx. rewrite E. apply in_map. exact Hb.
  - exfalso. apply Hx. rewrite <- E. apply in_map. exact Ha.
  - apply IH; assumption.
Qed.

Lemma split_unique {A B} (g : A -> B) (y : A) : forall X Y X' Y',
  NoDup (map g (X ++ y :: Y)) -> X ++ y :: Y = X' ++ y :: Y' -> X = X' /\ Y = Y'.
Proof.
  induction X as [|x X IH]; intros Y X' Y' Hnd E.
  - destruct X' as [|x' X']; cbn [app] in E.
    + injection E as <-. split; reflexivity.
    + exfalso. injection E as <- E. cbn [app map] in Hnd. apply NoDup_cons_iff in Hnd. destruct Hnd as [Hn _].
      apply Hn. rewrite E, map_app. apply in_or_app. right. left. reflexivity.
  - destruct X' as [|x' X']; cbn [app] in E.
    + exfalso. injection E as -> E. cbn [app map] in Hnd. apply NoDup_cons_iff in Hnd. destruct Hnd as [Hn _].
      apply Hn. rewrite map_app. apply in_or_app. right. left. reflexivity.
    + injection E as <- E. cbn [app map] in Hnd. apply NoDup_cons_iff in Hnd. destruct Hnd as [_ Hnd].
      destruct (IH Y X' Y' Hnd E) as [-> ->]. split; reflexivity.
Qed.

Lemma NoDup_map_inj_on {A B} (f : A -> B) (l : list A) :
  NoDup l -> (forall x y, In x l -> In y l -> f x = f y -> x = y) -> NoDup (map f l).
Proof.
  induction 1 as [|a l Ha Hl IH]; intros Hinj; cbn [map]; constructor.
  - intros Hin. apply in_map_iff in Hin. destruct Hin as (x & Hx & Hxl).
    assert (x = a) by (apply Hinj; [right; assumption | left; reflexivity | assumption]).
    subst. contradiction.
  - apply IH. intros x y Hx Hy. apply Hinj; right; assumption.
Qed.

Lemma NoDup_flat_map_key {A B C} (g : A -> C) (f : A -> list B) : forall l,
  NoDup (map g l) -> (forall x, In x l -> NoDup (f x)) ->
  (forall x y b, In x l -> In y l -> In b (f x) -> In b (f y) -> g x = g y) ->
  NoDup (flat_map f l).
Proof.
  induction l as [|a l IH]; intros Hnd Hf Hd; [constructor|]. cbn [flat_map map] in *.
  apply NoDup_cons_iff in Hnd. destruct Hnd as [Ha Hnd].
  apply NoDup_app. split; [|split].
  - apply Hf. left. reflexivity.
  - apply IH; [exact Hnd|intros x Hx; apply Hf; right; exact Hx|].
    intros x y b Hx Hy. apply Hd; right; assumption.
  - intros b Hb1 Hb2. apply in_flat_map in Hb2. destruct Hb2 as (y & Hy & Hb2). apply Ha.
    rewrite (Hd a y b (or_introl eq_refl) (or_intror Hy) Hb1 Hb2). apply in_map. exact Hy.
Qed.

(** ** [filter] *)
Lemma filter_nil_iff {A} (P : A -> bool) l : filter P l = [] <-> forall x, In x l -> P x = false.
Proof.
  induction l as [|a l IH]; cbn [filter]; [split; [intros _ x []|reflexivity]|].
  destruct (P a) eqn:E.
  - split; [discriminate|]. intros H. rewrite (H a (or_introl eq_refl)) in E. discriminate.
  - rewrite IH. split.
    + intros H x [<-|Hx]; [exact E|apply H; exact Hx].
    + intros H x Hx. apply H. right. exact Hx.
Qed.

Lemma filter_rev {A} (P : A -> bool) l : filter P (rev l) = rev (filter P l).
Proof.
  induction l as [|a l IH]; [reflexivity|]. cbn [rev filter]. rewrite filter_app, IH. cbn [filter].
  destruct (P a); [reflexivity|apply app_nil_r].
Qed.

Lemma filter_length_full {A} (f : A -> bool) (l : list A) :
  length (filter f l) <= length l /\
  (length (filter f l) = length l <-> forall x, In x l -> f x = true).
Proof.
  induction l as [|a l [IH1 IH2]]; cbn [filter length].
  - split; [lia|]. split; [intros _ x [] | reflexivity].
  - destruct (f a) eqn:Ha; cbn [length].
    + split; [lia|]. split.
      * intros H x [<-|Hx]; [exact Ha | apply IH2; [lia | exact Hx]].
      * intros H. f_equal. apply IH2. intros x Hx. apply H. right. exact Hx.
    + split; [lia|]. split; [lia|]. intros H. rewrite H in Ha by (left; reflexivity). discriminate.
Qed.

Lemma filter_all {A} (P : A -> bool) l : (forall x, In x l -> P x = true) -> filter P l = l.
Proof.
  induction l as [|a l IH]; intros H; [reflexivity|]. cbn [filter].
  rewrite (H a (or_introl eq_refl)). f_equal. apply IH. intros x Hx. apply H. right. exact Hx.
Qed.

Lemma filter_filter {A} (f g : A -> bool) l : filter f (filter g l) = filter (fun x => g x && f x) l.
Proof.
  induction l as [|a l IH]; [reflexivity|]. cbn [filter]. destruct (g a); cbn [filter andb]; [|exact IH].
  destruct (f a); [rewrite IH; reflexivity|exact IH].
Qed.

Lemma filter_split_perm {A} (f : A -> bool) l : Permutation l (filter f l ++ filter (fun x => negb (f x)) l).
Proof.
  induction l as [|x l IH]; [constructor|]. cbn [filter]. destruct (f x); cbn [negb app].
  - constructor. exact IH.
  - apply Permutation_cons_app, IH.
Qed.

(** ** [StronglySorted] *)
Lemma StronglySorted_cons_iff {A} (R : A -> A -> Prop) x l :
  StronglySorted R (x :: l) <-> StronglySorted R l /\ Forall (R x) l.
Proof. split; [apply StronglySorted_inv|intros [H1 H2]; constructor; assumption]. Qed.

Lemma StronglySorted_app_iff {A} (R : A -> A -> Prop) l1 l2 :
  StronglySorted R (l1 ++ l2) <->
  StronglySorted R l1 /\ StronglySorted R l2 /\ (forall x y, In x l1 -> In y l2 -> R x y).
Proof.
  induction l1 as [|a l1 IH]; cbn [app].
  - split.
    + intros H. split; [constructor|]. split; [exact H|]. intros x y [].
    + intros (_ & H & _). exact H.
  - split.
    + intros H. apply StronglySorted_inv in H. destruct H as [H1 H2].
      apply IH in H1. destruct H1 as (S1 & S2 & C).
      apply Forall_app in H2. destruct H2 as [F1 F2].
      split; [constructor; assumption|]. split; [exact S2|].
      intros x y [<-|Hx] Hy.
      * rewrite Forall_forall in F2. apply F2. exact Hy.
      * apply C; assumption.
    + intros (S1 & S2 & C). apply StronglySorted_inv in S1. destruct S1 as [S1 F1].
      constructor.
      * apply IH. split; [exact S1|]. split; [exact S2|].
        intros x y Hx Hy. apply C; [right; exact Hx|exact Hy].
      * apply Forall_app. split; [exact F1|].
        apply Forall_forall. intros y Hy. apply C; [left; reflexivity|exact Hy].
Qed.

Lemma StronglySorted_snoc {A} (R : A -> A -> Prop) l a :
  StronglySorted R l -> Forall (fun x => R x a) l -> StronglySorted R (l ++ [a]).
Proof.
  intros S F. apply StronglySorted_app_iff. split; [exact S|]. split; [repeat constructor|].
  intros x y Hx [<-|[]]. rewrite Forall_forall in F. apply F, Hx.
Qed.

Lemma StronglySorted_rev {A} (R : A -> A -> Prop) l :
  StronglySorted R l -> StronglySorted (fun a b => R b a) (rev l).
Proof.
  induction 1 as [|a l Hs IH Hf]; [constructor|]. cbn [rev].
  apply StronglySorted_snoc; [exact IH|]. apply Forall_rev. exact Hf.
Qed.

Lemma StronglySorted_filter {A} (R : A -> A -> Prop) (P : A -> bool) l :
  StronglySorted R l -> StronglySorted R (filter P l).
Proof.
  induction 1 as [|a l Hs IH Hf]; [constructor|]. cbn [filter]. destruct (P a); [|exact IH].
  constructor; [exact IH|]. rewrite Forall_forall in *. intros x Hx. apply Hf. apply filter_In in Hx. apply Hx.
Qed.

Lemma StronglySorted_map_iff {A B} (f : A -> B) (R : B -> B -> Prop) l :
  StronglySorted R (map f l) <-> StronglySorted (fun a b => R (f a) (f b)) l.
Proof.
  induction l as [|x l IH]; [split; constructor|]. cbn [map].
  rewrite !StronglySorted_cons_iff, IH, Forall_map. reflexivity.
Qed.

Lemma StronglySorted_nth {A} (R : A -> A -> Prop) d l :
  StronglySorted R l -> forall i j, (i < j < length l)%nat -> R (nth i l d) (nth j l d).
Proof.
  induction 1 as [|a l S IH F]; intros i j Hij; cbn [length] in Hij; [lia|].
  destruct j as [|j]; [lia|]. destruct i as [|i]; cbn [nth].
  - rewrite Forall_forall in F. apply F, nth_In. lia.
  - apply IH. lia.
Qed.

Lemma StronglySorted_firstn {A} (R : A -> A -> Prop) r l : StronglySorted R l -> StronglySorted R (firstn r l).
Proof. intros H. rewrite <- (firstn_skipn r l) in H. apply StronglySorted_app_iff in H. apply H. Qed.

Lemma StronglySorted_skipn {A} (R : A -> A -> Prop) r l : StronglySorted R l -> StronglySorted R (skipn r l).
Proof. intros H. rewrite <- (firstn_skipn r l) in H. apply StronglySorted_app_iff in H. apply H. Qed.

Lemma StronglySorted_insert_at {A} (R : A -> A -> Prop) r x l :
  StronglySorted R l -> Forall (fun a => R a x) (firstn r l) -> Forall (R x) (skipn r l) ->
  StronglySorted R (insert_at r x l).
Proof.
  intros Hs H1 H2. rewrite <- (firstn_skipn r l) in Hs. apply StronglySorted_app_iff in Hs. destruct Hs as (S1 & S2 & C).
  apply StronglySorted_app_iff. split; [exact S1|]. split; [constructor; assumption|].
  intros a b Ha [<-|Hb]; [rewrite Forall_forall in H1; apply H1, Ha|apply C; assumption].
Qed.

Lemma StronglySorted_remove_at {A} (R : A -> A -> Prop) r l : StronglySorted R l -> StronglySorted R (remove_at r l).
Proof.
  intros H. unfold remove_at. destruct (nth_error l r) as [x|] eqn:E.
  - rewrite (split_at_nth_error l r x E) in H. apply StronglySorted_app_iff in H. destruct H as (S1 & S2 & C).
    apply StronglySorted_inv in S2. apply StronglySorted_app_iff. split; [exact S1|]. split; [apply S2|].
    intros a b Ha Hb. apply C; [exact Ha|right; exact Hb].
  - apply nth_error_None in E. rewrite firstn_all2, skipn_all2 by lia. rewrite app_nil_r. exact H.
Qed.

Lemma StronglySorted_NoDup {A} (R : A -> A -> Prop) l : (forall a, ~ R a a) -> StronglySorted R l -> NoDup l.
Proof.
  intros Hirr. induction 1 as [|a l S IH F]; constructor; [|exact IH].
  intros Hin. rewrite Forall_forall in F. exact (Hirr a (F a Hin)).
Qed.

Lemma StronglySorted_ext {A} (R : A -> A -> Prop) : (forall a b, R a b -> ~ R b a) ->
  forall l1 l2, StronglySorted R l1 -> StronglySorted R l2 -> (forall x, In x l1 <-> In x l2) -> l1 = l2.
Proof.
  intros Hasym. induction l1 as [|a l1 IH]; intros l2 S1 S2 H.
  - destruct l2 as [|b l2]; [reflexivity|]. exfalso. apply (H b). left. reflexivity.
  - destruct l2 as [|b l2]; [exfalso; apply (H a); left; reflexivity|].
    apply StronglySorted_inv in S1, S2. destruct S1 as [S1 L1], S2 as [S2 L2].
    rewrite Forall_forall in L1, L2.
    assert (a = b) as ->.
    { destruct (proj1 (H a) (or_introl eq_refl)) as [->|Ha]; [reflexivity|].
      destruct (proj2 (H b) (or_introl eq_refl)) as [->|Hb]; [reflexivity|].
      elim (Hasym _ _ (L1 _ Hb) (L2 _ Ha)). }
    f_equal. apply IH; [exact S1|exact S2|]. intros x. split; intros Hx.
    + destruct (proj1 (H x) (or_intror Hx)) as [<-|X]; [|exact X]. elim (Hasym _ _ (L1 _ Hx) (L1 _ Hx)).
    + destruct (proj2 (H x) (or_intror Hx)) as [<-|X]; [|exact X]. elim (Hasym _ _ (L2 _ Hx) (L2 _ Hx)).
Qed.

Lemma StronglySorted_flat_map {A B} (Q : A -> A -> Prop) (R : B -> B -> Prop) (g : A -> list B) l :
  StronglySorted Q l ->
  (forall x, In x l -> StronglySorted R (g x)) ->
  (forall x y, In x l -> In y l -> Q x y -> forall u w, In u (g x) -> In w (g y) -> R u w) ->
  StronglySorted R (flat_map g l).
Proof.
  induction l as [|x l IH]; intros S Hs Hc; [constructor|]. cbn [flat_map].
  apply StronglySorted_inv in S. destruct S as [S F]. rewrite Forall_forall in F.
  apply StronglySorted_app_iff. split; [|split].
  - apply Hs. left. reflexivity.
  - apply IH; [exact S| |].
    + intros y Hy. apply Hs. right. exact Hy.
    + intros a b Ha Hb. apply Hc; right; assumption.
  - intros u w Hu Hw. apply in_flat_map in Hw. destruct Hw as (y & Hy & Hw).
    apply (Hc x y); [left; reflexivity|right; exact Hy|apply F; exact Hy|exact Hu|exact Hw].
Qed.

(** ** sums and lengths *)
Lemma list_sum_map_rev {A} (g : A -> nat) l : list_sum (map g (rev l)) = list_sum (map g l).
Proof.
  induction l as [|a l IH]; [reflexivity|]. cbn [rev map]. rewrite map_app, list_sum_app, IH.
  cbn [map list_sum]. unfold list_sum. cbn [fold_right]. lia.
Qed.

Lemma sum_S_length {A B} (g : A -> list B) L :
  list_sum (map (fun l => S (length (g l))) L) = (length (flat_map g L) + length L)%nat.
Proof.
  induction L as [|a L IH]; [reflexivity|]. cbn [map flat_map length]. rewrite app_length.
  unfold list_sum in *. cbn [fold_right]. rewrite IH. lia.
Qed.

Lemma flat_map_length_eq {A B C} (g : A -> list B) (h : A -> list C) l :
  (forall x, In x l -> length (g x) = length (h x)) -> length (flat_map g l) = length (flat_map h l).
Proof.
  induction l as [|a l IH]; intros H; [reflexivity|]. cbn [flat_map]. rewrite !app_length.
  rewrite (H a (or_introl eq_refl)), IH; [reflexivity|]. intros x Hx. apply H. right. exact Hx.
Qed.

Lemma removelast_length {A} (l : list A) : length (removelast l) = (length l - 1)%nat.
Proof.
  induction l as [|a l IH]; [reflexivity|]. destruct l as [|b l]; [reflexivity|].
  change (removelast (a :: b :: l)) with (a :: removelast (b :: l)). cbn [length] in *. lia.
Qed.

Lemma snoc_neq {A} (p : list A) x : p ++ [x] <> p.
Proof. intros H. apply (f_equal (@length A)) in H. rewrite app_length in H. cbn in H. lia. Qed.

Lemma snoc_neq' {A} (p : list A) x : p <> p ++ [x].
Proof. intros H. symmetry in H. exact (snoc_neq p x H). Qed.

Lemma snoc_app_neq {A} (p r : list A) x : p <> (p ++ [x]) ++ r.
Proof. intros H. apply (f_equal (@length A)) in H. rewrite !app_length in H. cbn in H. lia. Qed.

(** ** a list met from either end
    [in_dir rtl l] is [l] in the order in which a scan meets it, right to left if [rtl].  A statement
    about it that does not depend on the direction ends by [if_same]. *)
Definition in_dir {A} (rtl : bool) (l : list A) : list A := if rtl then rev l else l.

Lemma if_same {A} (b : bool) (x : A) : (if b then x else x) = x.
Proof. destruct b; reflexivity. Qed.

Lemma in_dir_In {A} rtl (l : list A) x : In x (in_dir rtl l) <-> In x l.
Proof. destruct rtl; [symmetry; apply in_rev|reflexivity]. Qed.

Lemma in_dir_map {A B} rtl (g : A -> B) l : map g (in_dir rtl l) = in_dir rtl (map g l).
Proof. destruct rtl; [apply map_rev|reflexivity]. Qed.

Lemma in_dir_nil {A} rtl : in_dir rtl (@nil A) = [].
Proof. apply if_same. Qed.

Lemma in_dir_length {A} rtl (l : list A) : length (in_dir rtl l) = length l.
Proof. destruct rtl; [apply rev_length|reflexivity]. Qed.

Lemma in_dir_eq_nil {A} rtl (l : list A) : in_dir rtl l = [] <-> l = [].
Proof. rewrite <- !length_zero_iff_nil, in_dir_length. reflexivity. Qed.

Lemma in_dir_flat_map {A B} rtl (g : A -> list B) l :
  flat_map (fun x => in_dir rtl (g x)) (in_dir rtl l) = in_dir rtl (flat_map g l).
Proof. destruct rtl; [apply flat_map_rev|reflexivity]. Qed.

Lemma in_dir_filter {A} rtl (f : A -> bool) l : filter f (in_dir rtl l) = in_dir rtl (filter f l).
Proof. destruct rtl; [apply filter_rev|reflexivity]. Qed.

Lemma in_dir_NoDup {A} rtl (l : list A) : NoDup l -> NoDup (in_dir rtl l).
Proof. destruct rtl; [apply NoDup_rev|exact (fun H => H)]. Qed.

Lemma in_dir_Forall {A} rtl (P : A -> Prop) l : Forall P l -> Forall P (in_dir rtl l).
Proof. destruct rtl; [apply Forall_rev|exact (fun H => H)]. Qed.

Lemma in_dir_list_sum {A} rtl (g : A -> nat) l : list_sum (map g (in_dir rtl l)) = list_sum (map g l).
Proof. destruct rtl; [apply list_sum_map_rev|reflexivity]. Qed.

(** around an element: what stood behind it is met before it right to left *)
Lemma in_dir_elt {A} rtl (a : list A) x b :
  in_dir rtl (a ++ x :: b) = in_dir rtl (if rtl then b else a) ++ x :: in_dir rtl (if rtl then a else b).
Proof.
  destruct rtl; [|reflexivity]. cbn [in_dir]. rewrite rev_app_distr. cbn [rev]. rewrite <- app_assoc. reflexivity.
Qed.

(** ** runs of a step function.  Each model has a fixed [run] of its own (crun, brun, srun2, lrun, ...), so [run]
    is a variable here; every one of them unfolds as the fold [run_eq] by [destruct evs; reflexivity]. *)
Section Run.
  Context {A E : Type} (step : A -> E -> option A) (run : A -> list E -> option A).
  Hypothesis run_eq : forall s evs,
    run s evs = match evs with
                | [] => Some s
                | e :: tl => match step s e with Some s' => run s' tl | None => None end
                end.

  Lemma run_inv_ev (Q : E -> Prop) (P : A -> Prop) :
    (forall s e s', Q e -> P s -> step s e = Some s' -> P s') ->
    forall evs s s', (forall e, In e evs -> Q e) -> P s -> run s evs = Some s' -> P s'.
  Proof.
    intros Hstep. induction evs as [|e evs IH]; intros s s' HQ HP; rewrite run_eq.
    - intros H. injection H as <-. exact HP.
    - destruct (step s e) as [s1|] eqn:E1; [|discriminate]. intros H.
      apply (IH s1 s'); [intros e' He'; apply HQ; right; exact He'| |exact H].
      eapply Hstep; eauto. apply HQ. left. reflexivity.
  Qed.

  Lemma run_inv (P : A -> Prop) :
    (forall s e s', P s -> step s e = Some s' -> P s') ->
    forall evs s s', P s -> run s evs = Some s' -> P s'.
  Proof.
    intros Hstep evs s s'. apply (run_inv_ev (fun _ => True) P); [intros s0 e s1 _; apply Hstep|intros e _; exact I].
  Qed.

  Lemma run_app evs1 : forall s evs2,
    run s (evs1 ++ evs2) = match run s evs1 with Some s1 => run s1 evs2 | None => None end.
  Proof.
    induction evs1 as [|e evs1 IH]; intros s evs2; cbn [app].
    - rewrite (run_eq s []). reflexivity.
    - rewrite (run_eq s (e :: evs1 ++ evs2)), (run_eq s (e :: evs1)). destruct (step s e); [apply IH|reflexivity].
  Qed.
End Run.
