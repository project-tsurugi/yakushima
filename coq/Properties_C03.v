(** * C03 -- range scan returns exactly the keys of the requested interval.
    (Property theorems; the refinement theorem is proved in ScanProofs.) *)
From Coq Require Import NArith List.
From Yk Require Import SysDefs SpecDefs KeyDefs KeyProofs TreeDefs ScanDefs StoreProofs ScanProofs
     SysProofs SysScanProofs.
Import ListNotations.
Local Open Scope N_scope.

(** The scan of the source before the repair of F1 did NOT ignore the key passed with an INF
    left endpoint: on a two-border tree, scan(l_key = [19], INF, "", INF) starts at the
    border of key 19 and misses the keys of the left border.  [scan_orig] models that
    behaviour; the witness is the replay of finding F1. *)
Definition c03_build : list op :=
  OCreate [115] :: map (fun i => OPut [115] [N.of_nat i] [N.of_nat i] 1 false false) (seq 0 20).
Definition c03_args : scan_args :=
  {| sa_l := [19]; sa_le := EP_INF; sa_r := []; sa_re := EP_INF; sa_max := 0%nat; sa_rtl := false;
     sa_lnull := false; sa_rnull := false |}.

Theorem C03_original_inf_ignores_key_refuted :
  exists tr m,
    trees_get (sy_trees (fst (exec_all sys_init c03_build))) 1 = Some tr /\
    ssys_get (sp_map (fst (spec_exec_all spec_init c03_build))) [115] = Some m /\
    option_map (fun o => map (fun kv => (fst kv, abs_value (snd kv))) (so_tuples o)) (scan_orig tr c03_args)
      <> Some (spec_scan_list m c03_args) /\
    option_map (fun o => map (fun kv => (fst kv, abs_value (snd kv))) (so_tuples o)) (scan tr c03_args)
      = Some (spec_scan_list m c03_args).
Proof.
  eexists. eexists. split; [vm_compute; reflexivity|]. split; [vm_compute; reflexivity|].
  split; [vm_compute; intros H; discriminate H|vm_compute; reflexivity].
Qed.
Print Assumptions C03_original_inf_ignores_key_refuted.

(** ** The refinement theorem (ScanProofs): on every store reached by puts and removes, for every interval
    (all endpoint kinds, keys of any length incl. > 255 bytes), every max_size and both directions, the scan
    returns exactly the interval filter of the store's map, in key order. *)

Theorem C03_scan_is_interval_filter : forall ctr tr a,
  WF_store ctr tr -> scan_inv tr -> bytes (sa_l a) -> bytes (sa_r a) ->
  exists o, scan tr a = Some o /\
    if spec_scan_args_ok a
    then so_status o = (if t_null tr then St_OK_ROOT_IS_NULL else St_OK) /\
         map (fun kv => (fst kv, abs_value (snd kv))) (so_tuples o) = spec_scan_list (abs_tree tr) a
    else so_status o = St_ERR_BAD_USAGE /\ so_tuples o = [].
Proof. exact scan_refines_all. Qed.
Print Assumptions C03_scan_is_interval_filter.

(** the two side conditions are invariants of the store operations (and hold initially) *)
Theorem C03_scan_inv_reachable :
  scan_inv null_tree /\ (forall id, scan_inv (empty_tree id)) /\
  (forall ctr tr k v unique tr' po ctr',
     WF_store ctr tr -> bytes k -> put tr k v unique ctr = Some (tr', po, ctr') -> scan_inv tr -> scan_inv tr') /\
  (forall tr k tr' ro, remove tr k = Some (tr', ro) -> scan_inv tr -> scan_inv tr').
Proof.
  split; [exact scan_inv_null|]. split; [exact scan_inv_empty|]. split; [exact put_scan_inv|exact remove_scan_inv].
Qed.
Print Assumptions C03_scan_inv_reachable.

(** argument validation: exactly the empty / inverted intervals are rejected *)
Theorem C03_scan_validate : forall a,
  (scan_validate a = None <-> spec_scan_args_ok a = true) /\
  (spec_scan_args_ok a = false -> scan_validate a = Some St_ERR_BAD_USAGE).
Proof. exact scan_validate_spec. Qed.
Print Assumptions C03_scan_validate.

(** without the side conditions the statement is false: a well-formed but unreachable store whose
    non-empty root border is flagged deleted (the [root_live] half; that the separator half is needed
    as well is [ScanCounterexamples.scan_refines_needs_rtl_ok]) *)
Theorem C03_side_conditions_needed :
  ~ (forall ctr tr a, WF_store ctr tr -> t_null tr = false -> bytes (sa_l a) -> bytes (sa_r a) ->
       exists o, scan tr a = Some o /\
         if spec_scan_args_ok a
         then so_status o = St_OK /\
              map (fun kv => (fst kv, abs_value (snd kv))) (so_tuples o) = spec_scan_list (abs_tree tr) a
         else so_status o = St_ERR_BAD_USAGE /\ so_tuples o = []).
Proof.
  intros H.
  destruct ScanCounterexamples.scan_refines_needs_root_live
    as (ctr & tr & a & W & Hn & Hl & Hr & _ & Hok & o & Es & _ & Et & Esp).
  destruct (H ctr tr a W Hn Hl Hr) as (o' & Es' & Ho). rewrite Es in Es'. injection Es' as <-.
  rewrite Hok, Et, Esp in Ho. destruct Ho as [_ Ho]. discriminate Ho.
Qed.
Print Assumptions C03_side_conditions_needed.

(** ** System level (SysScanProofs): after ANY history of storage and data operations, a scan of any storage
    returns exactly what the map-of-maps specification returns (status and tuples) *)
Theorem C03_sys_scan_exact : forall ops n a, Forall op_bytes ops -> op_bytes (OScan n a) ->
  abs_out (snd (exec (fst (exec_all sys_init ops)) (OScan n a))) =
  snd (spec_exec (fst (spec_exec_all spec_init ops)) (OScan n a)).
Proof. exact sys_scan_exact. Qed.
Print Assumptions C03_sys_scan_exact.
