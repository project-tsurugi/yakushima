(** * C01 -- point operations on one border node (get / put / unique put /
    remove), one shared-memory access per step, any number of threads, any
    interleaving, with the repaired reader ([fixed = true]): get is
    linearizable inside its interval and never returns a null value, the
    writers take effect atomically under the lock, the lock bit is a mutex and
    the unlocked node represents the abstract map.  The original reader
    ([fixed = false]) is refuted.  [t_seen] = the bindings the operation's key
    had since the invocation (ghost, BorderDefs.v).
    Property theorems only. *)
From Coq Require Import NArith List PeanoNat.
From Yk Require Import BorderDefs BorderProofs ChainDefs ChainGetDefs ChainGetProofs.
Local Open Scope N_scope.

(** (G) a finished get returns either a non-null value that was the binding of
    its key at some instant of its interval, or NOT_EXIST and the key was
    unbound at some instant of its interval *)
Theorem C01_border_get_interval : forall tr s t k r,
  brun true binit tr = Some s ->
  t_op (b_thr s t) = Some (OpGet k) -> t_pc (b_thr s t) = PDone r ->
  (exists w, r = ROkVal w /\ w <> 0 /\ In (Some w) (t_seen (b_thr s t))) \/
  (r = RNotExist /\ In None (t_seen (b_thr s t))).
Proof.
  intros tr s t k r Hrun Ho Hpc. pose proof (inv_done_res s t _ _ (inv_reachable tr s Hrun) Ho Hpc) as HP.
  destruct r; cbn [res_ok] in HP; try contradiction.
  - left. exists v. destruct HP. auto.
  - right. auto.
Qed.
Print Assumptions C01_border_get_interval.

(** (R)+(U) results of remove / put / unique put are justified by a binding
    inside the interval; the three linearization steps run under the lock and
    really unbind a bound key / overwrite a bound key / bind an unbound key *)
Theorem C01_border_writers_atomic : forall tr s t,
  brun true binit tr = Some s ->
  let th := b_thr s t in
  (forall k r, t_op th = Some (OpRem k) -> t_pc th = PDone r ->
     (r = ROk \/ r = RNotFound) /\ In None (t_seen th)) /\
  (forall k v r, t_op th = Some (OpPut k v) -> t_pc th = PDone r ->
     r = ROk /\ In (Some v) (t_seen th)) /\
  (forall k v r, t_op th = Some (OpUput k v) -> t_pc th = PDone r ->
     (r = ROk /\ In (Some v) (t_seen th)) \/ (r = RUnique /\ exists w, In (Some w) (t_seen th))) /\
  (forall sl rk, t_pc th = PClear sl rk ->
     exists k, t_op th = Some (OpRem k) /\ b_locked s = true /\
               bm s k = Some (b_lvs s sl) /\ b_lvs s sl <> 0) /\
  (forall sl, t_pc th = POverwrite sl ->
     exists o, t_op th = Some o /\ b_locked s = true /\
               bm s (op_key o) = Some (b_lvs s sl) /\ b_lvs s sl <> 0) /\
  (forall sl r, t_pc th = PStorePerm sl r ->
     exists o, t_op th = Some o /\ b_locked s = true /\ bm s (op_key o) = None).
Proof.
  intros tr s t Hrun th. pose proof (inv_reachable tr s Hrun) as HI. unfold th.
  split; [|split; [|split; [|split; [|split]]]].
  - intros k r Ho Hpc. pose proof (inv_done_res s t _ _ HI Ho Hpc) as HP. destruct r; try contradiction; auto.
  - intros k v r Ho Hpc. pose proof (inv_done_res s t _ _ HI Ho Hpc) as HP. destruct r; try contradiction; auto.
  - intros k v r Ho Hpc. pose proof (inv_done_res s t _ _ HI Ho Hpc) as HP. destruct r; try contradiction; auto.
  - intros sl rk Hpc. destruct (inv_cs_op s t _ HI Hpc eq_refl) as (L & o & Ho).
    destruct (inv_clear_bound s t o _ _ HI Ho Hpc) as (Hrem & Hz & Hb).
    destruct o as [|k0 v0|k0 v0|k]; try contradiction. exists k. auto.
  - intros sl Hpc. destruct (inv_cs_op s t _ HI Hpc eq_refl) as (L & o & Ho).
    exists o. destruct (inv_overwrite_bound s t o sl HI Ho Hpc). auto.
  - intros sl r Hpc. destruct (inv_cs_op s t _ HI Hpc eq_refl) as (L & o & Ho).
    exists o. auto using (inv_storeperm_unbound s t o sl r HI Ho Hpc).
Qed.
Print Assumptions C01_border_writers_atomic.

(** (M) mutual exclusion and representation *)
Theorem C01_border_lock_and_representation : forall tr s,
  brun true binit tr = Some s ->
  (b_locked s = true <->
   exists t, in_cs (t_pc (b_thr s t)) = true /\
             forall t', in_cs (t_pc (b_thr s t')) = true -> t' = t) /\
  (b_locked s = false ->
     NoDup (b_perm s) /\
     (forall i j, (i < j < length (b_perm s))%nat ->
        b_keys s (nth i (b_perm s) 0%nat) < b_keys s (nth j (b_perm s) 0%nat)) /\
     (forall sl, In sl (b_perm s) -> b_lvs s sl <> 0) /\
     (forall k, bm s k = match find_rank (b_keys s) (b_perm s) k 0 with
                         | Some (_, sl) => Some (b_lvs s sl)
                         | None => None
                         end) /\
     b_insdel s = false) /\
  (forall t, in_cs (t_pc (b_thr s t)) = true -> b_insdel s = in_ins (t_pc (b_thr s t))) /\
  NoDup (b_perm s) /\
  (forall k, bm s k = match find_rank (b_keys s) (b_perm s) k 0 with
                      | Some (_, sl) => if b_lvs s sl =? 0 then None else Some (b_lvs s sl)
                      | None => None
                      end).
Proof.
  intros tr s Hrun. pose proof (inv_reachable tr s Hrun) as HI.
  assert (Hnd : NoDup (b_perm s)) by (eapply ksorted_NoDup; apply (I_sorted s HI)).
  split; [|split; [|split; [|split]]].
  - apply inv_mutex, HI.
  - intros L. destruct (I_free s HI L) as (F1 & F2 & F3).
    split; [exact Hnd|]. split; [|split; [exact F2|split; [|exact F1]]].
    + intros i j Hij. apply ksorted_nth; [apply (I_sorted s HI)|exact Hij].
    + intros k. apply (rep_find_rank_free s k HI L).
  - intros t Ht. apply (I_cs s HI t Ht).
  - exact Hnd.
  - intros k. apply rep_find_rank. exact HI.
Qed.
Print Assumptions C01_border_lock_and_representation.

(** the ghost list is what the comments say: it contains the current binding
    and only grows while the operation is in flight (for both readers) *)
Theorem C01_seen_current : forall tr s t o,
  brun true binit tr = Some s -> t_op (b_thr s t) = Some o ->
  In (bm s (op_key o)) (t_seen (b_thr s t)).
Proof. intros tr s t o Hrun Ho. apply (inv_thr_facts s t o (inv_reachable tr s Hrun) Ho). Qed.
Print Assumptions C01_seen_current.

Theorem C01_seen_grows : forall fixed s e s' t,
  bstep fixed s e = Some s' ->
  (forall o, e <> BInvoke t o) -> e <> BReturn t ->
  exists l, t_seen (b_thr s' t) = l ++ t_seen (b_thr s t).
Proof. exact bstep_seen_grows. Qed.
Print Assumptions C01_seen_grows.

(** (X) the original reader returns OK with a null pointer (F3) although
    null was never bound to the key *)
Theorem C01_original_reader_null_refuted :
  exists tr s t, brun false binit tr = Some s /\
    t_op (b_thr s t) = Some (OpGet 5) /\ t_pc (b_thr s t) = PDone (ROkVal 0) /\
    ~ In (Some 0) (t_seen (b_thr s t)).
Proof.
  exists refuting_trace.
  assert (H : match brun false binit refuting_trace with
              | Some s => t_op (b_thr s 1%nat) = Some (OpGet 5) /\ t_pc (b_thr s 1%nat) = PDone (ROkVal 0) /\
                          t_seen (b_thr s 1%nat) = [None; Some 7]
              | None => False
              end) by (vm_compute; auto).
  destruct (brun false binit refuting_trace) as [s|]; [|contradiction]. destruct H as (H1 & H2 & H3).
  exists s, 1%nat. rewrite H3. repeat split; auto. intros [H|[H|[]]]; discriminate H.
Qed.
Print Assumptions C01_original_reader_null_refuted.

(** the hypotheses are satisfiable on a non-trivial run: three threads; the
    get of thread 1 is invoked before the insert of key 5 by thread 0 takes
    effect, is invalidated by that insert (counter 0 -> 1), searches again,
    fetches the value word, is overtaken by the complete remove of thread 2
    (which does not touch the counter) and returns the value 7 *)
Definition C01_trace : list bev :=
  [BInvoke 1 (OpGet 5); BInvoke 0 (OpPut 5 7); BInvoke 2 (OpRem 5)] ++
  repeat (BStep 1) 2 ++ repeat (BStep 0) 11 ++ repeat (BStep 1) 6 ++
  repeat (BStep 2) 10 ++ [BStep 1].

Example C01_nonvacuous :
  match brun true binit C01_trace with
  | Some s =>
    t_op (b_thr s 1%nat) = Some (OpGet 5) /\ t_pc (b_thr s 1%nat) = PDone (ROkVal 7) /\
    t_seen (b_thr s 1%nat) = [None; Some 7; None] /\
    t_pc (b_thr s 0%nat) = PDone ROk /\ t_pc (b_thr s 2%nat) = PDone ROk /\
    bm s 5 = None /\ b_vins s = 1 /\ b_locked s = false
  | None => False
  end.
Proof. vm_compute. repeat split. Qed.

(** ** Lookups across structure modifications (ChainGetProofs): the search of get / put / remove on a layer whose
    leaf chain is modified by inserts, removes, SPLITS and UNLINKS in any interleaving answers with the presence of
    the key at some instant between invocation and response (node granularity; the slot-level protocol inside one
    border is BorderProofs above). *)

Theorem C01_chain_get_linearizable : forall kss evs s b,
  kss_ok kss = true -> grun (ginit kss) evs = Some s ->
  g_pc (g_get s) = GDone b -> In b (g_seen s).
Proof. exact chain_get_linearizable. Qed.
Print Assumptions C01_chain_get_linearizable.

(** the ghost [g_seen] starts with the presence at the current instant *)
Theorem C01_chain_get_seen_head : forall kss evs s,
  kss_ok kss = true -> grun (ginit kss) evs = Some s -> searching (g_get s) = true ->
  hd_error (g_seen s) = Some (present (g_key (g_get s)) (g_c s)).
Proof. exact chain_get_seen_head. Qed.
Print Assumptions C01_chain_get_seen_head.

Example C01_chain_get_nonvacuous : exists evs s, grun (ginit [[10]; [20]]) evs = Some s /\
  g_pc (g_get s) = GDone true /\ (1 <=? g_restarts (g_get s)) = true /\ In false (g_seen s).
Proof. exact chain_get_nonvacuous2. Qed.
